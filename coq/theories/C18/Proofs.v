(** C18/Proofs.v — the stateful matcher collects exactly the structural components (first binding wins), and
    the inferred call type is the declared return type with them substituted. *)
From EV Require Import C18.Model C18.Spec.
Local Open Scope N_scope.

Section TyInd.
  Variable P : ty -> Prop.
  Hypothesis HPrim : forall p, P (TPrim p).
  Hypothesis HStr : forall s, P (TStr s).
  Hypothesis HInt : forall z, P (TInt z).
  Hypothesis HBool : forall b, P (TBool b).
  Hypothesis HRef : forall n, P (TRef n).
  Hypothesis HTC : P TTableConst.
  Hypothesis HArray : forall b, P b -> P (TArray b).
  Hypothesis HTG : forall ps, Forall P ps -> P (TTableGeneric ps).
  Hypothesis HTuple : forall ts, Forall P ts -> P (TTuple ts).
  Hypothesis HFun : forall ps r,
    Forall (fun p => match snd p with Some t => P t | None => True end) ps -> P r -> P (TFun ps r).
  Hypothesis HUnion : forall k ms, Forall P ms -> P (TUnion k ms).
  Hypothesis HTpl : forall i, P (TTpl i).

  Fixpoint ty_ind' (t : ty) : P t :=
    let all := fix go (l : list ty) : Forall P l :=
                 match l with [] => Forall_nil _ | x :: r => Forall_cons x (ty_ind' x) (go r) end in
    match t with
    | TPrim p => HPrim p
    | TStr s => HStr s
    | TInt z => HInt z
    | TBool b => HBool b
    | TRef n => HRef n
    | TTableConst => HTC
    | TArray b => HArray b (ty_ind' b)
    | TTableGeneric ps => HTG ps (all ps)
    | TTuple ts => HTuple ts (all ts)
    | TFun ps r =>
        HFun ps r
          ((fix go (l : list (text * option ty))
              : Forall (fun p => match snd p with Some t => P t | None => True end) l :=
              match l with
              | [] => Forall_nil _
              | (n, ot) :: r' =>
                  Forall_cons (P := fun p => match snd p with Some t => P t | None => True end)
                    (n, ot) (match ot with Some t => ty_ind' t | None => I end) (go r')
              end) ps)
          (ty_ind' r)
    | TUnion k ms => HUnion k ms (all ms)
    | TTpl i => HTpl i
    end.
End TyInd.

Lemma feed_app : forall s l l', feed s (l ++ l') = feed (feed s l) l'.
Proof. intros. unfold feed. apply fold_left_app. Qed.

Lemma feed_nil : forall s, feed s [] = s.
Proof. reflexivity. Qed.

Lemma apply_bapp : forall s l r, apply_bres s (bapp l r) = apply_bres (feed s l) r.
Proof. intros s l [l'|l'|]; cbn [bapp apply_bres]; rewrite ?feed_app; reflexivity. Qed.

Lemma mbind_bseq : forall s r k,
  mbind (apply_bres s r) (fun s' => apply_bres s' k) = apply_bres s (bseq r k).
Proof.
  intros s [l|l|] k; cbn [apply_bres mbind bseq]; [|reflexivity|reflexivity].
  rewrite apply_bapp. reflexivity.
Qed.

Lemma mbind_ext : forall r f g, (forall s, f s = g s) -> mbind r f = mbind r g.
Proof. intros [s|s|] f g H; cbn [mbind]; auto. Qed.

Lemma mbind_cong : forall r r' f g, r = r' -> (forall s, f s = g s) -> mbind r f = mbind r' g.
Proof. intros r r' f g <-. apply mbind_ext. Qed.

Theorem tpl_match_spec : forall e p a s, tpl_match e p a s = apply_bres s (bind_list e p a).
Proof.
  intros e. induction p using ty_ind'; intros a st; cbn [tpl_match bind_list];
    try (destruct (negb (contains_tpl _)); reflexivity).
  - destruct (negb (contains_tpl (TArray p))); [reflexivity|].
    destruct (escape_alias e a); try reflexivity. apply IHp.
  - destruct (negb (contains_tpl (TTableGeneric ps))); [reflexivity|].
    destruct ps as [|pk [|pv [|x r]]]; try reflexivity.
    inversion H as [|? ? Hk Hr]; subst. inversion Hr as [|? ? Hv _]; subst.
    assert (Hseq : forall tk tv st0,
              mbind (tpl_match e pk tk st0) (tpl_match e pv tv)
              = apply_bres st0 (bseq (bind_list e pk tk) (bind_list e pv tv))).
    { intros tk tv st0. rewrite Hk. rewrite <- mbind_bseq. apply mbind_ext. intros s'. apply Hv. }
    destruct (escape_alias e a) as [pp| | | | | |tb|tps|tts|fps fr|k ms|i] eqn:Ea; try reflexivity;
      try (cbn [is_any_like_table]; reflexivity).
    + destruct pp; cbn [is_any_like_table]; try reflexivity; apply Hseq.
    + apply Hseq.
    + destruct tps as [|tk [|tv r]]; [reflexivity|apply Hk|apply Hseq].
  - destruct (negb (contains_tpl (TTuple ts))); [reflexivity|].
    destruct (escape_alias e a) as [pp| | | | | |tb|tps|tts|fps fr|k ms|i]; try reflexivity.
    clear a. revert tts st. induction H as [|p r Hp Hr IH]; intros tts s; [reflexivity|].
    destruct tts as [|t tr]; [reflexivity|].
    rewrite Hp. rewrite <- mbind_bseq. apply mbind_ext. intros s'. apply IH.
  - destruct (negb (contains_tpl (TFun ps p))); [reflexivity|].
    destruct (escape_alias e a) as [pp| | | | | |tb|tps|tts|fps fr|k ms|i]; try reflexivity.
    + destruct pp; reflexivity.
    + rewrite <- mbind_bseq. apply mbind_cong; [|intros s'; apply IHp].
      clear a. revert fps st. induction H as [|[n osrc] r Hp Hr IH]; intros tl st; [reflexivity|].
      destruct tl as [|[n' otgt] tr]; [reflexivity|].
      destruct osrc as [src|]; cbn [snd] in Hp; [|apply IH].
      rewrite Hp. rewrite <- mbind_bseq. apply mbind_ext. intros s'. apply IH.
  - (* TUnion: the loop over the members and the loop that lists their components run in step, from any
       accumulated components and any counts *)
    destruct (negb (contains_tpl (TUnion k ms))); [reflexivity|].
    match goal with |- ?loop ms st O O = apply_bres st (?bloop ms [] O O) =>
      enough (G : forall acc errs n, loop ms (feed st acc) errs n = apply_bres st (bloop ms acc errs n))
        by apply (G [] O O)
    end.
    induction H as [|u r Hu Hr IH]; intros acc errs n.
    + destruct ((0 <? n)%nat && (errs =? n)%nat); reflexivity.
    + rewrite Hu. destruct (bind_list e u (escape_alias e a)) as [l'|l'|]; cbn [apply_bres];
        [rewrite <- feed_app; apply IH ..|reflexivity].
Qed.

Lemma infer_value_length : forall s i c, List.length (infer_value s i c) = List.length s.
Proof.
  induction s as [|x r IH]; intros i c; [reflexivity|].
  destruct i as [|i']; cbn [infer_value].
  - destruct x; reflexivity.
  - destruct x; cbn [List.length]; rewrite IH; reflexivity.
Qed.

Lemma infer_value_nth_same : forall s i c,
  nth_error (infer_value s i c) i =
  match nth_error s i with Some None => Some (Some c) | o => o end.
Proof.
  induction s as [|x r IH]; intros i c; [destruct i; reflexivity|].
  destruct i as [|i']; cbn [infer_value nth_error].
  - destruct x; reflexivity.
  - destruct x; cbn [nth_error]; apply IH.
Qed.

Lemma infer_value_nth_other : forall s i j c, i <> j ->
  nth_error (infer_value s i c) j = nth_error s j.
Proof.
  induction s as [|x r IH]; intros i j c Hne; [destruct i; reflexivity|].
  destruct i as [|i']; destruct j as [|j']; cbn [infer_value nth_error]; try congruence.
  - destruct x; reflexivity.
  - destruct x; reflexivity.
  - destruct x; cbn [nth_error]; apply IH; congruence.
Qed.

Lemma feed_keeps : forall l s i c, nth_error s i = Some (Some c) -> nth_error (feed s l) i = Some (Some c).
Proof.
  induction l as [|[j d] r IH]; intros s i c H; [exact H|].
  unfold feed in *. cbn [fold_left fst snd]. apply IH.
  destruct (Nat.eq_dec j i) as [->|Hne].
  - rewrite infer_value_nth_same, H. reflexivity.
  - rewrite infer_value_nth_other by exact Hne. exact H.
Qed.

Lemma feed_first : forall l s i, nth_error s i = Some None ->
  nth_error (feed s l) i = Some (first_binding l i).
Proof.
  induction l as [|[j d] r IH]; intros s i H; [exact H|].
  unfold feed in *. cbn [fold_left fst snd first_binding].
  destruct (Nat.eqb_spec j i) as [->|Hne].
  - apply feed_keeps. rewrite infer_value_nth_same, H. reflexivity.
  - apply IH. rewrite infer_value_nth_other by exact Hne. exact H.
Qed.

Lemma nth_repeat_out : forall n i, (n <= i)%nat -> nth_error (repeat (@None ty) n) i = None.
Proof. intros n i H. apply nth_error_None. rewrite repeat_length. exact H. Qed.

Lemma feed_length : forall l s, List.length (feed s l) = List.length s.
Proof.
  induction l as [|b r IH]; intros s; [reflexivity|]. unfold feed in *. cbn [fold_left].
  rewrite IH. apply infer_value_length.
Qed.

Lemma resolve_feed : forall n l i,
  resolve (feed (repeat None n) l) i =
  if (i <? n)%nat then match first_binding l i with Some c => widen c | None => TPrim PUnknown end
  else TTpl i.
Proof.
  intros n l i. unfold resolve. destruct (Nat.ltb_spec i n).
  - rewrite feed_first by (apply nth_error_repeat; assumption). destruct (first_binding l i); reflexivity.
  - assert (E : nth_error (feed (repeat None n) l) i = None).
    { apply nth_error_None. rewrite feed_length, repeat_length. assumption. }
    rewrite E. reflexivity.
Qed.

Lemma instantiate_feed : forall n l t, instantiate (feed (repeat None n) l) t = subst_ret n l t.
Proof.
  intros n l. induction t using ty_ind'; try reflexivity.
  - (* TArray *) cbn [instantiate subst_ret]. rewrite IHt. reflexivity.
  - (* TTableGeneric *) cbn [instantiate subst_ret]. f_equal.
    induction H as [|p r Hp Hr IH]; [reflexivity|]. cbn [fold_right]. rewrite Hp, IH. reflexivity.
  - (* TTuple *) cbn [instantiate subst_ret]. f_equal.
    induction H as [|p r Hp Hr IH]; [reflexivity|]. cbn [fold_right]. rewrite Hp, IH. reflexivity.
  - (* TTpl *) cbn [instantiate subst_ret]. rewrite resolve_feed. reflexivity.
Qed.

Lemma feed_all_inferred : forall l s, all_inferred s = true -> feed s l = s.
Proof.
  induction l as [|[j d] r IH]; intros s H; [reflexivity|].
  unfold feed in *. cbn [fold_left fst snd].
  assert (E : infer_value s j d = s).
  { clear -H. revert j. induction s as [|x s IHs]; intros j; [destruct j; reflexivity|].
    cbn [all_inferred forallb] in H. apply andb_true_iff in H as [Hx Hs].
    destruct x as [c|]; [|discriminate]. destruct j as [|j']; cbn [infer_value]; [reflexivity|].
    f_equal. apply IHs. exact Hs. }
  rewrite E. apply IH. exact H.
Qed.

Lemma match_args_spec : forall e ps args l s,
  all_bindings e ps args = Some l -> match_args e ps args s = MOk (feed s l).
Proof.
  intros e. induction ps as [|p pr IH]; intros args l s H.
  - destruct args; [|discriminate]. injection H as <-. reflexivity.
  - destruct args as [|a ar]; [discriminate|]. cbn [all_bindings] in H. cbn [match_args].
    destruct (all_inferred s) eqn:Eall; [rewrite feed_all_inferred by exact Eall; reflexivity|].
    destruct (negb (contains_tpl p)); [apply IH; exact H|].
    destruct (two_sided_callback p || callback_arg_outside p a); [discriminate|].
    destruct (bind_list e p a) as [lp| |] eqn:Eb; try discriminate.
    destruct (all_bindings e pr ar) as [lr|] eqn:Er; [|discriminate]. injection H as <-.
    rewrite tpl_match_spec, Eb. cbn [apply_bres mbind]. rewrite (IH _ _ _ Er). rewrite feed_app. reflexivity.
Qed.

Lemma all_bindings_length : forall e ps args l, all_bindings e ps args = Some l ->
  List.length args = List.length ps.
Proof.
  intros e. induction ps as [|p pr IH]; intros [|a ar] l H; try discriminate; [reflexivity|].
  cbn [all_bindings] in H. cbn [List.length]. f_equal.
  destruct (negb (contains_tpl p)); [eapply IH; exact H|].
  destruct (two_sided_callback p || callback_arg_outside p a); [discriminate|].
  destruct (bind_list e p a); try discriminate.
  destruct (all_bindings e pr ar) eqn:Er; [|discriminate]. eapply IH. exact Er.
Qed.

(** ** Generic functions return their instantiated argument types *)
Theorem instantiate_subst : forall (e : env) (tp : template) (args : list ty) (l : list (nat * ty)) (r : ty),
  all_bindings e (t_params tp) args = Some l ->
  subst_ret (t_ntpl tp) l (t_ret tp) = Some r ->
  call_ret e tp args = COk (unwrap_return r).
Proof.
  intros e tp args l r Hb Hr. unfold call_ret.
  rewrite (all_bindings_length _ _ _ _ Hb), Nat.eqb_refl. cbn [negb].
  rewrite (match_args_spec _ _ _ _ _ Hb). rewrite instantiate_feed, Hr. reflexivity.
Qed.

Definition wide (e : env) (a : ty) : ty := widen (escape_alias e a).

Lemma identity_ok : forall e a, call_ret e tpl_identity [a] = COk (unwrap_return (wide e a)).
Proof. reflexivity. Qed.

Lemma wrap_array_ok : forall e a, call_ret e tpl_wrap_array [a] = COk (TArray (wide e a)).
Proof. reflexivity. Qed.

Lemma array_elem_ok : forall e b, call_ret e tpl_array_elem [TArray b] = COk (unwrap_return (wide e b)).
Proof. reflexivity. Qed.

Lemma array_id_ok : forall e b, call_ret e tpl_array_id [TArray b] = COk (TArray (wide e b)).
Proof. reflexivity. Qed.

Lemma nested_array_ok : forall e b, call_ret e tpl_nested_array [TArray (TArray b)] = COk (unwrap_return (wide e b)).
Proof. reflexivity. Qed.

(** an argument that is not an array leaves [T] without a candidate: the result is [unknown] *)
Lemma array_elem_other : forall e a,
  match escape_alias e a with
  | TArray _ | TTuple _ => True
  | _ => call_ret e tpl_array_elem [a] = COk (TPrim PUnknown)
  end.
Proof.
  intros e a. unfold call_ret. cbn [t_params List.length Nat.eqb negb t_ntpl repeat match_args all_inferred forallb
                                     contains_tpl two_sided_callback callback_arg_outside orb tpl_array_elem T0].
  cbn [tpl_match contains_tpl negb].
  destruct (escape_alias e a); try exact I; reflexivity.
Qed.

Lemma map_value_ok : forall e k v, call_ret e tpl_map_value [TTableGeneric [k; v]] = COk (unwrap_return (wide e v)).
Proof. reflexivity. Qed.

Lemma map_key_ok : forall e k v, call_ret e tpl_map_key [TTableGeneric [k; v]] = COk (unwrap_return (wide e k)).
Proof. reflexivity. Qed.

Lemma map_swap_ok : forall e k v,
  call_ret e tpl_map_swap [TTableGeneric [k; v]] = COk (TTableGeneric [wide e v; wide e k]).
Proof. reflexivity. Qed.

(** an array is a table from integers to its elements *)
Lemma map_of_array_ok : forall e b,
  call_ret e tpl_map_swap [TArray b] = COk (TTableGeneric [wide e b; TPrim PInteger]).
Proof. reflexivity. Qed.

(** [T?] binds [T] to the whole argument, optional or not (the union pattern escapes an alias once more) *)
Lemma optional_ok : forall e a,
  call_ret e tpl_optional [a] = COk (unwrap_return (widen (escape_alias e (escape_alias e a)))).
Proof. reflexivity. Qed.

Lemma pair_map_ok : forall e a b, call_ret e tpl_pair_map [a; b] = COk (TTableGeneric [wide e a; wide e b]).
Proof. reflexivity. Qed.

Lemma tuple_mk_ok : forall e a b, call_ret e tpl_tuple_mk [a; b] = COk (TTuple [wide e a; wide e b]).
Proof. reflexivity. Qed.

(** the same parameter twice: the first argument decides *)
Lemma same_twice_ok : forall e a b, call_ret e tpl_same_twice [a; b] = COk (unwrap_return (wide e a)).
Proof. reflexivity. Qed.

Lemma callback_ret_ok : forall e ps r, call_ret e tpl_callback_ret [TFun ps r] = COk (unwrap_return (wide e r)).
Proof. reflexivity. Qed.

Lemma callback_arg_ok : forall e n t ps r,
  call_ret e tpl_callback_arg [TFun ((n, Some t) :: ps) r] = COk (unwrap_return (wide e t)).
Proof. reflexivity. Qed.

Lemma tuple_fst_ok : forall e a b r, call_ret e tpl_tuple_fst [TTuple (a :: b :: r)] = COk (unwrap_return (wide e a)).
Proof. reflexivity. Qed.

(** non-vacuity of the general theorem: a two-parameter call with literals, an alias and a nested array *)
Example subst_example :
  let e : env := [([65], TPrim PString)] in                      (* alias A = string *)
  let args := [TTableGeneric [TInt 1; TArray (TRef [65])]] in
  all_bindings e (t_params tpl_map_swap) args = Some [(0%nat, TInt 1); (1%nat, TArray (TRef [65]))]
  /\ subst_ret 2 [(0%nat, TInt 1); (1%nat, TArray (TRef [65]))] (t_ret tpl_map_swap)
     = Some (TTableGeneric [TArray (TRef [65]); TPrim PInteger])
  /\ call_ret e tpl_map_swap args = COk (TTableGeneric [TArray (TRef [65]); TPrim PInteger]).
Proof. vm_compute. repeat split. Qed.
