(** [clear] and [reindex] of the module index as instances of Base/StoreSM.v; for the other
    transcribed indexes [clear] is the initial state by definition. *)
From EV Require Import Base.StoreSM C33.Model C33.Spec C33.Proofs C08.Module C08.PropertyModel C08.SimpleModels.
Local Open Scope N_scope.

Lemma clear_is_init : forall (c : cfg) (ops : list (hop mfacts)),
  (forall q, mod_obs c (m_clear (state _ _ _ _ (mod_store c) ops)) q = mod_obs c m_init q) /\
  mod_size (m_clear (state _ _ _ _ (mod_store c) ops)) = mod_size m_init.
Proof. intro c. exact (StoreSM.clear_is_init _ _ _ _ (mod_store c) (mod_refinement c)). Qed.

Lemma reindex_eq_fresh : forall (c : cfg) (ops : list (hop mfacts)),
  (forall q, mod_obs c (state _ _ _ _ (mod_store c) (ops ++ [HReindex _])) q
             = mod_obs c (fresh _ _ _ _ (mod_store c) (vfs _ _ _ _ (mod_store c) (ops ++ [HReindex _]))) q) /\
  mod_size (state _ _ _ _ (mod_store c) (ops ++ [HReindex _]))
  = mod_size (fresh _ _ _ _ (mod_store c) (vfs _ _ _ _ (mod_store c) (ops ++ [HReindex _]))).
Proof. intro c. exact (StoreSM.reindex_eq_fresh _ _ _ _ (mod_store c) (mod_refinement c)). Qed.

(** the id counter is the only thing [clear] does not reset, and no query looks at it *)
Lemma clear_differs_only_in_counter : forall s, m_clear s = mkIdx (m_nodes m_init) (m_files m_init) (m_fuzzy m_init) (m_counter s).
Proof. reflexivity. Qed.

(** the other modelled indexes: [clear] gives literally the initial state, so reindex IS a fresh analysis *)
Lemma property_clear_is_init : forall s, p_clear s = p_init.
Proof. reflexivity. Qed.
Lemma global_clear_is_init : forall s, g_clear s = g_init.
Proof. reflexivity. Qed.
Lemma diagnostic_clear_is_init : forall s, d_clear s = d_init.
Proof. reflexivity. Qed.

Lemma property_reindex_eq_fresh : forall (s : pidx) (live : list (N * list pfact)),
  fold_left (fun s fx => p_add (fst fx) (snd fx) s) live (p_clear s)
  = fold_left (fun s fx => p_add (fst fx) (snd fx) s) live p_init.
Proof. reflexivity. Qed.
Lemma global_reindex_eq_fresh : forall (s : gidx) (live : list (N * list (N * N))),
  fold_left (fun s fx => g_add (fst fx) (snd fx) s) live (g_clear s)
  = fold_left (fun s fx => g_add (fst fx) (snd fx) s) live g_init.
Proof. reflexivity. Qed.
Lemma diagnostic_reindex_eq_fresh : forall (s : didx) (live : list (N * list (N * N))),
  fold_left (fun s fx => d_add (fst fx) (snd fx) s) live (d_clear s)
  = fold_left (fun s fx => d_add (fst fx) (snd fx) s) live d_init.
Proof. reflexivity. Qed.

Lemma reindex_example :
  let c := ex_cfg in
  let ops := [HUpdate mfacts 1 ([97; 46; 98], 1, false); HUpdate _ 2 ([120; 46; 98], 1, false);
              HUpdate _ 1 ([99], 1, false); HRemove _ 2; HUpdate _ 3 ([97; 46; 98], 1, true); HReindex _] in
  m_counter (state _ _ _ _ (mod_store c) ops) <> m_counter (fresh _ _ _ _ (mod_store c) (vfs _ _ _ _ (mod_store c) ops)) /\
  mod_obs c (state _ _ _ _ (mod_store c) ops) [98] = Some (3, [97; 46; 98], 1, true) /\
  mod_size (state _ _ _ _ (mod_store c) ops) = [4; 2; 2].
Proof. cbv zeta. split; [vm_compute; discriminate | split; vm_compute; reflexivity]. Qed.
