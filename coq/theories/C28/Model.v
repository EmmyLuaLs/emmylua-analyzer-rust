(** C28/Model.v — lock discipline, structured lock programs (what the translator extracts from
    crates/emmylua_ls/src), their path semantics, the may-hold analysis that computes the
    "held while requested" relation, and the acyclicity check.  Definitions only. *)
From Coq Require Import List Arith Bool PeanoNat String.
From EV Require Import Base.LocksLTS.
Import ListNotations.

(** * Discipline of one straight-line task program *)

Definition is_nil {A} (l : list A) : bool := match l with [] => true | _ :: _ => false end.

(** held set after running [p] from held set [h] *)
Fixpoint after (h : list lock) (p : list act) : list lock :=
  match p with
  | [] => h
  | Acq l _ :: r => after (l :: h) r
  | Rel l :: r => after (remove Nat.eq_dec l h) r
  | Await _ _ :: r => after h r
  end.

(** prefix-closed part: every acquisition is of strictly higher rank than everything held (read and
    write of one lock share the rank, so this also forbids re-acquiring a held lock), and nothing is
    held while waiting for another task *)
Fixpoint okpath (rank : lock -> nat) (h : list lock) (p : list act) : bool :=
  match p with
  | [] => true
  | Acq l _ :: r => forallb (fun x => rank x <? rank l) h && okpath rank (l :: h) r
  | Rel l :: r => okpath rank (remove Nat.eq_dec l h) r
  | Await _ _ :: r => is_nil h && okpath rank h r
  end.

(** the full discipline: [okpath] and everything is released at the end (Rust drops every guard when
    the future completes or is dropped) *)
Fixpoint disc (rank : lock -> nat) (h : list lock) (p : list act) : bool :=
  match p with
  | [] => is_nil h
  | Acq l _ :: r => forallb (fun x => rank x <? rank l) h && disc rank (l :: h) r
  | Rel l :: r => disc rank (remove Nat.eq_dec l h) r
  | Await _ _ :: r => is_nil h && disc rank h r
  end.

(** generalisation: a task MAY wait while it holds locks, provided every lock that the awaited task may
    still need ([needs j], closed under the awaited task's own waits) has a higher rank than everything
    held.  (The reload task holds [reload_lock] while it waits for the main loop to route a client
    response; the main loop never takes [reload_lock] or anything below it.)  [disc] is the special case
    where nothing is held at a wait. *)
Fixpoint discn (rank : lock -> nat) (needs : nat -> list lock) (me : nat) (h : list lock) (p : list act) : bool :=
  match p with
  | [] => is_nil h
  | Acq l _ :: r =>
      existsb (Nat.eqb l) (needs me) && forallb (fun x => rank x <? rank l) h && discn rank needs me (l :: h) r
  | Rel l :: r => discn rank needs me (remove Nat.eq_dec l h) r
  | Await j _ :: r =>
      forallb (fun x => forallb (fun l => rank x <? rank l) (needs j)) h
      && forallb (fun l => existsb (Nat.eqb l) (needs me)) (needs j)
      && discn rank needs me h r
  end.

(** waits are well-founded: task [i] only waits for tasks listed before it, at positions that exist.
    (Any acyclic waits-for relation can be listed that way; a cyclic one deadlocks without any lock.) *)
Definition waits_ok (progs : list (list act)) (i : nat) (p : list act) : Prop :=
  forall j k, In (Await j k) p -> j < i /\ k <= List.length (nth j progs []).

(** * The order crates/emmylua_ls/src/context/mod.rs ("LOCK ORDERING GUIDELINES") documented before its repair:
      rank per (lock, mode); "never acquire a lower-priority lock while holding a higher-priority one" *)
Fixpoint doc_ordered (rank : lock * mode -> nat) (h : list (lock * mode)) (p : list act) : bool :=
  match p with
  | [] => is_nil h
  | Acq l m :: r => forallb (fun x => rank x <? rank (l, m)) h && doc_ordered rank ((l, m) :: h) r
  | Rel l :: r => doc_ordered rank (filter (fun x => negb (Nat.eqb (fst x) l)) h) r
  | Await _ _ :: r => is_nil h && doc_ordered rank h r
  end.

(** * Structured lock programs (one per async fn / spawned block) *)

Inductive stmt :=
| SAcq (l : lock) (m : mode)      (* let g = X.read()/.write()/.lock().await *)
| SRel (l : lock)                 (* drop(g) / end of the guard's scope / end of statement for a temporary:
                                     releases [l] if it is (still) held *)
| SWait                           (* .await on something only another task of the server can complete *)
| SWaitMain                       (* .await on a client response, which the main loop has to route *)
| SUnknown                        (* the translator could not classify this: fails every obligation *)
| SSkip
| SSeq (a b : stmt)
| SAlt (a b : stmt)               (* if/else, match arms, select! arms *)
| SLoop (a : stmt).               (* zero or more iterations *)

(** [exec s h p h']: one control path of [s] started with held set [h] performs [p] and ends with [h'] *)
Inductive exec (ismain : nat -> bool) : stmt -> list lock -> list act -> list lock -> Prop :=
| EAcq : forall l m h, exec ismain (SAcq l m) h [Acq l m] (l :: h)
| ERelHeld : forall l h, In l h -> exec ismain (SRel l) h [Rel l] (remove Nat.eq_dec l h)
| ERelNot : forall l h, ~ In l h -> exec ismain (SRel l) h [] h
| EWait : forall j k h, exec ismain SWait h [Await j k] h
| EWaitMain : forall j k h, ismain j = true -> exec ismain SWaitMain h [Await j k] h
| ESkip : forall h, exec ismain SSkip h [] h
| ESeq : forall a b h p h' q h'', exec ismain a h p h' -> exec ismain b h' q h'' -> exec ismain (SSeq a b) h (p ++ q) h''
| EAltL : forall a b h p h', exec ismain a h p h' -> exec ismain (SAlt a b) h p h'
| EAltR : forall a b h p h', exec ismain b h p h' -> exec ismain (SAlt a b) h p h'
| ELoop0 : forall a h, exec ismain (SLoop a) h [] h
| ELoopS : forall a h p h' q h'',
    exec ismain a h p h' -> exec ismain (SLoop a) h' q h'' -> exec ismain (SLoop a) h (p ++ q) h''.

(** A task runs a prefix of a control path of its function and then releases whatever it still holds
    (early `return`, `?`, cancellation of the future: Rust drops the guards). *)
Definition covered (ismain : nat -> bool) (s : stmt) (p : list act) : Prop :=
  exists p0 q h', exec ismain s [] (p0 ++ q) h' /\ p = p0 ++ map Rel (after [] p0).

Definition edge := (lock * lock)%type.

Definition inclb (a b : list lock) : bool := forallb (fun x => existsb (Nat.eqb x) b) a.

(** may-hold analysis: from the set [M] of locks that may be held on entry, compute the set that may be
    held on exit, the "x is held while y is requested" pairs (waiting for the main loop while holding x
    counts as requesting every lock the main loop may take), and a flag that is false when something is
    awaited while a lock may be held, when the translator emitted [SUnknown], or when a loop body can
    leave more locks held than it started with *)
Definition edge_dec : forall x y : edge, {x = y} + {x <> y}.
Proof. decide equality; apply Nat.eq_dec. Defined.

Section Ana.
Variable mainlocks : list lock.   (* every lock the main loop may take *)

Fixpoint ana (s : stmt) (M : list lock) : list lock * list edge * bool :=
  match s with
  | SAcq l _ => (l :: M, map (fun h => (h, l)) M, true)
  | SRel l => (remove Nat.eq_dec l M, [], true)
  | SWait => (M, [], is_nil M)
  | SWaitMain => (M, flat_map (fun h => map (fun l => (h, l)) mainlocks) M, true)
  | SUnknown => (M, [], false)
  | SSkip => (M, [], true)
  | SSeq a b =>
      match ana a M with
      | (M1, E1, o1) => match ana b M1 with (M2, E2, o2) => (M2, nodup edge_dec (E1 ++ E2), o1 && o2) end
      end
  | SAlt a b =>
      match ana a M with
      | (M1, E1, o1) => match ana b M with (M2, E2, o2) => (nodup Nat.eq_dec (M1 ++ M2), nodup edge_dec (E1 ++ E2), o1 && o2) end
      end
  | SLoop a =>
      match ana a M with
      | (M1, E1, o1) => (M, E1, o1 && inclb M1 M)
      end
  end.

Definition edges_of (s : stmt) : list edge := snd (fst (ana s [])).
Definition flag_of (s : stmt) : bool := snd (ana s []).
End Ana.

(** every lock a structured program may acquire *)
Fixpoint acq_of (s : stmt) : list lock :=
  match s with
  | SAcq l _ => [l]
  | SSeq a b | SAlt a b => acq_of a ++ acq_of b
  | SLoop a => acq_of a
  | _ => []
  end.

(** a wait (for a task or for the main loop) or an unclassified statement somewhere inside: the main loop
    itself must not have one *)
Fixpoint has_wait (s : stmt) : bool :=
  match s with
  | SWait | SWaitMain | SUnknown => true
  | SSeq a b | SAlt a b => has_wait a || has_wait b
  | SLoop a => has_wait a
  | _ => false
  end.

(** * Acyclicity of a finite relation by node elimination *)

Inductive path (E : list edge) : lock -> lock -> Prop :=
| path1 : forall a b, In (a, b) E -> path E a b
| pathS : forall a b c, In (a, b) E -> path E b c -> path E a c.

Definition acyclic (E : list edge) : Prop := forall a, ~ path E a a.

Definition ranked (r : lock -> nat) (E : list edge) : Prop := forall a b, In (a, b) E -> r a < r b.

Definition touches (v : lock) (e : edge) : bool := Nat.eqb (fst e) v || Nat.eqb (snd e) v.

(** remove node [v]: keep the edges that do not touch it and connect each predecessor to each successor *)
Definition bypass (v : lock) (E : list edge) : list edge :=
  nodup edge_dec
    (filter (fun e => negb (touches v e)) E
     ++ flat_map (fun p => map (fun s => (fst p, snd s)) (filter (fun e => Nat.eqb (fst e) v) E))
                 (filter (fun e => Nat.eqb (snd e) v) E)).

Definition selfloop (v : lock) (E : list edge) : bool :=
  existsb (fun e => Nat.eqb (fst e) v && Nat.eqb (snd e) v) E.

Fixpoint elim (V : list lock) (E : list edge) : bool :=
  match V with
  | [] => true
  | v :: V' => negb (selfloop v E) && elim V' (bypass v E)
  end.

Definition nodes (E : list edge) : list lock := map fst E ++ map snd E.

Definition acyclicb (E : list edge) : bool := elim (nodup Nat.eq_dec (nodes E)) (nodup edge_dec E).

(** the rank that [elim] constructs *)
Definition rank_step (v : lock) (E : list edge) (r' : lock -> nat) : lock -> nat :=
  fun x => if Nat.eqb x v
           then 2 * list_max (map (fun e => S (r' (fst e))) (filter (fun e => Nat.eqb (snd e) v) E))
           else 2 * r' x + 1.

Fixpoint rank_of (V : list lock) (E : list edge) : lock -> nat :=
  match V with
  | [] => fun _ => 0
  | v :: V' => rank_step v E (rank_of V' (bypass v E))
  end.

Definition inferred_rank (E : list edge) : lock -> nat := rank_of (nodup Nat.eq_dec (nodes E)) (nodup edge_dec E).

(** * Obligations over a table of named programs *)

Definition table := list (string * stmt).

(** the main loop is the table entry named [main]; its locks are what a wait on it stands for *)
Definition main_stmt (main : string) (t : table) : stmt :=
  match find (fun e => String.eqb (fst e) main) t with Some e => snd e | None => SUnknown end.

Definition mainlocks_of (main : string) (t : table) : list lock := nodup Nat.eq_dec (acq_of (main_stmt main t)).

Definition table_edges (main : string) (t : table) : list edge :=
  let ml := mainlocks_of main t in flat_map (fun e => edges_of ml (snd e)) t.

Definition held_before_acyclic (main : string) (t : table) : bool := acyclicb (table_edges main t).

Definition no_reentrant (main : string) (t : table) : bool :=
  forallb (fun e => negb (Nat.eqb (fst e) (snd e))) (table_edges main t).

(** no lock across a wait on an arbitrary task, nothing unclassified, loop bodies balanced; the main loop
    exists and waits for no task of the server *)
Definition flags_ok (main : string) (t : table) : bool :=
  let ml := mainlocks_of main t in
  forallb (fun e => flag_of ml (snd e)) t && negb (has_wait (main_stmt main t)).

Definition table_ok (main : string) (t : table) : bool :=
  held_before_acyclic main t && no_reentrant main t && flags_ok main t.

(** per-program report, printed by the check to name the failing call sites *)
Definition report (main : string) (t : table) : list (string * list edge * bool) :=
  let ml := mainlocks_of main t in
  map (fun e => match ana ml (snd e) [] with (_, E, o) => (fst e, nodup edge_dec E, o) end) t.
