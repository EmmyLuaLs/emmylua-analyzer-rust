(** Tasks that take locks in rank order never deadlock: in a stuck state the head of a lock's queue is refused
    because of a holder, that holder is blocked at a lock of higher rank, and the ranks are bounded.  The may-hold
    analysis of structured programs gives such a rank when the "held while requested" relation is acyclic. *)
From Coq Require Import List Arith Bool PeanoNat Lia String.
From EV Require Import Base.LocksLTS C28.Model.
Import ListNotations.

Lemma path_trans : forall E a b c, path E a b -> path E b c -> path E a c.
Proof.
  intros E a b c H; revert c. induction H; intros c' Hc.
  - eapply pathS; eauto.
  - eapply pathS; eauto.
Qed.

Lemma ranked_path : forall r E a b, ranked r E -> path E a b -> r a < r b.
Proof.
  intros r E a b Hr H. induction H.
  - apply Hr; assumption.
  - apply Hr in H. lia.
Qed.

Lemma in_bypass : forall v E a b, In (a, b) (bypass v E) <->
  (In (a, b) E /\ a <> v /\ b <> v) \/ (In (a, v) E /\ In (v, b) E).
Proof.
  intros v E a b. unfold bypass, touches. rewrite nodup_In, in_app_iff, filter_In, in_flat_map. cbn [fst snd].
  rewrite negb_true_iff, orb_false_iff, !Nat.eqb_neq.
  split; (intros [H | H]; [left; exact H | right]).
  - destruct H as [[p1 p2] [Hp Hs]]. apply filter_In in Hp as [Hp1 Hp2].
    apply in_map_iff in Hs as [[s1 s2] [Heq Hs]]. apply filter_In in Hs as [Hs1 Hs2].
    cbn [fst snd] in *. apply Nat.eqb_eq in Hp2, Hs2. inversion Heq; subst. split; assumption.
  - destruct H as [Ha Hb]. exists (a, v). split; [apply filter_In; split; [assumption | apply Nat.eqb_refl]|].
    apply in_map_iff. exists (v, b). split; [reflexivity|]. apply filter_In. split; [assumption | apply Nat.eqb_refl].
Qed.

Lemma bypass_path : forall v E a b, path (bypass v E) a b -> path E a b.
Proof.
  intros v E a b H. induction H.
  - apply in_bypass in H. destruct H as [[H _] | [H1 H2]].
    + apply path1; assumption.
    + eapply pathS; [eassumption|]. apply path1; assumption.
  - apply in_bypass in H. destruct H as [[H _] | [H1 H2]].
    + eapply pathS; eassumption.
    + eapply pathS; [eassumption|]. eapply pathS; eassumption.
Qed.

Lemma selfloop_iff : forall v E, selfloop v E = true <-> In (v, v) E.
Proof.
  intros v E. unfold selfloop. rewrite existsb_exists. split.
  - intros [[a b] [Hin H]]. cbn [fst snd] in H. apply andb_true_iff in H as [H1 H2].
    apply Nat.eqb_eq in H1, H2. subst. assumption.
  - intros H. exists (v, v). split; [assumption|]. cbn [fst snd]. rewrite Nat.eqb_refl. reflexivity.
Qed.

Lemma acyclic_elim : forall V E, acyclic E -> elim V E = true.
Proof.
  induction V as [|v V IH]; intros E Hac; [reflexivity|].
  cbn [elim]. apply andb_true_iff. split.
  - apply negb_true_iff. destruct (selfloop v E) eqn:Hs; [|reflexivity].
    apply selfloop_iff in Hs. exfalso. apply (Hac v). apply path1. assumption.
  - apply IH. intros a Hp. apply (Hac a). eapply bypass_path. eassumption.
Qed.

Lemma list_max_in : forall l x, In x l -> x <= list_max l.
Proof.
  intros l x H. assert (Hf : Forall (fun k => k <= list_max l) l) by (apply list_max_le; lia).
  rewrite Forall_forall in Hf. apply Hf. assumption.
Qed.

Lemma list_max_bound : forall l n, (forall x, In x l -> x <= n) -> list_max l <= n.
Proof.
  intros l n H. apply list_max_le. apply Forall_forall. assumption.
Qed.

Lemma rank_step_ranked : forall v E r',
  ~ In (v, v) E -> ranked r' (bypass v E) -> ranked (rank_step v E r') E.
Proof.
  intros v E r' Hself Hr a b Hab. unfold rank_step.
  destruct (Nat.eqb_spec a v) as [Ha | Ha]; destruct (Nat.eqb_spec b v) as [Hb | Hb].
  - subst. contradiction.
  - (* v -> b *) subst a.
    set (mp := list_max (map (fun e => S (r' (fst e))) (filter (fun e => Nat.eqb (snd e) v) E))).
    assert (mp <= r' b); [|lia].
    apply list_max_bound. intros x Hx. apply in_map_iff in Hx. destruct Hx as [[p1 p2] [Hx Hp]].
    apply filter_In in Hp. destruct Hp as [Hp1 Hp2]. cbn [fst snd] in *. apply Nat.eqb_eq in Hp2. subst p2 x.
    assert (r' p1 < r' b); [|lia]. apply Hr, in_bypass. right. split; assumption.
  - (* a -> v *) subst b.
    set (mp := list_max (map (fun e => S (r' (fst e))) (filter (fun e => Nat.eqb (snd e) v) E))).
    assert (S (r' a) <= mp); [|lia].
    apply list_max_in. apply in_map_iff. exists (a, v). split; [reflexivity|].
    apply filter_In. split; [assumption|]. cbn [snd]. apply Nat.eqb_refl.
  - assert (r' a < r' b); [|lia]. apply Hr, in_bypass. left. repeat split; assumption.
Qed.

Lemma elim_ranked : forall V E, elim V E = true ->
  (forall a b, In (a, b) E -> In a V /\ In b V) -> ranked (rank_of V E) E.
Proof.
  induction V as [|v V IH]; intros E He Hin.
  - intros a b Hab. apply Hin in Hab. destruct Hab as [[] _].
  - cbn [elim] in He. apply andb_true_iff in He. destruct He as [Hs He].
    apply negb_true_iff in Hs. assert (Hself : ~ In (v, v) E) by (rewrite <- selfloop_iff; congruence).
    cbn [rank_of]. apply rank_step_ranked; [assumption|].
    apply IH; [assumption|].
    intros a b Hab. apply in_bypass in Hab. destruct Hab as [[H [Ha Hb]] | [H1 H2]].
    + apply Hin in H. destruct H as [[H1 | H1] [H2 | H2]]; try congruence. split; assumption.
    + destruct (Hin _ _ H1) as [[K1 | K1] _]; [subst; contradiction|].
      destruct (Hin _ _ H2) as [_ [K2 | K2]]; [subst; contradiction|]. split; assumption.
Qed.

Lemma nodes_cover : forall E a b, In (a, b) E -> In a (nodes E) /\ In b (nodes E).
Proof.
  intros E a b H. unfold nodes. split; apply in_or_app.
  - left. apply in_map_iff. exists (a, b). split; [reflexivity | assumption].
  - right. apply in_map_iff. exists (a, b). split; [reflexivity | assumption].
Qed.

Lemma path_incl : forall E E' a b, incl E E' -> path E a b -> path E' a b.
Proof.
  intros E E' a b Hi H. induction H.
  - apply path1. apply Hi. assumption.
  - eapply pathS; [apply Hi; eassumption | assumption].
Qed.

Lemma acyclicb_ranked : forall E, acyclicb E = true -> ranked (inferred_rank E) E.
Proof.
  intros E H. unfold inferred_rank, acyclicb in *.
  assert (Hr : ranked (rank_of (nodup Nat.eq_dec (nodes E)) (nodup edge_dec E)) (nodup edge_dec E)).
  { apply elim_ranked; [assumption|]. intros a b Hab. apply nodup_In in Hab.
    destruct (nodes_cover E a b Hab) as [Ha Hb]. split; apply nodup_In; assumption. }
  intros a b Hab. apply Hr. apply nodup_In. assumption.
Qed.

Lemma exists_rank_iff_acyclic : forall E : list edge,
  ((exists r, ranked r E) <-> acyclic E) /\ (acyclic E <-> acyclicb E = true).
Proof.
  intros E.
  assert (H1 : (exists r, ranked r E) -> acyclic E).
  { intros [r Hr] a Hp. apply (ranked_path r E a a Hr) in Hp. lia. }
  assert (H2 : acyclic E -> acyclicb E = true).
  { intros H. apply acyclic_elim. intros a Hp. apply (H a). eapply path_incl; [|eassumption].
    intros x Hx. apply nodup_In in Hx. assumption. }
  assert (H3 : acyclicb E = true -> exists r, ranked r E)
    by (intros H; exists (inferred_rank E); apply acyclicb_ranked; assumption).
  split; split; auto.
Qed.

Lemma nth_error_upd_eq : forall A (l : list A) i (x y : A),
  nth_error l i = Some y -> nth_error (upd i x l) i = Some x.
Proof.
  induction l as [|a l IH]; intros [|i] x y H; cbn in *; try discriminate; [reflexivity|].
  eapply IH; eassumption.
Qed.

Lemma nth_error_upd_neq : forall A (l : list A) i j (x : A),
  i <> j -> nth_error (upd i x l) j = nth_error l j.
Proof.
  induction l as [|a l IH]; intros [|i] [|j] x H; cbn; try reflexivity; try congruence.
  apply IH. congruence.
Qed.

Lemma length_upd : forall A (l : list A) i (x : A), List.length (upd i x l) = List.length l.
Proof.
  induction l as [|a l IH]; intros [|i] x; cbn; try reflexivity. f_equal. apply IH.
Qed.

Lemma skipn_nth_error : forall A (l : list A) n a,
  nth_error l n = Some a -> skipn n l = a :: skipn (S n) l.
Proof.
  induction l as [|b l IH]; intros [|n] a H; cbn in *; try discriminate.
  - inversion H; reflexivity.
  - rewrite (IH n a H). reflexivity.
Qed.

Lemma setl_eq : forall f l v, setl f l v l = v.
Proof. intros. unfold setl. rewrite Nat.eqb_refl. reflexivity. Qed.

Lemma setl_neq : forall f l v l', l' <> l -> setl f l v l' = f l'.
Proof. intros f l v l' H. unfold setl. apply Nat.eqb_neq in H. rewrite H. reflexivity. Qed.

Lemma compat_nil : forall m, compat m [] = true.
Proof. intros []; reflexivity. Qed.

Lemma existsb_eqb_in : forall l (L : list lock), existsb (Nat.eqb l) L = true <-> In l L.
Proof.
  intros l L. rewrite existsb_exists. split; [intros [x [Hx He]]; apply Nat.eqb_eq in He; subst; exact Hx|].
  intros H. exists l. split; [exact H | apply Nat.eqb_refl].
Qed.

(** what task [i], in state [t], does to itself and to the locks by performing [a]; when a grant or
    the end of a wait is possible is left out, no consequence of a step depends on it *)
Inductive moves (s : state) (i : nat) (t : tstate) : act -> tstate -> (lock -> lstate) -> Prop :=
| mv_request : forall l m, waiting t = false ->
    moves s i t (Acq l m) (mkT (pc t) true (held t))
          (setl (lk s) l (mkL (holders (lk s l)) (queue (lk s l) ++ [(i, m)])))
| mv_grant : forall l m m0 q', waiting t = true -> queue (lk s l) = (i, m0) :: q' ->
    moves s i t (Acq l m) (mkT (S (pc t)) false (l :: held t))
          (setl (lk s) l (mkL ((i, m) :: holders (lk s l)) q'))
| mv_release : forall l,
    moves s i t (Rel l) (mkT (S (pc t)) false (remove Nat.eq_dec l (held t)))
          (setl (lk s) l (mkL (filter (fun e => negb (Nat.eqb (fst e) i)) (holders (lk s l))) (queue (lk s l))))
| mv_await : forall j k, moves s i t (Await j k) (mkT (S (pc t)) false (held t)) (lk s).

Lemma step_moves : forall progs s i s', step progs s i = Some s' ->
  exists t a, nth_error (ts s) i = Some t /\ nth_error (prog progs i) (pc t) = Some a /\
    exists t' lk', moves s i t a t' lk' /\ s' = mkS (upd i t' (ts s)) lk'.
Proof.
  intros progs s i s' Hs. unfold step in Hs.
  destruct (nth_error (ts s) i) as [t|]; [|discriminate].
  destruct (nth_error (prog progs i) (pc t)) as [a|] eqn:Hc; [|discriminate].
  exists t, a. split; [reflexivity|split; [exact Hc|]]. destruct a as [l m | l | j k].
  - destruct (waiting t) eqn:Hw.
    + destruct (queue (lk s l)) as [|[h m0] q'] eqn:Hq; [discriminate|].
      destruct (Nat.eqb h i && compat m (holders (lk s l))) eqn:Hg; [|discriminate].
      apply andb_true_iff in Hg as [Hh _]. apply Nat.eqb_eq in Hh. subst h. injection Hs as <-.
      do 2 eexists. split; [eapply mv_grant; eassumption|reflexivity].
    + injection Hs as <-. do 2 eexists. split; [apply mv_request; exact Hw|reflexivity].
  - injection Hs as <-. do 2 eexists. split; [apply mv_release|reflexivity].
  - destruct (nth_error (ts s) j) as [tj|]; [|discriminate].
    destruct (k <=? pc tj); [|discriminate]. injection Hs as <-.
    do 2 eexists. split; [apply mv_await|reflexivity].
Qed.

Section Inv.
  Variable progs : list (list act).
  Variable rank : lock -> nat.
  Variable needs : nat -> list lock.

  (** task [i] in state [t] has requested lock [l] and has not been granted it *)
  Definition at_acq (i : nat) (t : tstate) (l : lock) : Prop :=
    waiting t = true /\ exists m, nth_error (prog progs i) (pc t) = Some (Acq l m).

  Record lock_ok (T : list tstate) (l : lock) (L : lstate) : Prop := mkLockOk {
    lo_queue : forall i, In i (map fst (queue L)) <-> exists t, nth_error T i = Some t /\ at_acq i t l;
    lo_nodup : NoDup (map fst (queue L));
    lo_hold : forall u m, In (u, m) (holders L) -> exists t, nth_error T u = Some t /\ In l (held t)
  }.

  Record inv (s : state) : Prop := mkInv {
    inv_disc : forall i t, nth_error (ts s) i = Some t ->
      discn rank needs i (held t) (skipn (pc t) (prog progs i)) = true;
    inv_lock : forall l, lock_ok (ts s) l (lk s l)
  }.

  Hypothesis Hdisc : forall i p, nth_error progs i = Some p -> discn rank needs i [] p = true.

  Lemma inv_init : inv (init progs).
  Proof.
    constructor; cbn [init ts lk].
    - intros i t H. rewrite nth_error_map in H. destruct (nth_error progs i) as [p|] eqn:Hp; [|discriminate].
      inversion H; subst. cbn [held pc skipn]. unfold prog. rewrite (nth_error_nth _ _ _ Hp). eapply Hdisc. eassumption.
    - intros l. constructor; cbn [queue holders map].
      + intros i. split; [intros []|]. intros [t [H [Hw _]]]. rewrite nth_error_map in H.
        destruct (nth_error progs i); [|discriminate]. inversion H; subst. discriminate.
      + constructor.
      + intros u m [].
  Qed.

  Lemma queued_iff : forall T l L i t, lock_ok T l L -> nth_error T i = Some t ->
    In i (map fst (queue L)) <-> at_acq i t l.
  Proof.
    intros T l L i t Ho Ht. rewrite (lo_queue _ _ _ Ho). split; [|intros Ha; exists t; split; assumption].
    intros [t0 [Ht0 Ha]]. rewrite Ht in Ht0. inversion Ht0; subst. exact Ha.
  Qed.

  Lemma holds_split : forall T l L i t u m, lock_ok T l L -> nth_error T i = Some t ->
    In (u, m) (holders L) -> (u = i /\ In l (held t)) \/ (u <> i /\ In (u, m) (holders L)).
  Proof.
    intros T l L i t u m Ho Ht Hin. destruct (Nat.eq_dec u i) as [-> | Hne]; [left|right; split; assumption].
    destruct (lo_hold _ _ _ Ho _ _ Hin) as [t0 [Ht0 Hl]]. rewrite Ht in Ht0. inversion Ht0; subst. split; [reflexivity|exact Hl].
  Qed.

  Lemma lock_update : forall T i t t' l L L',
    nth_error T i = Some t -> lock_ok T l L ->
    (In i (map fst (queue L')) <-> at_acq i t' l) ->
    (forall j, j <> i -> In j (map fst (queue L')) <-> In j (map fst (queue L))) ->
    NoDup (map fst (queue L')) ->
    (forall u m, In (u, m) (holders L') -> (u = i /\ In l (held t')) \/ (u <> i /\ In (u, m) (holders L))) ->
    lock_ok (upd i t' T) l L'.
  Proof.
    intros T i t t' l L L' Ht Ho Hq1 Hq2 Hn Hh.
    assert (Hme : nth_error (upd i t' T) i = Some t') by (eapply nth_error_upd_eq; eassumption).
    constructor.
    - intros j. destruct (Nat.eq_dec i j) as [<- | Hne].
      + rewrite Hq1, Hme. split; [intros Ha; exists t'; split; [reflexivity|exact Ha]|].
        intros [tj [Hj Ha]]. inversion Hj; subst. exact Ha.
      + rewrite Hq2, nth_error_upd_neq by auto. apply (lo_queue _ _ _ Ho).
    - exact Hn.
    - intros u m Hin. destruct (Hh u m Hin) as [[-> Hl] | [Hne Hold]]; [exists t'; split; assumption|].
      rewrite nth_error_upd_neq by auto. eapply (lo_hold _ _ _ Ho). eassumption.
  Qed.

  Lemma lock_frame : forall T i t t' l L,
    nth_error T i = Some t -> lock_ok T l L ->
    (at_acq i t' l <-> at_acq i t l) -> (In l (held t) -> In l (held t')) ->
    lock_ok (upd i t' T) l L.
  Proof.
    intros T i t t' l L Ht Ho Ha Hheld. apply (lock_update T i t t' l L L Ht Ho).
    - rewrite Ha. apply (queued_iff T); assumption.
    - reflexivity.
    - apply (lo_nodup _ _ _ Ho).
    - intros u m Hin. destruct (holds_split T l L i t u m Ho Ht Hin) as [[-> Hl]|Hr]; auto.
  Qed.

  Lemma disc_next : forall s i t a, inv s -> nth_error (ts s) i = Some t ->
    nth_error (prog progs i) (pc t) = Some a ->
    discn rank needs i (held t) (a :: skipn (S (pc t)) (prog progs i)) = true.
  Proof.
    intros s i t a Hi Ht Hc. rewrite <- (skipn_nth_error _ _ _ _ Hc). apply (inv_disc s Hi). exact Ht.
  Qed.

  Lemma next_acq : forall s i t l m, inv s -> nth_error (ts s) i = Some t ->
    nth_error (prog progs i) (pc t) = Some (Acq l m) ->
    In l (needs i) /\ forall x, In x (held t) -> rank x < rank l.
  Proof.
    intros s i t l m Hi Ht Hc. pose proof (disc_next s i t _ Hi Ht Hc) as Hd. cbn [discn] in Hd.
    apply andb_true_iff in Hd as [Hd _]. apply andb_true_iff in Hd as [Hn Hr].
    split; [apply existsb_eqb_in; exact Hn|]. intros x Hx. apply Nat.ltb_lt. revert x Hx. apply forallb_forall. exact Hr.
  Qed.

  Lemma next_await : forall s i t j k, inv s -> nth_error (ts s) i = Some t ->
    nth_error (prog progs i) (pc t) = Some (Await j k) ->
    (forall x, In x (held t) -> forall l, In l (needs j) -> rank x < rank l) /\ incl (needs j) (needs i).
  Proof.
    intros s i t j k Hi Ht Hc. pose proof (disc_next s i t _ Hi Ht Hc) as Hd. cbn [discn] in Hd.
    apply andb_true_iff in Hd as [Hd _]. apply andb_true_iff in Hd as [Hr Hn]. rewrite forallb_forall in Hr, Hn. split.
    - intros x Hx l Hl. apply Nat.ltb_lt. specialize (Hr x Hx). rewrite forallb_forall in Hr. apply Hr. exact Hl.
    - intros l Hl. apply existsb_eqb_in, Hn, Hl.
  Qed.

  Lemma finished_holds_nothing : forall s i t, inv s -> nth_error (ts s) i = Some t ->
    nth_error (prog progs i) (pc t) = None -> held t = [].
  Proof.
    intros s i t Hi Ht Hc. pose proof (inv_disc s Hi _ _ Ht) as Hd.
    rewrite skipn_all2 in Hd by (apply nth_error_None; exact Hc). cbn [discn] in Hd. destruct (held t); [reflexivity|discriminate].
  Qed.

  Lemma inv_step : forall s i s', inv s -> step progs s i = Some s' -> inv s'.
  Proof.
    intros s i s' Hi Hs. destruct (step_moves _ _ _ _ Hs) as (t & a & Ht & Hc & t' & lk' & Hm & ->).
    pose proof (disc_next s i t a Hi Ht Hc) as Hd.
    pose proof (fun l => inv_lock s Hi l) as Hlk.
    pose proof (fun l => queued_iff _ l _ i t (Hlk l) Ht) as Hqi.
    pose proof (fun l u m => holds_split _ l _ i t u m (Hlk l) Ht) as Hhs.
    assert (Hnq : forall l0, (forall m, a <> Acq l0 m) \/ waiting t = false -> ~ at_acq i t l0).
    { intros l0 Hor [Hw [m H]]. destruct Hor as [Hor|Hor]; [apply (Hor m)|]; congruence. }
    constructor; cbn [ts lk].
    - intros j tj Hj. destruct (Nat.eq_dec i j) as [<- | Hne];
        [|rewrite nth_error_upd_neq in Hj by assumption; apply (inv_disc s Hi); assumption].
      rewrite (nth_error_upd_eq _ _ _ _ _ Ht) in Hj. injection Hj as <-.
      destruct Hm; cbn [discn pc held] in *.
      + (* mv_request *) apply (inv_disc s Hi). exact Ht.
      + (* mv_grant *) apply andb_true_iff in Hd as [_ Hd]. exact Hd.
      + (* mv_release *) exact Hd.
      + (* mv_await *) apply andb_true_iff in Hd as [_ Hd]. exact Hd.
    - intros l0.
      (* a lock whose state stays: [i] is not queued there, before or after *)
      assert (Hfr : ~ at_acq i t l0 -> ~ at_acq i t' l0 -> (In l0 (held t) -> In l0 (held t')) ->
                    lock_ok (upd i t' (ts s)) l0 (lk s l0)).
      { intros H1 H2 H3. apply (lock_frame _ i t); [exact Ht|apply Hlk|tauto|exact H3]. }
      destruct Hm as [l m Hw | l m m0 q' Hw Hq | l | j k].
      + (* mv_request *)
        destruct (Nat.eq_dec l0 l) as [-> | Hl]; [rewrite setl_eq | rewrite setl_neq by assumption].
        * apply (lock_update _ i t _ _ (lk s l)); [exact Ht|apply Hlk|..]; cbn [queue holders];
            rewrite ?map_app, ?in_app_iff; cbn [map fst In].
          -- split; [intros _; split; [reflexivity|exists m; exact Hc]|auto].
          -- intros j0 Hne. rewrite in_app_iff. cbn [In].
             split; [intros [H|[E|[]]]; [exact H|congruence]|auto].
          -- apply (NoDup_Add (Add_app _ _ [])). rewrite app_nil_r.
             split; [apply (lo_nodup _ _ _ (Hlk l))|rewrite Hqi; apply Hnq; auto].
          -- apply Hhs.
        * apply Hfr; [apply Hnq; auto| |auto]. intros [_ [m' H]]. cbn [pc] in H. congruence.
      + (* mv_grant *)
        pose proof (lo_nodup _ _ _ (Hlk l)) as Hnd. rewrite Hq in Hnd. cbn [map fst] in Hnd.
        apply NoDup_cons_iff in Hnd as [Hni Hnd].
        destruct (Nat.eq_dec l0 l) as [-> | Hl]; [rewrite setl_eq | rewrite setl_neq by assumption].
        * apply (lock_update _ i t _ _ (lk s l)); [exact Ht|apply Hlk|..]; cbn [queue holders held]; rewrite ?Hq; cbn [map fst In].
          -- split; [contradiction|intros [Hf _]; discriminate].
          -- intros j0 Hne. split; [right; assumption|intros [E|H]; [congruence|exact H]].
          -- exact Hnd.
          -- intros u mu [H|H]; [inversion H; subst; left; split; [reflexivity|left; reflexivity]|].
             destruct (Hhs _ _ _ H) as [[-> Hl']|Hr]; [left; split; [reflexivity|right; exact Hl']|right; exact Hr].
        * apply Hfr; [apply Hnq; left; congruence|intros [Hf _]; discriminate|intros H; right; exact H].
      + (* mv_release *)
        destruct (Nat.eq_dec l0 l) as [-> | Hl]; [rewrite setl_eq | rewrite setl_neq by assumption].
        * apply (lock_update _ i t _ _ (lk s l)); [exact Ht|apply Hlk|..]; cbn [queue holders held].
          -- rewrite Hqi. split; [intros H; exfalso; revert H; apply Hnq; left; discriminate|intros [Hf _]; discriminate].
          -- reflexivity.
          -- apply (lo_nodup _ _ _ (Hlk l)).
          -- intros u mu H. apply filter_In in H as [H Hf]. cbn [fst] in Hf.
             apply negb_true_iff, Nat.eqb_neq in Hf. right. split; assumption.
        * apply Hfr; [apply Hnq; left; discriminate|intros [Hf _]; discriminate|].
          intros H. apply in_in_remove; assumption.
      + (* mv_await *)
        apply Hfr; [apply Hnq; left; discriminate|intros [Hf _]; discriminate|auto].
  Qed.

  Lemma inv_reach : forall s, reach progs s -> inv s.
  Proof.
    intros s H. induction H; [apply inv_init | eapply inv_step; eassumption].
  Qed.
End Inv.

Section NoDeadlock.
  Variable progs : list (list act).
  Variable rank : lock -> nat.
  Variable needs : nat -> list lock.
  Hypothesis Hdisc : forall i p, nth_error progs i = Some p -> discn rank needs i [] p = true.
  Hypothesis Hwait : forall i p, nth_error progs i = Some p -> waits_ok progs i p.

  Definition acq_locks (p : list act) : list lock :=
    flat_map (fun a => match a with Acq l _ => [l] | _ => [] end) p.
  Definition bound : nat := list_max (map rank (flat_map acq_locks progs)).

  Lemma in_acq_locks : forall p l m, In (Acq l m) p -> In l (acq_locks p).
  Proof. intros p l m H. apply in_flat_map. exists (Acq l m). split; [assumption | left; reflexivity]. Qed.

  Lemma prog_in : forall i n a, nth_error (prog progs i) n = Some a ->
    nth_error progs i = Some (prog progs i) /\ In (prog progs i) progs.
  Proof.
    intros i n a H. unfold prog in *. destruct (Nat.lt_ge_cases i (List.length progs)) as [Hlt | Hge].
    - split; [apply nth_error_nth'; assumption | apply nth_In; assumption].
    - rewrite nth_overflow in H by assumption. destruct n; discriminate.
  Qed.

  Lemma rank_le_bound : forall i n l m, nth_error (prog progs i) n = Some (Acq l m) -> rank l <= bound.
  Proof.
    intros i n l m H. unfold bound. apply list_max_in, in_map, in_flat_map.
    exists (prog progs i). split; [eapply prog_in; eassumption|]. eapply in_acq_locks, nth_error_In. eassumption.
  Qed.

  Section Stuck.
    Variable s : state.
    Hypothesis Hi : inv progs rank needs s.
    Hypothesis Hstuck : forall i, step progs s i = None.

    Lemma stuck_not_ready_acq : forall i t l m, nth_error (ts s) i = Some t ->
      nth_error (prog progs i) (pc t) = Some (Acq l m) -> waiting t = true.
    Proof.
      intros i t l m Ht Hc. destruct (waiting t) eqn:Hw; [reflexivity|].
      pose proof (Hstuck i) as Hs. unfold step in Hs. rewrite Ht, Hc, Hw in Hs. discriminate.
    Qed.

    Lemma stuck_not_rel : forall i t l, nth_error (ts s) i = Some t ->
      nth_error (prog progs i) (pc t) = Some (Rel l) -> False.
    Proof.
      intros i t l Ht Hc. pose proof (Hstuck i) as Hs. unfold step in Hs. rewrite Ht, Hc in Hs. discriminate.
    Qed.

    Lemma stuck_await : forall i t j k, nth_error (ts s) i = Some t ->
      nth_error (prog progs i) (pc t) = Some (Await j k) -> j < i /\ cur progs s j <> None.
    Proof.
      intros i t j k Ht Hp.
      destruct (prog_in _ _ _ Hp) as [Hpi _].
      pose proof (Hwait _ _ Hpi j k (nth_error_In _ _ Hp)) as [Hji Hk].
      assert (Hil : i < List.length (ts s)) by (apply nth_error_Some; congruence).
      split; [assumption|].
      destruct (nth_error (ts s) j) as [tj|] eqn:Htj.
      2:{ apply nth_error_None in Htj. lia. }
      pose proof (Hstuck i) as Hs. unfold step in Hs. rewrite Ht, Hp, Htj in Hs.
      destruct (k <=? pc tj) eqn:Hle; [discriminate|]. apply Nat.leb_gt in Hle.
      unfold cur. rewrite Htj. apply nth_error_Some. fold (prog progs j) in Hk. lia.
    Qed.

    (** following the waits from an unfinished task leads to a task at an acquisition, of a lock that
        the first task may need and that ranks above everything the first task holds *)
    Lemma blocked_at : forall i, cur progs s i <> None ->
      exists j tj l m, nth_error (ts s) j = Some tj /\ nth_error (prog progs j) (pc tj) = Some (Acq l m) /\
        In l (needs i) /\ forall t x, nth_error (ts s) i = Some t -> In x (held t) -> rank x < rank l.
    Proof.
      intros i. induction i as [i IH] using lt_wf_ind. intros Hc. unfold cur in Hc.
      destruct (nth_error (ts s) i) as [t|] eqn:Ht; [|congruence].
      destruct (nth_error (prog progs i) (pc t)) as [[l m | l | j k]|] eqn:Hp; [| | |congruence].
      - destruct (next_acq _ _ _ _ _ _ _ _ Hi Ht Hp) as [Hl Hr].
        exists i, t, l, m. repeat split; try assumption. intros t0 x E. injection E as <-. apply Hr.
      - exfalso. eapply stuck_not_rel; eassumption.
      - destruct (stuck_await _ _ _ _ Ht Hp) as [Hji Hcj].
        destruct (next_await _ _ _ _ _ _ _ _ Hi Ht Hp) as [Hall Hsub].
        destruct (IH j Hji Hcj) as (j' & t' & l & m & Ht' & Hp' & Hl & _). exists j', t', l, m.
        repeat split; try assumption; [apply Hsub, Hl|]. intros t0 x E Hx. injection E as <-. exact (Hall x Hx l Hl).
    Qed.

    (** nobody can be queued on a lock: the head of the queue is refused because of a holder, from
        which [blocked_at] leads to a task queued on a lock of higher rank; the ranks run out *)
    Lemma no_waiting : forall d j t l m, nth_error (ts s) j = Some t ->
      nth_error (prog progs j) (pc t) = Some (Acq l m) -> bound - rank l = d -> False.
    Proof.
      intros d. induction d as [d IH] using lt_wf_ind. intros j t l m Ht Hc Hd.
      (* [j] is in the queue of [l]; its head is refused because somebody holds [l] *)
      assert (Hin : In j (map fst (queue (lk s l)))).
      { apply (lo_queue _ _ _ _ (inv_lock _ _ _ _ Hi l)). exists t. split; [exact Ht|]. split; [|exists m; exact Hc].
        eapply stuck_not_ready_acq; eassumption. }
      destruct (queue (lk s l)) as [|[h mh] q'] eqn:Hq; [destruct Hin|].
      destruct (proj1 (lo_queue _ _ _ _ (inv_lock _ _ _ _ Hi l) h)) as [th [Hth [Hwh [m' Hch]]]]; [rewrite Hq; left; reflexivity|].
      pose proof (Hstuck h) as Hs. unfold step in Hs. rewrite Hth, Hch, Hwh, Hq, Nat.eqb_refl in Hs.
      cbn [andb] in Hs. destruct (compat m' (holders (lk s l))) eqn:Hcompat; [discriminate|].
      destruct (holders (lk s l)) as [|[u mu] hs] eqn:Hh; [rewrite compat_nil in Hcompat; discriminate|].
      destruct (lo_hold _ _ _ _ (inv_lock _ _ _ _ Hi l) u mu) as [tu [Htu Hheld]]; [rewrite Hh; left; reflexivity|].
      (* that holder has not finished, so it is blocked further up *)
      assert (Hcu : cur progs s u <> None).
      { unfold cur. rewrite Htu. intros Hn. rewrite (finished_holds_nothing _ _ _ _ _ _ Hi Htu Hn) in Hheld. destruct Hheld. }
      destruct (blocked_at u Hcu) as (j2 & t2 & l2 & m2 & Ht2 & Hc2 & _ & Hr).
      pose proof (Hr tu l Htu Hheld). pose proof (rank_le_bound _ _ _ _ Hc2).
      apply (IH (bound - rank l2)) with (j := j2) (t := t2) (l := l2) (m := m2); try assumption; lia.
    Qed.
  End Stuck.

  Theorem needs_no_deadlock : forall s, reach progs s -> ~ deadlock progs s.
  Proof.
    intros s Hr [[i Hc] Hstuck].
    pose proof (inv_reach progs rank needs Hdisc s Hr) as Hi.
    destruct (blocked_at s Hi Hstuck i Hc) as (j & t & l & m & Ht & Hcj & _ & _).
    eapply (no_waiting s); try eassumption. reflexivity.
  Qed.
End NoDeadlock.

(** the strict discipline (nothing held at a wait) is the special case "everybody may need everything" *)
Lemma disc_discn : forall rank (ALL : list lock) me p h,
  incl (acq_locks p) ALL -> disc rank h p = true -> discn rank (fun _ => ALL) me h p = true.
Proof.
  intros rank ALL me. induction p as [|[l m | l | j k] p IH]; intros h Hall H; cbn [disc discn acq_locks flat_map app] in *.
  - assumption.
  - apply incl_cons_inv in Hall as [Hl Hall]. apply andb_true_iff in H as [H1 H2]. rewrite H1, (proj2 (existsb_eqb_in _ _) Hl).
    apply IH; assumption.
  - apply IH; assumption.
  - apply andb_true_iff in H as [H1 H2]. destruct h; [|discriminate]. cbn [forallb andb].
    assert (forallb (fun l => existsb (Nat.eqb l) ALL) ALL = true) as ->.
    { apply forallb_forall. intros x Hx. apply existsb_eqb_in. exact Hx. }
    apply IH; assumption.
Qed.

Theorem ranked_no_deadlock : forall (progs : list (list act)) (rank : lock -> nat),
  (forall i p, nth_error progs i = Some p -> disc rank [] p = true) ->
  (forall i p, nth_error progs i = Some p -> waits_ok progs i p) ->
  forall s, reach progs s -> ~ deadlock progs s.
Proof.
  intros progs rank Hd Hw.
  apply (needs_no_deadlock progs rank (fun _ => flat_map acq_locks progs)); [|assumption].
  intros i p Hi. apply disc_discn; [|eapply Hd; eassumption].
  intros x Hx. apply in_flat_map. exists p. split; [eapply nth_error_In; eassumption|exact Hx].
Qed.

(** prefix-closed discipline of a path, relative to who is a main loop and what the main loop may take *)
Fixpoint okpathw (r : lock -> nat) (mainlocks : list lock) (ismain : nat -> bool)
                 (h : list lock) (p : list act) : bool :=
  match p with
  | [] => true
  | Acq l _ :: q => forallb (fun x => r x <? r l) h && okpathw r mainlocks ismain (l :: h) q
  | Rel l :: q => okpathw r mainlocks ismain (remove Nat.eq_dec l h) q
  | Await j _ :: q =>
      (if ismain j then forallb (fun x => forallb (fun l => r x <? r l) mainlocks) h else is_nil h)
      && okpathw r mainlocks ismain h q
  end.

Lemma after_app : forall p q h, after h (p ++ q) = after (after h p) q.
Proof.
  induction p as [|[l m | l | j k] p IH]; intros q h; cbn [app after]; try reflexivity; apply IH.
Qed.

Lemma okpathw_app : forall r ml im p q h,
  okpathw r ml im h (p ++ q) = okpathw r ml im h p && okpathw r ml im (after h p) q.
Proof.
  induction p as [|[l m | l | j k] p IH]; intros q h; cbn [app after okpathw].
  - reflexivity.
  - rewrite IH. rewrite andb_assoc. reflexivity.
  - apply IH.
  - rewrite IH. rewrite andb_assoc. reflexivity.
Qed.

Lemma exec_after : forall im s h p h', exec im s h p h' -> after h p = h'.
Proof.
  intros im s h p h' H. induction H; cbn [after]; try reflexivity.
  - rewrite after_app. rewrite IHexec1. assumption.
  - assumption.
  - assumption.
  - rewrite after_app. rewrite IHexec1. assumption.
Qed.

Lemma inclb_incl : forall a b, inclb a b = true -> incl a b.
Proof.
  intros a b H x Hx. unfold inclb in H. rewrite forallb_forall in H. apply existsb_eqb_in, H, Hx.
Qed.

Lemma ranked_app : forall r E1 E2, ranked r (nodup edge_dec (E1 ++ E2)) -> ranked r E1 /\ ranked r E2.
Proof. intros r E1 E2 H. split; intros x y Hxy; apply H, nodup_In, in_or_app; auto. Qed.

Lemma ana_sound : forall r ml im s h p h', exec im s h p h' ->
  forall M M' E o, ana ml s M = (M', E, o) -> o = true -> ranked r E -> incl h M ->
  okpathw r ml im h p = true /\ incl h' M'.
Proof.
  intros r ml im s h p h' H. induction H; intros M M' E o Ha Ho Hr Hin; cbn [ana] in Ha.
  - (* EAcq *) injection Ha as <- <- <-. split.
    + cbn [okpathw]. rewrite andb_true_r. apply forallb_forall. intros x Hx. apply Nat.ltb_lt.
      apply Hr. apply in_map_iff. exists x. split; [reflexivity|]. apply Hin. assumption.
    + intros x [Hx | Hx]; [left; assumption | right; apply Hin; assumption].
  - (* ERelHeld *) injection Ha as <- <- <-. split; [reflexivity|].
    intros x Hx. apply in_remove in Hx. destruct Hx as [Hx Hne]. apply in_in_remove; [assumption|]. apply Hin. assumption.
  - (* ERelNot *) injection Ha as <- <- <-. split; [reflexivity|].
    intros x Hx. apply in_in_remove; [|apply Hin; assumption]. intros ->. contradiction.
  - (* EWait *) injection Ha as <- <- <-. destruct M as [|x0 M]; [|discriminate]. apply incl_l_nil in Hin. subst h.
    split; [|intros x []]. cbn [okpathw]. destruct (im j); reflexivity.
  - (* EWaitMain *) injection Ha as <- <- <-. split; [|assumption]. cbn [okpathw]. rewrite H. rewrite andb_true_r.
    apply forallb_forall. intros x Hx. apply forallb_forall. intros l Hl. apply Nat.ltb_lt. apply Hr.
    apply in_flat_map. exists x. split; [apply Hin; assumption|]. apply in_map_iff. exists l. split; [reflexivity | assumption].
  - (* ESkip *) injection Ha as <- <- <-. split; [reflexivity | assumption].
  - (* ESeq *) destruct (ana ml a M) as [[M1 E1] o1] eqn:Ha1. destruct (ana ml b M1) as [[M2 E2] o2] eqn:Ha2.
    injection Ha as <- <- <-. apply andb_true_iff in Ho as [Ho1 Ho2]. apply ranked_app in Hr as [Hr1 Hr2].
    destruct (IHexec1 _ _ _ _ Ha1 Ho1 Hr1 Hin) as [Hk1 Hi1]. destruct (IHexec2 _ _ _ _ Ha2 Ho2 Hr2 Hi1) as [Hk2 Hi2].
    split; [|assumption]. rewrite okpathw_app. rewrite (exec_after _ _ _ _ _ H). rewrite Hk1, Hk2. reflexivity.
  - (* EAltL *) destruct (ana ml a M) as [[M1 E1] o1] eqn:Ha1. destruct (ana ml b M) as [[M2 E2] o2] eqn:Ha2.
    injection Ha as <- <- <-. apply andb_true_iff in Ho as [Ho1 _]. apply ranked_app in Hr as [Hr1 _].
    destruct (IHexec _ _ _ _ Ha1 Ho1 Hr1 Hin) as [Hk1 Hi1].
    split; [assumption|]. intros x Hx. apply nodup_In, in_or_app. left. apply Hi1. assumption.
  - (* EAltR *) destruct (ana ml a M) as [[M1 E1] o1] eqn:Ha1. destruct (ana ml b M) as [[M2 E2] o2] eqn:Ha2.
    injection Ha as <- <- <-. apply andb_true_iff in Ho as [_ Ho2]. apply ranked_app in Hr as [_ Hr2].
    destruct (IHexec _ _ _ _ Ha2 Ho2 Hr2 Hin) as [Hk1 Hi1].
    split; [assumption|]. intros x Hx. apply nodup_In, in_or_app. right. apply Hi1. assumption.
  - (* ELoop0 *) destruct (ana ml a M) as [[M1 E1] o1] eqn:Ha1. injection Ha as <- <- <-. split; [reflexivity | assumption].
  - (* ELoopS *) destruct (ana ml a M) as [[M1 E1] o1] eqn:Ha1. injection Ha as <- <- <-.
    pose proof Ho as Hboth. apply andb_true_iff in Ho. destruct Ho as [Ho1 Hinc]. apply inclb_incl in Hinc.
    destruct (IHexec1 _ _ _ _ Ha1 Ho1 Hr Hin) as [Hk1 Hi1].
    assert (Hloop : ana ml (SLoop a) M = (M, E1, o1 && inclb M1 M)) by (cbn [ana]; rewrite Ha1; reflexivity).
    destruct (IHexec2 _ _ _ _ Hloop Hboth Hr) as [Hk2 Hi2].
    { intros x Hx. apply Hinc. apply Hi1. assumption. }
    split; [|assumption]. rewrite okpathw_app. rewrite (exec_after _ _ _ _ _ H). rewrite Hk1, Hk2. reflexivity.
Qed.

Lemma exec_acq_in : forall im s h p h', exec im s h p h' -> incl (acq_locks p) (acq_of s).
Proof.
  intros im s h p h' H. unfold acq_locks. induction H; rewrite ?flat_map_app; cbn [flat_map acq_of app];
    auto using incl_refl, incl_nil_l, incl_app, incl_appl, incl_appr.
Qed.

Lemma exec_no_wait : forall im s h p h', exec im s h p h' -> has_wait s = false ->
  forall j k, ~ In (Await j k) p.
Proof.
  intros im s h p h' H. induction H; intros Hw j0 k0 Hin; cbn [has_wait] in Hw; try discriminate.
  - (* EAcq *) destruct Hin as [Hin | []]. discriminate.
  - (* ERelHeld *) destruct Hin as [Hin | []]. discriminate.
  - (* ERelNot *) destruct Hin.
  - (* ESkip *) destruct Hin.
  - (* ESeq *) apply orb_false_iff in Hw. destruct Hw as [Hw1 Hw2]. apply in_app_or in Hin.
    destruct Hin as [Hin | Hin]; [eapply IHexec1 | eapply IHexec2]; eassumption.
  - (* EAltL *) apply orb_false_iff in Hw. destruct Hw as [Hw1 Hw2]. eapply IHexec; eassumption.
  - (* EAltR *) apply orb_false_iff in Hw. destruct Hw as [Hw1 Hw2]. eapply IHexec; eassumption.
  - (* ELoop0 *) destruct Hin.
  - (* ELoopS *) apply in_app_or in Hin. destruct Hin as [Hin | Hin]; [eapply IHexec1 | eapply IHexec2]; eassumption.
Qed.

Lemma discn_release_all : forall r needs me g h, incl h g -> discn r needs me h (map Rel g) = true.
Proof.
  induction g as [|x g IH]; intros h Hin; cbn [map discn].
  - apply incl_l_nil in Hin. subst. reflexivity.
  - apply IH. intros y Hy. apply in_remove in Hy. destruct Hy as [Hy Hne].
    apply Hin in Hy. destruct Hy as [Hy | Hy]; [congruence | assumption].
Qed.

(** what [discn] asks of one action of task [me], ranks aside *)
Definition act_ok (needs : nat -> list lock) (me : nat) (a : act) : Prop :=
  match a with
  | Acq l _ => In l (needs me)
  | Rel _ => True
  | Await j _ => incl (needs j) (needs me)
  end.

(** from the path discipline to [discn], for [needs j = mainlocks] on main loops *)
Lemma okpathw_discn : forall r ml im needs me p h,
  (forall j, im j = true -> needs j = ml) -> Forall (act_ok needs me) p ->
  okpathw r ml im h p = true -> discn r needs me h (p ++ map Rel (after h p)) = true.
Proof.
  intros r ml im needs me. induction p as [|a p IH]; intros h Hm Hall H; cbn [app after].
  { apply discn_release_all. apply incl_refl. }
  inversion Hall as [|? ? Ha Hp]; subst. destruct a as [l m | l | j k]; cbn [act_ok okpathw discn] in *.
  - apply andb_true_iff in H as [H1 H2]. rewrite H1, (proj2 (existsb_eqb_in _ _) Ha). apply IH; assumption.
  - apply IH; assumption.
  - apply andb_true_iff in H as [H1 H2].
    assert (forallb (fun x => forallb (fun l => r x <? r l) (needs j)) h = true) as ->.
    { destruct (im j) eqn:Hj; [rewrite (Hm j Hj); assumption|]. destruct h; [reflexivity | discriminate]. }
    assert (forallb (fun l => existsb (Nat.eqb l) (needs me)) (needs j) = true) as ->.
    { apply forallb_forall. intros x Hx. apply existsb_eqb_in, Ha, Hx. }
    apply IH; assumption.
Qed.

Lemma main_stmt_in : forall main (t : table),
  (exists n, In (n, main_stmt main t) t) \/ main_stmt main t = SUnknown.
Proof.
  intros main t. unfold main_stmt. destruct (find (fun e => String.eqb (fst e) main) t) as [[n s]|] eqn:Hf.
  - left. exists n. apply find_some in Hf. apply Hf.
  - right. reflexivity.
Qed.

Theorem table_no_deadlock : forall (main : string) (t : table), table_ok main t = true ->
  forall (progs : list (list act)) (ismain : nat -> bool),
    (forall i p, nth_error progs i = Some p ->
       (if ismain i then covered ismain (main_stmt main t) p
        else exists n s, In (n, s) t /\ covered ismain s p)
       /\ waits_ok progs i p) ->
    forall st, reach progs st -> ~ deadlock progs st.
Proof.
  intros main t Hok progs ismain Hp. unfold table_ok in Hok.
  apply andb_true_iff in Hok. destruct Hok as [Hok Hflags].
  apply andb_true_iff in Hok. destruct Hok as [Hac _].
  unfold held_before_acyclic in Hac. apply acyclicb_ranked in Hac.
  unfold flags_ok in Hflags. cbv zeta in Hflags. apply andb_true_iff in Hflags. destruct Hflags as [Hflags Hnw].
  apply negb_true_iff in Hnw. rewrite forallb_forall in Hflags.
  set (ml := mainlocks_of main t) in *.
  set (ALL := flat_map (fun e => acq_of (snd e)) t).
  set (needs := fun j => if ismain j then ml else ALL).
  set (r := inferred_rank (table_edges main t)) in *.
  assert (Hml : incl ml ALL).
  { unfold ml, mainlocks_of. destruct (main_stmt_in main t) as [[n Hin] | ->]; [|intros x []].
    intros x Hx. apply nodup_In in Hx. apply in_flat_map. exists (n, main_stmt main t). split; assumption. }
  (* one table entry, one covered path: the discipline holds *)
  assert (Hone : forall me n s p, In (n, s) t -> covered ismain s p -> incl (acq_of s) (needs me) ->
            (ismain me = true -> has_wait s = false) -> discn r needs me [] p = true).
  { intros me n s p Hin [p0 [q [h' [He ->]]]] Hacq Hw.
    pose proof (Hflags _ Hin) as Hf. unfold flag_of, edges_of in *. cbn [snd] in Hf.
    destruct (ana ml s []) as [[M' E] o] eqn:Ha. cbn [fst snd] in *.
    assert (HrE : ranked r E).
    { intros a b Hab. apply Hac. unfold table_edges. cbv zeta. apply in_flat_map. exists (n, s). split; [assumption|].
      unfold edges_of. cbn [snd]. fold ml. rewrite Ha. assumption. }
    destruct (ana_sound r ml ismain _ _ _ _ He _ _ _ _ Ha Hf HrE (incl_refl _)) as [Hk _].
    rewrite okpathw_app in Hk. apply andb_true_iff in Hk as [Hk _].
    apply (okpathw_discn r ml ismain needs me); try assumption.
    - intros j Hj. unfold needs. rewrite Hj. reflexivity.
    - apply Forall_forall. intros [l m | l | j k] Hl; cbn [act_ok]; [|exact I|].
      + apply Hacq, (exec_acq_in _ _ _ _ _ He), (in_acq_locks _ l m), in_or_app. left. exact Hl.
      + unfold needs. destruct (ismain me) eqn:Hme.
        * exfalso. apply (exec_no_wait _ _ _ _ _ He (Hw eq_refl) j k), in_or_app. left. exact Hl.
        * destruct (ismain j); [exact Hml | apply incl_refl]. }
  apply (needs_no_deadlock progs r needs); [|intros i p Hi; apply (Hp i p Hi)].
  intros i p Hi. destruct (Hp i p Hi) as [Hcov _]. unfold needs at 1. destruct (ismain i) eqn:Him.
  - (* a main loop: takes only main locks, waits for nobody *)
    destruct (main_stmt_in main t) as [[n Hin] | Hun]; [|rewrite Hun in Hnw; discriminate].
    apply (Hone i n _ p Hin Hcov); [|auto]. unfold needs. rewrite Him. intros x Hx. apply nodup_In. exact Hx.
  - destruct Hcov as [n [s [Hin Hcov]]]. apply (Hone i n s p Hin Hcov); [|congruence].
    unfold needs. rewrite Him. intros x Hx. apply in_flat_map. exists (n, s). split; assumption.
Qed.

Lemma run_reach : forall progs sched s s', reach progs s -> run progs s sched = Some s' -> reach progs s'.
Proof.
  intros progs sched. induction sched as [|i sched IH]; intros s s' Hr H; cbn [run] in H.
  - inversion H; subst. assumption.
  - destruct (step progs s i) as [s1|] eqn:Hs; [|discriminate].
    eapply IH; [|eassumption]. eapply reach_step; eassumption.
Qed.

Lemma stuckb_spec : forall progs s, stuckb progs s = true -> forall i, step progs s i = None.
Proof.
  intros progs s H i. destruct (Nat.lt_ge_cases i (List.length (ts s))) as [Hlt | Hge].
  - unfold stuckb in H. rewrite forallb_forall in H. specialize (H i).
    destruct (step progs s i); [|reflexivity]. cbn in H. assert (false = true); [|discriminate].
    apply H. apply in_seq. lia.
  - unfold step. apply nth_error_None in Hge. rewrite Hge. reflexivity.
Qed.

Lemma unfinishedb_spec : forall progs s, unfinishedb progs s = true -> exists i, cur progs s i <> None.
Proof.
  intros progs s H. unfold unfinishedb in H. apply existsb_exists in H. destruct H as [i [_ H]].
  exists i. destruct (cur progs s i); [discriminate | discriminate].
Qed.

Lemma deadlock_by_run : forall progs sched s,
  run progs (init progs) sched = Some s -> stuckb progs s = true -> unfinishedb progs s = true ->
  reach progs s /\ deadlock progs s.
Proof.
  intros progs sched s Hrun Hst Hun. split.
  - eapply run_reach; [apply reach_init | eassumption].
  - split; [apply unfinishedb_spec; assumption | apply stuckb_spec; assumption].
Qed.

(** the order context/mod.rs documented before its repair: 1 diagnostic_tokens, 2 workspace_diagnostic_token, 4 reload_lock,
    5 analysis READ, 6 workspace_manager READ, 7 workspace_manager WRITE, 8 analysis WRITE *)
Definition lk_analysis : lock := 0.
Definition lk_workspace_manager : lock := 1.
Definition lk_diagnostic_tokens : lock := 2.
Definition lk_workspace_diagnostic_token : lock := 3.
Definition lk_reload_lock : lock := 4.

Definition doc_rank (x : lock * mode) : nat :=
  match x with
  | (0, Read) => 5 | (1, Read) => 6 | (1, Write) => 7 | (0, Write) => 8
  | (2, _) => 1 | (3, _) => 2 | (4, _) => 4
  | _ => 0
  end.

(** semantic tokens / completion resolve / (range) formatting; watched files; didOpen / didChange *)
Definition doc_witness : list (list act) :=
  [ [Acq lk_analysis Read; Acq lk_workspace_manager Read; Rel lk_workspace_manager; Rel lk_analysis];
    [Acq lk_workspace_manager Read; Acq lk_analysis Write; Rel lk_analysis; Rel lk_workspace_manager];
    [Acq lk_workspace_manager Write; Rel lk_workspace_manager] ].

Definition doc_schedule : list nat := [0; 0; 1; 1; 2; 0; 1].

Lemma doc_order_unsafe_refuted :
  exists progs : list (list act),
    List.length progs = 3 /\
    Forall (fun p => doc_ordered doc_rank [] p = true) progs /\
    exists s, reach progs s /\ deadlock progs s.
Proof.
  exists doc_witness. split; [reflexivity|]. split.
  - repeat constructor.
  - eexists. apply (deadlock_by_run _ doc_schedule); vm_compute; reflexivity.
Qed.

Definition reentrant_witness (l : lock) : list (list act) :=
  [ [Acq l Read; Acq l Read; Rel l; Rel l]; [Acq l Write; Rel l] ].

Lemma reentrant_read_refuted :
  exists progs s,
    progs = reentrant_witness lk_workspace_manager /\ reach progs s /\ deadlock progs s.
Proof.
  exists (reentrant_witness lk_workspace_manager). eexists. split; [reflexivity|].
  apply (deadlock_by_run _ [0; 0; 1; 0]); vm_compute; reflexivity.
Qed.

(** every execution is finite, so "no deadlock" means that every request is eventually granted *)

Section Measure.
  Variable progs : list (list act).

  Definition tm (i : nat) (t : tstate) : nat :=
    2 * (List.length (prog progs i) - pc t) - (if waiting t then 1 else 0).

  Fixpoint msum (i0 : nat) (l : list tstate) : nat :=
    match l with [] => 0 | t :: r => tm i0 t + msum (S i0) r end.

  Definition measure (s : state) : nat := msum 0 (ts s).

  Lemma msum_upd : forall l i0 i t t', nth_error l i = Some t -> tm (i0 + i) t' < tm (i0 + i) t ->
    msum i0 (upd i t' l) < msum i0 l.
  Proof.
    induction l as [|a l IH]; intros i0 [|i] t t' Hn Hlt; cbn in Hn; try discriminate.
    - inversion Hn; subst. cbn [upd msum]. rewrite Nat.add_0_r in Hlt. lia.
    - cbn [upd msum]. assert (msum (S i0) (upd i t' l) < msum (S i0) l); [|lia].
      eapply IH; [eassumption|]. replace (S i0 + i) with (i0 + S i) by lia. assumption.
  Qed.

  Lemma step_decreases : forall s i s', step progs s i = Some s' -> measure s' < measure s.
  Proof.
    intros s i s' Hs. destruct (step_moves _ _ _ _ Hs) as (t & a & Ht & Hc & t' & lk' & Hm & ->).
    assert (Hpc : pc t < List.length (prog progs i)) by (apply nth_error_Some; congruence).
    unfold measure. cbn [ts]. apply (msum_upd _ 0 i t); [exact Ht|]. unfold tm. cbn [Nat.add].
    destruct Hm as [l m Hw | l m m0 q' Hw _ | l | j k]; cbn [pc waiting]; rewrite ?Hw; try destruct (waiting t); lia.
  Qed.

  Lemma run_bounded : forall sched s s', run progs s sched = Some s' ->
    List.length sched + measure s' <= measure s.
  Proof.
    induction sched as [|i sched IH]; intros s s' H; cbn [run] in H.
    - inversion H; subst. cbn. lia.
    - destruct (step progs s i) as [s1|] eqn:Hs; [|discriminate].
      apply IH in H. apply step_decreases in Hs. cbn [List.length]. lia.
  Qed.

  Lemma cur_none_out : forall s i, List.length (ts s) <= i -> cur progs s i = None.
  Proof.
    intros s i H. unfold cur. apply nth_error_None in H. rewrite H. reflexivity.
  Qed.
End Measure.

Lemma eventually_granted : forall progs rank,
  (forall i p, nth_error progs i = Some p -> disc rank [] p = true) ->
  (forall i p, nth_error progs i = Some p -> waits_ok progs i p) ->
  forall sched s, run progs (init progs) sched = Some s ->
    List.length sched <= measure progs (init progs) /\
    ((forall i, step progs s i = None) -> all_finished progs s).
Proof.
  intros progs rank Hd Hw sched s Hrun. split.
  - apply run_bounded in Hrun. lia.
  - intros Hstuck i. destruct (cur progs s i) eqn:Hc; [|reflexivity]. exfalso.
    apply (ranked_no_deadlock progs rank Hd Hw s).
    + eapply run_reach; [apply reach_init | eassumption].
    + split; [exists i; congruence | assumption].
Qed.

(** non-vacuity: the repaired handlers (workspace_manager before analysis, leaf mutex last), a
    main-loop-like task 0 that others wait for, and a reload task that holds [reload_lock] while it waits *)
Definition example_progs : list (list act) :=
  [ [Acq lk_workspace_manager Write; Rel lk_workspace_manager; Acq lk_analysis Write; Rel lk_analysis];
    [Acq lk_workspace_manager Read; Rel lk_workspace_manager; Acq lk_analysis Read; Rel lk_analysis; Await 0 2];
    [Acq lk_workspace_manager Read; Acq lk_analysis Write; Acq lk_diagnostic_tokens Write;
     Rel lk_diagnostic_tokens; Rel lk_analysis; Rel lk_workspace_manager];
    [Acq lk_reload_lock Write; Acq lk_workspace_manager Write; Rel lk_workspace_manager;
     Acq lk_analysis Write; Rel lk_analysis; Await 0 4; Rel lk_reload_lock] ].

Definition example_rank (l : lock) : nat :=
  match l with 4 => 0 | 1 => 1 | 0 => 2 | _ => 3 end.

Definition example_needs (j : nat) : list lock :=
  match j with 0 => [1; 0] | _ => [0; 1; 2; 4] end.

Definition example_schedule : list nat :=
  [3; 3; 3; 3; 3; 3; 3; 3; 2; 2; 2; 2; 2; 2; 2; 2; 2; 1; 1; 1; 1; 1; 1; 0; 0; 0; 1; 0; 0; 0; 3; 3].

Lemma ranked_example :
  forallb (fun ip => discn example_rank example_needs (fst ip) [] (snd ip))
          (combine (seq 0 4) example_progs) = true /\
  (forall i p, nth_error example_progs i = Some p -> waits_ok example_progs i p) /\
  exists s, run example_progs (init example_progs) example_schedule = Some s /\
            unfinishedb example_progs s = false.
Proof.
  split; [vm_compute; reflexivity|]. split.
  - intros i p Hi j k Hin. destruct i as [|[|[|[|i]]]]; cbn in Hi; try (destruct i; discriminate);
      inversion Hi; subst; cbn in Hin;
      repeat (destruct Hin as [Hin | Hin]; [try discriminate; inversion Hin; subst; cbn; lia|]); destruct Hin.
  - eexists. split; vm_compute; reflexivity.
Qed.
