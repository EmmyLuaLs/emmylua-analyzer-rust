(** C31/Proofs.v — lemmas: [to_emmyrc_json] as a fold of a function on the entries of an object (also the
    basis of C32/Proofs.v); no input of the configuration loader reaches a panic; bad files are skipped. *)
From EV Require Import Base.JsonFacts C31.Model.
Local Open Scope N_scope.

Definition sub_obj (o : option json) : list (text * json) :=
  match o with Some (JObj x) => x | _ => [] end.

Definition holds_obj (o : option json) : bool :=
  match o with Some old => is_obj old | None => false end.

(** [set_path ks v (JObj m)] as a function on the object's entries: the cursor always points to an
    object, so neither [expect("always an object")] nor the indexing [current[key] = v] can fail *)
Fixpoint sp (ks : list text) (v : json) (m : list (text * json)) : list (text * json) :=
  match ks with
  | [] => m
  | k :: rest =>
      match rest with
      | [] => if holds_obj (bt_get k m) then m else bt_insert k v m
      | _ :: _ => bt_insert k (JObj (sp rest v (sub_obj (bt_get k m)))) m
      end
  end.

Lemma set_path_sp : forall ks v m, set_path ks v (JObj m) = Val (JObj (sp ks v m)).
Proof.
  induction ks as [|k rest IH]; intros v m; cbn [set_path sp]; [reflexivity|].
  destruct rest as [|k2 rest'].
  - cbn [val_get]. fold (holds_obj (bt_get k m)). destruct (holds_obj (bt_get k m)); reflexivity.
  - destruct (bt_get k m) as [[| | | | |o]|]; cbn [is_obj sub_obj]; rewrite IH; reflexivity.
Qed.

Definition ins (m : list (text * json)) (kv : text * json) : list (text * json) :=
  sp (split_dot (fst kv)) (snd kv) m.

Lemma to_emmyrc_json_fold_from : forall it m0,
  fold_left (fun acc kv => match acc with
                           | Val e => set_path (split_dot (fst kv)) (snd kv) e
                           | Nothing => Nothing
                           | Panic => Panic
                           end) it (Val (JObj m0)) = Val (JObj (fold_left ins it m0)).
Proof.
  induction it as [|kv it IH]; intros m0; cbn [fold_left]; [reflexivity|].
  rewrite set_path_sp. apply IH.
Qed.

Lemma to_emmyrc_json_fold : forall it, to_emmyrc_json it = Val (JObj (fold_left ins it [])).
Proof. intros it. unfold to_emmyrc_json. apply to_emmyrc_json_fold_from. Qed.

Lemma to_emmyrc_json_total : forall it, exists m, to_emmyrc_json it = Val (JObj m).
Proof. intros it. eexists. apply to_emmyrc_json_fold. Qed.

Lemma load_fold_total : forall cs a, exists j, fold_left load_step cs (Val a) = Val j.
Proof.
  induction cs as [|c cs IH]; intros a; cbn [fold_left].
  - eexists. reflexivity.
  - unfold load_step at 2. rewrite to_emmyrc_json_fold. apply IH.
Qed.

Lemma load_configs_raw_total : forall files partials, exists j, load_configs_raw files partials = Val j.
Proof.
  intros files partials. unfold load_configs_raw.
  destruct (config_jsons files partials) as [|c cs] eqn:E.
  - eexists. reflexivity.
  - apply load_fold_total.
Qed.

Lemma load_configs_total : forall (C : Type) (decode : json -> option C) (dflt : C) files partials,
  exists c, load_configs decode dflt files partials = Val c.
Proof.
  intros C decode dflt files partials. unfold load_configs.
  destruct (load_configs_raw_total files partials) as [j Hj]. rewrite Hj.
  destruct (decode j); eexists; reflexivity.
Qed.

Lemma starts_with_dot_slash : forall path,
  starts_with [DOT; SLASH] path = true -> exists rest, drop_bytes path 2 = Some rest.
Proof.
  intros [|c1 [|c2 r]]; cbn [starts_with]; intros H; try discriminate.
  - rewrite Bool.andb_false_r in H. discriminate.
  - apply andb_prop in H. destruct H as [H1 H2]. apply andb_prop in H2. destruct H2 as [H2 _].
    apply N.eqb_eq in H1. apply N.eqb_eq in H2. subst c1 c2. exists r. destruct r; reflexivity.
Qed.

Lemma pre_process_path_total : forall E ws path, exists p, pre_process_path E ws path = Val p.
Proof.
  intros E ws path. unfold pre_process_path.
  set (p := replace_placeholders E ws (remove_dollar (replace_env_var E path None)) None).
  destruct (text_eqb p [TILDE] || starts_with [TILDE; SLASH] p || starts_with [TILDE; BSLASH] p).
  - destruct (p_home E); [destruct (drop_bytes p 2)|]; eexists; reflexivity.
  - destruct (starts_with [DOT; SLASH] p) eqn:Hd.
    + destruct (starts_with_dot_slash p Hd) as [rest Hr]. rewrite Hr. eexists. reflexivity.
    + destruct (is_absolute p); eexists; reflexivity.
Qed.

Lemma map_res_total : forall A B (f : A -> res B), (forall x, exists y, f x = Val y) ->
  forall l, exists ys, map_res f l = Val ys.
Proof.
  intros A B f Hf. induction l as [|x l IH]; cbn [map_res].
  - eexists. reflexivity.
  - destruct (Hf x) as [y Hy]. rewrite Hy. destruct IH as [ys Hys]. rewrite Hys. eexists. reflexivity.
Qed.

Lemma process_and_dedup_string_total : forall E ws l, exists r, process_and_dedup_string E ws l = Val r.
Proof.
  intros E ws l. unfold process_and_dedup_string.
  destruct (map_res_total _ _ (pre_process_path E ws) (pre_process_path_total E ws) l) as [ys H]. rewrite H.
  eexists. reflexivity.
Qed.

Lemma pre_process_item_total : forall E ws it, exists r, pre_process_item E ws it = Val r.
Proof.
  intros E ws [p|p d g]; cbn [pre_process_item].
  - destruct (pre_process_path_total E ws p) as [p' H]. rewrite H. eexists. reflexivity.
  - destruct (pre_process_path_total E ws p) as [p' H]. rewrite H.
    destruct (map_res_total _ _ (pre_process_path E p') (pre_process_path_total E p') d) as [d' H']. rewrite H'.
    eexists. reflexivity.
Qed.

Lemma process_and_dedup_items_total : forall E ws l, exists r, process_and_dedup_items E ws l = Val r.
Proof.
  intros E ws l. unfold process_and_dedup_items.
  destruct (map_res_total _ _ (pre_process_item E ws) (pre_process_item_total E ws) l) as [ys H]. rewrite H.
  eexists. reflexivity.
Qed.

Lemma pre_process_emmyrc_total : forall E ws c, exists c', pre_process_emmyrc E ws c = Val c'.
Proof.
  intros E ws c. unfold pre_process_emmyrc.
  destruct (process_and_dedup_string_total E ws (workspace_roots c)) as [r Hr]. rewrite Hr.
  destruct (process_and_dedup_items_total E ws (library c)) as [l Hl]. rewrite Hl.
  destruct (process_and_dedup_items_total E ws (packages c)) as [p Hp]. rewrite Hp.
  destruct (process_and_dedup_string_total E ws (ignore_dir c)) as [i Hi]. rewrite Hi.
  destruct (process_and_dedup_string_total E ws (resource_paths c)) as [s Hs]. rewrite Hs.
  eexists. reflexivity.
Qed.

Lemma load_total : forall (C : Type) (decode : json -> option C) (dflt : C)
    (files : list file) (partials : list cfg_json) (E : penv) (ws : text) (pc : paths_cfg),
  (exists j, load_configs_raw files partials = Val j) /\
  (exists c, load_configs decode dflt files partials = Val c) /\
  (exists pc', pre_process_emmyrc E ws pc = Val pc').
Proof.
  intros. split; [apply load_configs_raw_total|]. split; [apply load_configs_total|apply pre_process_emmyrc_total].
Qed.

Lemma config_jsons_skip : forall pre f post partials, bad f ->
  config_jsons (pre ++ f :: post) partials = config_jsons (pre ++ post) partials.
Proof.
  intros pre f post partials Hb. unfold config_jsons. rewrite !flat_map_app. cbn [flat_map].
  destruct Hb as [-> | ->]; reflexivity.
Qed.

Lemma bad_file_skipped : forall (C : Type) (decode : json -> option C) (dflt : C) pre f post partials, bad f ->
  load_configs_raw (pre ++ f :: post) partials = load_configs_raw (pre ++ post) partials /\
  load_configs decode dflt (pre ++ f :: post) partials = load_configs decode dflt (pre ++ post) partials.
Proof.
  intros C decode dflt pre f post partials Hb.
  assert (H : load_configs_raw (pre ++ f :: post) partials = load_configs_raw (pre ++ post) partials).
  { unfold load_configs_raw. rewrite (config_jsons_skip pre f post partials Hb). reflexivity. }
  split; [exact H|]. unfold load_configs. rewrite H. reflexivity.
Qed.

Lemma all_bad_jsons : forall files, Forall bad files -> config_jsons files [] = [].
Proof.
  intros files H. unfold config_jsons. rewrite app_nil_r.
  induction H as [|f l Hf Hl IH]; [reflexivity|]. cbn [flat_map]. rewrite IH.
  destruct Hf as [-> | ->]; reflexivity.
Qed.

Lemma all_bad_default : forall (C : Type) (decode : json -> option C) (dflt : C) files, Forall bad files ->
  load_configs_raw files [] = Val (JObj []) /\
  load_configs decode dflt files [] = Val (match decode (JObj []) with Some c => c | None => dflt end).
Proof.
  intros C decode dflt files H.
  assert (Hr : load_configs_raw files [] = Val (JObj [])).
  { unfold load_configs_raw. rewrite (all_bad_jsons files H). reflexivity. }
  split; [exact Hr|]. unfold load_configs. rewrite Hr. destruct (decode (JObj [])); reflexivity.
Qed.

Lemma decode_error_default : forall (C : Type) (decode : json -> option C) (dflt : C) files partials j,
  load_configs_raw files partials = Val j -> decode j = None ->
  load_configs decode dflt files partials = Val dflt.
Proof. intros C decode dflt files partials j H1 H2. unfold load_configs. rewrite H1, H2. reflexivity. Qed.

Definition ex_env : penv :=
  {| p_env := fun _ => None; p_home := Some [47;104]; p_luarocks := []; p_word := fun c => (97 <=? c) && (c <=? 122) |}.

(** the two inputs on which the loader panicked before its repair in /repo: a key that is a value and a
    prefix (both iteration orders), and the paths "~" and "~é" *)
Lemma load_total_example :
  let v := JObj [([97], JNum 1); ([97;46;98], JNum 2)] in
  load_configs_raw [Parsed v (parse v)] [] = Val (JObj [([97], JObj [([98], JNum 2)])]) /\
  load_configs_raw [Parsed v (rev (parse v))] [] = Val (JObj [([97], JObj [([98], JNum 2)])]) /\
  pre_process_path ex_env [47;119] [126] = Val [47;104] /\
  pre_process_path ex_env [47;119] [126;233] = Val [47;119;47;126;233] /\
  pre_process_path ex_env [47;119] [126;47;120] = Val [47;104;47;120] /\
  pre_process_path ex_env [47;119] [46;47;120] = Val [47;119;47;120].
Proof. vm_compute. repeat split. Qed.

Lemma bad_file_example :
  let v := JObj [([97], JNum 1)] in
  load_configs_raw [Unreadable; Parsed v (parse v); Invalid] [] = Val v /\
  load_configs_raw [Unreadable; Invalid] [] = Val (JObj []).
Proof. vm_compute. split; reflexivity. Qed.
