(** C31/Props.v — loading any configuration never crashes. *)
From EV Require Import C31.Model C31.Proofs.
Local Open Scope N_scope.

(** No input reaches a panic: any list of files (unreadable, invalid, or parsed to ANY JSON value, with ANY
    iteration order of the flattened hash map — not even required to be a permutation of the map), any
    client partial configurations, any deserialiser, any environment, workspace and path strings.
    [load_configs_raw], [load_configs] and [Emmyrc::pre_process_emmyrc] all return a value. *)
Theorem load_total : forall (C : Type) (decode : json -> option C) (dflt : C)
    (files : list file) (partials : list cfg_json) (E : penv) (ws : text) (pc : paths_cfg),
  (exists j, load_configs_raw files partials = Val j) /\
  (exists c, load_configs decode dflt files partials = Val c) /\
  (exists pc', pre_process_emmyrc E ws pc = Val pc').
Proof. exact Proofs.load_total. Qed.

(** one path string, any text (["~"], ["~é"], non-ASCII, placeholders, env vars): never a panic *)
Theorem path_total : forall (E : penv) (ws path : text), exists p, pre_process_path E ws path = Val p.
Proof. exact Proofs.pre_process_path_total. Qed.

(** the nested form of one file is always an object, whatever is iterated *)
Theorem nested_form_total : forall (it : hmap), exists m, to_emmyrc_json it = Val (JObj m).
Proof. exact Proofs.to_emmyrc_json_total. Qed.

(** an unreadable or invalid file is skipped: it changes neither the raw nor the typed configuration *)
Theorem bad_file_skipped : forall (C : Type) (decode : json -> option C) (dflt : C)
    (pre : list file) (f : file) (post : list file) (partials : list cfg_json),
  bad f ->
  load_configs_raw (pre ++ f :: post) partials = load_configs_raw (pre ++ post) partials /\
  load_configs decode dflt (pre ++ f :: post) partials = load_configs decode dflt (pre ++ post) partials.
Proof. exact Proofs.bad_file_skipped. Qed.

(** only bad files and no client configuration: the empty object, i.e. every default *)
Theorem all_bad_default : forall (C : Type) (decode : json -> option C) (dflt : C) (files : list file),
  Forall bad files ->
  load_configs_raw files [] = Val (JObj []) /\
  load_configs decode dflt files [] = Val (match decode (JObj []) with Some c => c | None => dflt end).
Proof. exact Proofs.all_bad_default. Qed.

(** a merged configuration that does not deserialise falls back to the default configuration *)
Theorem decode_error_default : forall (C : Type) (decode : json -> option C) (dflt : C)
    (files : list file) (partials : list cfg_json) (j : json),
  load_configs_raw files partials = Val j -> decode j = None ->
  load_configs decode dflt files partials = Val dflt.
Proof. exact Proofs.decode_error_default. Qed.

(** non-vacuity: the two inputs on which the loader panicked before its repair in /repo ([{"a":1,"a.b":2}]
    in both iteration orders, the paths ["~"] and ["~é"]), a home expansion and a [./] expansion *)
Example load_total_example :
  let v := JObj [([97], JNum 1); ([97;46;98], JNum 2)] in
  load_configs_raw [Parsed v (parse v)] [] = Val (JObj [([97], JObj [([98], JNum 2)])]) /\
  load_configs_raw [Parsed v (rev (parse v))] [] = Val (JObj [([97], JObj [([98], JNum 2)])]) /\
  pre_process_path ex_env [47;119] [126] = Val [47;104] /\
  pre_process_path ex_env [47;119] [126;233] = Val [47;119;47;126;233] /\
  pre_process_path ex_env [47;119] [126;47;120] = Val [47;104;47;120] /\
  pre_process_path ex_env [47;119] [46;47;120] = Val [47;119;47;120].
Proof. exact Proofs.load_total_example. Qed.

Example bad_file_example :
  let v := JObj [([97], JNum 1)] in
  load_configs_raw [Unreadable; Parsed v (parse v); Invalid] [] = Val v /\
  load_configs_raw [Unreadable; Invalid] [] = Val (JObj []).
Proof. exact Proofs.bad_file_example. Qed.
