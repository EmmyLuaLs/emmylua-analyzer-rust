(** C19/Proofs.v — the state the analyzer builds is a function of the tag list ([analyze_spec]); the scopes of
    the line-scoped tags are unions of whole lines ([line_scope_spec], [next_line_scope_spec]); the property
    theorems combine the two through [in_scope_iff]. *)
From EV Require Import Base.TextFacts C19.Model C23.Proofs.
Local Open Scope N_scope.

(** positions occupied by an (already anchored) range *)
Definition occ (r : N * N) (x : N) : Prop :=
  (fst r = snd r /\ x = fst r) \/ (fst r <= x /\ x < snd r).

Lemma occupies_occ : forall len range x, occupies len range x <-> occ (anchor_range len range) x.
Proof. intros. unfold occupies, occ. tauto. Qed.

Lemma in_scope_iff : forall scope r,
  is_in_scope scope r = true <-> exists x, occ r x /\ fst scope <= x /\ x < snd scope.
Proof.
  intros [lo hi] [a b]. unfold is_in_scope, is_empty, contains, intersect, occ. cbn [fst snd].
  destruct (N.eqb_spec a b) as [E|E].
  - rewrite andb_true_iff, N.leb_le, N.ltb_lt. split.
    + intros H. exists a. lia.
    + intros [x H]. lia.
  - destruct (N.ltb_spec (N.min hi b) (N.max lo a)) as [L|L].
    + split; [discriminate|]. intros [x H]. lia.
    + cbn [fst snd]. rewrite negb_true_iff, N.eqb_neq. split.
      * intros H. exists (N.max lo a). lia.
      * intros [x H]. lia.
Qed.

Lemma occupied_in_scope : forall len range scope x,
  occupies len range x -> fst scope <= x /\ x < snd scope -> is_in_scope scope (anchor_range len range) = true.
Proof. intros len range scope x Hx H. apply in_scope_iff. exists x. rewrite <- occupies_occ. auto. Qed.

Lemma touching_not_in_scope : forall lo hi a b,
  (a < b /\ b <= lo) \/ (a = b /\ a < lo) \/ hi <= a -> is_in_scope (lo, hi) (a, b) = false.
Proof.
  intros lo hi a b H. apply not_true_is_false. rewrite in_scope_iff. unfold occ. cbn [fst snd].
  intros [x Hx]. lia.
Qed.

(** what one tag contributes to the state: actions over its scope, codes for the two file-level sets *)
Definition disable_action (r : N * N) (c : N) : action := {| a_range := r; a_kind := KDisable c |}.

Definition disable_actions (r : N * N) (codes : option (list N)) : list action :=
  match codes with
  | Some cs => map (disable_action r) cs
  | None => [{| a_range := r; a_kind := KDisableAll |}]
  end.

Definition tag_actions (li : line_index) (t : text) (tg : tag) : list action :=
  match tag_scope li t tg with
  | Some r => disable_actions r (t_codes tg)
  | None => []
  end.

Definition tag_disables (tg : tag) : list N :=
  match t_kind tg, t_block tg, t_top tg, t_codes tg with
  | TDisable, Some _, true, Some cs => cs
  | _, _, _, _ => []
  end.

Definition tag_enables (tg : tag) : list N :=
  match t_kind tg, t_codes tg with
  | TEnable, Some cs => cs
  | _, _ => []
  end.

(** the codes are pushed one after the other on the file-level sets, hence [rev] *)
Definition extends (st st' : dstate) (acts : list action) (ds es : list N) : Prop :=
  actions st' = actions st ++ acts /\
  file_disabled st' = rev ds ++ file_disabled st /\ file_enabled st' = rev es ++ file_enabled st.

Lemma extends_refl : forall st, extends st st [] [] [].
Proof. intros st. unfold extends. rewrite app_nil_r. auto. Qed.

Lemma extends_trans : forall st1 st2 st3 a d e a' d' e',
  extends st1 st2 a d e -> extends st2 st3 a' d' e' -> extends st1 st3 (a ++ a') (d ++ d') (e ++ e').
Proof.
  unfold extends. intros st1 st2 st3 a d e a' d' e' (A & D & E) (-> & -> & ->).
  rewrite A, D, E, !rev_app_distr, <- !app_assoc. auto.
Qed.

Lemma fold_extends : forall (A : Type) (step : dstate -> A -> dstate) fa fd fe,
  (forall st x, extends st (step st x) (fa x) (fd x) (fe x)) ->
  forall l st, extends st (fold_left step l st) (flat_map fa l) (flat_map fd l) (flat_map fe l).
Proof.
  intros A step fa fd fe H. induction l as [|x l IH]; intros st; cbn [fold_left flat_map].
  - apply extends_refl.
  - eapply extends_trans; [apply H|apply IH].
Qed.

Lemma fold_add_action : forall r cs st,
  extends st (fold_left (fun s c => add_diagnostic_action s (disable_action r c)) cs st)
    (map (disable_action r) cs) [] [].
Proof.
  intros r. induction cs as [|c cs IH]; intros st; cbn [fold_left map]; [apply extends_refl|].
  eapply (extends_trans _ _ _ [_] [] []); [|apply IH]. repeat split.
Qed.

Lemma fold_file_disabled : forall cs st, extends st (fold_left add_file_diagnostic_disabled cs st) [] cs [].
Proof.
  induction cs as [|c cs IH]; intros st; cbn [fold_left]; [apply extends_refl|].
  eapply (extends_trans _ _ _ [] [_] []); [|apply IH]. unfold extends. rewrite app_nil_r. auto.
Qed.

Lemma fold_file_enabled : forall cs st, extends st (fold_left add_file_diagnostic_enabled cs st) [] [] cs.
Proof.
  induction cs as [|c cs IH]; intros st; cbn [fold_left]; [apply extends_refl|].
  eapply (extends_trans _ _ _ [] [] [_]); [|apply IH]. unfold extends. rewrite app_nil_r. auto.
Qed.

Lemma add_disable_actions_spec : forall st r codes,
  extends st (add_disable_actions st r codes) (disable_actions r codes) [] [].
Proof. intros st r [cs|]; [apply fold_add_action|repeat split]. Qed.

Lemma analyze_tag_spec : forall li t st tg,
  extends st (analyze_tag li t st tg) (tag_actions li t tg) (tag_disables tg) (tag_enables tg).
Proof.
  intros li t st tg. unfold analyze_tag, tag_actions, tag_scope, tag_disables, tag_enables.
  destruct (t_kind tg);
    [destruct (t_block tg), (t_codes tg), (t_top tg)
    |destruct (next_line_range li t (t_comment tg))
    |destruct (line_range li t (t_comment tg))
    |destruct (t_codes tg)
    |];
    first [apply add_disable_actions_spec | apply fold_file_disabled | apply fold_file_enabled | apply extends_refl].
Qed.

Lemma analyze_spec : forall t tags,
  actions (analyze t tags) = flat_map (tag_actions (parse t) t) tags /\
  file_disabled (analyze t tags) = rev (flat_map tag_disables tags) /\
  file_enabled (analyze t tags) = rev (flat_map tag_enables tags).
Proof.
  intros t tags. unfold analyze.
  destruct (fold_extends _ _ _ _ _ (analyze_tag_spec (parse t) t) tags empty_state) as (-> & -> & ->).
  cbn [empty_state actions file_disabled file_enabled app]. rewrite !app_nil_r. auto.
Qed.

Lemma memN_In : forall c l, memN c l = true <-> In c l.
Proof.
  intros c l. unfold memN. rewrite existsb_exists. split.
  - intros [x [H1 H2]]. apply N.eqb_eq in H2. subst. exact H1.
  - intros H. exists c. split; [exact H|apply N.eqb_refl].
Qed.

Lemma disable_actions_match : forall r codes range code,
  existsb (fun act => is_match act true range code) (disable_actions r codes) = true <->
  is_in_scope r range = true /\ match codes with Some cs => In code cs | None => True end.
Proof.
  intros r codes range code.
  assert (M : forall c, is_match (disable_action r c) true range code = is_in_scope r range && (c =? code)).
  { intros c. unfold is_match. cbn. destruct (is_in_scope r range); reflexivity. }
  destruct codes as [cs|]; cbn [disable_actions].
  - rewrite existsb_exists. split.
    + intros (act & (c & <- & Hc)%in_map_iff & Hm). rewrite M in Hm.
      apply andb_true_iff in Hm as [Hs ->%N.eqb_eq]. auto.
    + intros [Hs Hc]. exists (disable_action r code). split; [apply in_map; exact Hc|].
      rewrite M, Hs. apply N.eqb_refl.
  - unfold is_match. cbn. destruct (is_in_scope r range); cbn; tauto.
Qed.

Lemma code_disabled_iff : forall t tags range code,
  code_disabled (analyze t tags) range code = true <->
  exists tg r, In tg tags /\ tag_scope (parse t) t tg = Some r /\ tag_lists tg code /\ is_in_scope r range = true.
Proof.
  intros t tags range code. unfold code_disabled. destruct (analyze_spec t tags) as (-> & _).
  rewrite existsb_exists. setoid_rewrite in_flat_map. split.
  - intros (act & (tg & Htg & Hact) & Hm). unfold tag_actions in Hact.
    destruct (tag_scope (parse t) t tg) as [r|] eqn:S; [|destruct Hact].
    destruct (proj1 (disable_actions_match r (t_codes tg) range code)) as [Hs Hc].
    { apply existsb_exists. exists act. auto. }
    exists tg, r. auto.
  - intros (tg & r & Htg & S & Hc & Hs).
    pose proof (proj2 (disable_actions_match r (t_codes tg) range code) (conj Hs Hc)) as H.
    apply existsb_exists in H as (act & Hact & Hm).
    exists act. split; [|exact Hm]. exists tg. unfold tag_actions. rewrite S. auto.
Qed.

Lemma file_disabled_iff : forall t tags c,
  is_file_disabled (analyze t tags) c = true <-> exists tg, In tg tags /\ In c (tag_disables tg).
Proof.
  intros t tags c. unfold is_file_disabled. destruct (analyze_spec t tags) as (_ & -> & _).
  rewrite memN_In, <- in_rev. apply in_flat_map.
Qed.

Lemma file_enabled_iff : forall t tags c,
  is_file_enabled (analyze t tags) c = true <-> exists tg, In tg tags /\ In c (tag_enables tg).
Proof.
  intros t tags c. unfold is_file_enabled. destruct (analyze_spec t tags) as (_ & _ & ->).
  rewrite memN_In, <- in_rev. apply in_flat_map.
Qed.

Lemma tag_disables_inv : forall tg c, In c (tag_disables tg) ->
  t_kind tg = TDisable /\ t_block tg <> None /\ t_top tg = true /\ t_codes tg = Some (tag_disables tg).
Proof.
  intros tg c. unfold tag_disables.
  destruct (t_kind tg); try contradiction. destruct (t_block tg); [|contradiction].
  destruct (t_top tg); [|contradiction]. destruct (t_codes tg); [|contradiction]. easy.
Qed.

Lemma tag_enables_inv : forall tg c, In c (tag_enables tg) ->
  t_kind tg = TEnable /\ t_codes tg = Some (tag_enables tg).
Proof.
  intros tg c. unfold tag_enables. destruct (t_kind tg); try contradiction. destruct (t_codes tg); [|contradiction]. easy.
Qed.

Lemma line_of_total : forall t o, exists k, line_of t o = Some k.
Proof. intros t o. apply get_line_parse. Qed.

Lemma comment_line_start : forall t c l,
  comment_ok t c -> line_of t (snd c) = Some l ->
  exists s, get_line_offset (parse t) l = Some s /\ s < bytes t.
Proof.
  intros t c l [H1 [H2 H3]] Hl. rewrite Hl in H3.
  destruct (get_line_start _ _ _ H3) as [s Hs]. exists s. split; [exact Hs|].
  apply (get_line_iff _ (parse_sorted t) _ _ _ Hs) in H3. lia.
Qed.

Lemma line_scope_spec : forall t c l,
  comment_ok t c -> line_of t (snd c) = Some l ->
  exists s e, line_range (parse t) t c = Some (s, e) /\
    forall x, x < bytes t -> ((s <= x /\ x < e) <-> line_of t x = Some l).
Proof.
  intros t c l Hok Hl. destruct (comment_line_start t c l Hok Hl) as [s [Hs Hlt]].
  unfold line_range. unfold line_of in *. rewrite Hl. unfold get_line_range. rewrite Hs.
  pose proof (fun x => get_line_iff _ (parse_sorted t) x l s Hs) as Q.
  destruct (get_line_offset (parse t) (l + 1)) as [e|].
  - exists s, e. split; [reflexivity|]. intros x Hx. rewrite Q. reflexivity.
  - apply N.ltb_lt in Hlt. rewrite Hlt.
    exists s, (bytes t). split; [reflexivity|]. intros x Hx. rewrite Q. tauto.
Qed.

Lemma before_line_end : forall t k x, x < bytes t ->
  (x < match get_line_offset (parse t) (k + 1) with Some e => e | None => bytes t end <->
   exists lx, line_of t x = Some lx /\ lx <= k).
Proof.
  intros t k x Hx. destruct (line_of_total t x) as [lx Hlx]. transitivity (lx <= k).
  - rewrite (line_le_iff _ (parse_sorted t) x lx k Hlx). destruct (get_line_offset (parse t) (k + 1)); tauto.
  - split; [eauto|]. intros (lx' & E & L). congruence.
Qed.

Lemma next_line_scope_spec : forall t c l,
  comment_ok t c -> line_of t (snd c) = Some l ->
  exists e, next_line_range (parse t) t c = Some (fst c, e) /\
    forall x, x < bytes t -> (x < e <-> exists lx, line_of t x = Some lx /\ lx <= l + 1).
Proof.
  intros t c l Hok Hl. destruct (comment_line_start t c l Hok Hl) as [s [Hs Hlt]].
  unfold next_line_range. unfold line_of in Hl. rewrite Hl. unfold get_line_range at 1.
  pose proof (before_line_end t (l + 1)) as End.
  destruct (get_line_offset (parse t) (l + 1)) as [s1|] eqn:H1.
  - destruct (get_line_offset (parse t) (l + 1 + 1)) as [s2|].
    + exists s2. split; [reflexivity|exact End].
    + destruct (N.ltb_spec s1 (bytes t)) as [L|L].
      * exists (bytes t). split; [reflexivity|exact End].
      * (* the line after the comment's is empty and ends the text *)
        unfold get_line_range. rewrite Hs, H1. pose proof (parse_bounded t _ _ H1).
        exists s1. split; [reflexivity|]. intros x Hx. rewrite <- (End x Hx). cbn [snd]. lia.
  - unfold get_line_range. rewrite Hs, H1, (proj2 (N.ltb_lt _ _) Hlt).
    exists (bytes t). split; [reflexivity|]. intros x Hx. cbn [snd].
    pose proof (before_line_end t l x Hx) as E. rewrite H1 in E. split; [|intros _; exact Hx].
    intros H. destruct (proj1 E H) as (lx & A & B). exists lx. split; [exact A|lia].
Qed.

(** [TextRange::new(comment.start, line_range.end)] does not panic for a well-formed comment *)
Lemma next_line_range_ordered : forall t c r,
  comment_ok t c -> next_line_range (parse t) t c = Some r -> fst r < snd r.
Proof.
  intros t c r Hok H. destruct (line_of_total t (snd c)) as [l Hl].
  destruct (next_line_scope_spec t c l Hok Hl) as [e [E Q]]. rewrite E in H. inversion H; subst. cbn [fst snd].
  destruct Hok as [H1 [H2 H3]].
  assert (snd c - 1 < e) as G.
  { apply Q; [lia|]. exists l. split; [rewrite H3; exact Hl|lia]. }
  lia.
Qed.

Lemma occupies_cases : forall len a b x, occupies len (a, b) x ->
  (a < b /\ a <= x /\ x < b) \/ (a = b /\ (a = len -> len = 0) /\ x = a) \/
  (a = b /\ a = len /\ 0 < len /\ x = len - 1).
Proof.
  intros len a b x. unfold occupies, anchor_range, is_empty. cbn [fst snd].
  destruct (N.eqb_spec a b) as [<-|]; [destruct (N.eqb_spec a len) as [->|]; [destruct (N.ltb_spec 0 len)|]|];
    cbn [andb fst snd]; intros Hx; [right; right|right; left|right; left|left]; lia.
Qed.

(** the comment [c] serves only to make the text non-empty: an empty range at the end of an empty text
    occupies position [0 = bytes t] *)
Lemma occupies_in_text : forall t c range x,
  comment_ok t c -> snd range <= bytes t -> occupies (bytes t) range x -> x < bytes t.
Proof. intros t c [a b] x [A [B _]] H2 H%occupies_cases. cbn [fst snd] in *. lia. Qed.

Lemma occupies_inhabited : forall len range, fst range <= snd range ->
  occupies len range (fst (anchor_range len range)).
Proof.
  intros len [a b]. unfold occupies, anchor_range, is_empty. cbn [fst snd].
  destruct (N.eqb_spec a b) as [<-|]; [destruct (N.eqb_spec a len) as [->|]; [destruct (N.ltb_spec 0 len)|]|];
    cbn [andb fst snd]; lia.
Qed.

Lemma reports_false_of_disabled : forall st cfg len range code,
  code_disabled st (anchor_range len range) code = true -> reports st cfg len range code = false.
Proof.
  intros. unfold reports, should_report. rewrite H. cbn [negb]. apply andb_false_r.
Qed.

Lemma tag_scope_inside : forall t tg range,
  tag_ok t tg -> fst range <= snd range -> snd range <= bytes t -> inside t tg range ->
  exists r, tag_scope (parse t) t tg = Some r /\ is_in_scope r (anchor_range (bytes t) range) = true.
Proof.
  intros t tg range Hok H1 H2 Hin. unfold inside, tag_ok, tag_scope in *.
  pose proof (occupies_inhabited (bytes t) range H1) as Hx0. set (x0 := fst (anchor_range (bytes t) range)) in *.
  pose proof (fun scope => occupied_in_scope _ _ scope _ Hx0) as G.
  destruct (t_kind tg).
  - (* TDisable *)
    destruct (t_block tg) as [b|]; [|contradiction].
    destruct (t_codes tg) as [cs|]; [destruct (t_top tg); [contradiction|]|];
      (exists b; split; [reflexivity|apply G, Hin, Hx0]).
  - (* TDisableNextLine *)
    destruct Hin as [l [Hl Hall]].
    destruct (next_line_scope_spec t _ l Hok Hl) as [e [E Q]]. rewrite E. eexists. split; [reflexivity|].
    destruct (Hall x0 Hx0) as [A B]. apply G. split; [exact A|].
    apply Q; [|exact B]. exact (occupies_in_text _ _ _ _ Hok H2 Hx0).
  - (* TDisableLine *)
    destruct Hin as [l [Hl Hall]].
    destruct (line_scope_spec t _ l Hok Hl) as [s [e [E Q]]]. rewrite E. eexists. split; [reflexivity|].
    apply G, Q; [|exact (Hall x0 Hx0)]. exact (occupies_in_text _ _ _ _ Hok H2 Hx0).
  - (* TEnable *) contradiction.
  - (* TOther *) contradiction.
Qed.

Lemma inside_suppressed : forall (t : text) (tags : list tag) (tg : tag) (range : N * N) (code : N) (cfg : config),
  In tg tags -> tag_ok t tg -> tag_lists tg code ->
  fst range <= snd range -> snd range <= bytes t ->
  inside t tg range ->
  reports (analyze t tags) cfg (bytes t) range code = false.
Proof.
  intros t tags tg range code cfg HIn Hok Hl H1 H2 Hin.
  apply reports_false_of_disabled. apply code_disabled_iff.
  destruct (tag_scope_inside t tg range Hok H1 H2 Hin) as [r [A B]].
  exists tg, r. repeat split; assumption.
Qed.

Lemma tag_scope_outside : forall t tg range r,
  tag_ok t tg -> snd range <= bytes t -> outside t tg range ->
  tag_scope (parse t) t tg = Some r -> is_in_scope r (anchor_range (bytes t) range) = false.
Proof.
  intros t tg range r Hok H2 Hout Hs.
  destruct (is_in_scope r (anchor_range (bytes t) range)) eqn:E; [|reflexivity]. exfalso.
  apply in_scope_iff in E. destruct E as [x [Hx [A B]]]. apply occupies_occ in Hx.
  unfold outside, tag_ok, tag_scope in *.
  destruct (t_kind tg).
  - (* TDisable *)
    destruct (t_block tg) as [b|]; [|discriminate].
    destruct (t_codes tg) as [cs|]; [destruct (t_top tg); [contradiction|]|];
      (injection Hs as <-; specialize (Hout x Hx); lia).
  - (* TDisableNextLine *)
    destruct Hout as [l [Hl Hall]].
    destruct (next_line_scope_spec t _ l Hok Hl) as [e [E Q]]. rewrite E in Hs. inversion Hs; subst. cbn [fst snd] in *.
    pose proof (occupies_in_text _ _ _ _ Hok H2 Hx) as Hxl.
    destruct (Hall x Hx) as [C|[lx [C D]]]; [lia|].
    destruct (proj1 (Q x Hxl) B) as (lx' & C' & D'). assert (lx' = lx) by congruence. lia.
  - (* TDisableLine *)
    destruct Hout as [l [Hl Hall]].
    destruct (line_scope_spec t _ l Hok Hl) as [s [e [E Q]]]. rewrite E in Hs. inversion Hs; subst. cbn [fst snd] in *.
    pose proof (occupies_in_text _ _ _ _ Hok H2 Hx) as Hxl.
    destruct (Hall x Hx) as [lx [C D]].
    pose proof (proj1 (Q x Hxl) (conj A B)). congruence.
  - (* TEnable *) discriminate.
  - (* TOther *) discriminate.
Qed.

Lemma code_disabled_empty : forall range code, code_disabled empty_state range code = false.
Proof. reflexivity. Qed.

Lemma file_level_tag : forall t tg range c,
  In c (tag_disables tg) \/ In c (tag_enables tg) -> tag_lists tg c /\ ~ outside t tg range.
Proof.
  intros t tg range c. unfold tag_lists, outside. intros [H|H].
  - destruct (tag_disables_inv _ _ H) as (K & B & T & C). rewrite K, C, T.
    split; [exact H|]. destruct (t_block tg); [tauto|contradiction].
  - destruct (tag_enables_inv _ _ H) as (K & C). rewrite K, C. split; [exact H|discriminate].
Qed.

Lemma outside_untouched : forall (t : text) (tags : list tag) (range : N * N) (code : N) (cfg : config),
  fst range <= snd range -> snd range <= bytes t ->
  (forall tg, In tg tags -> tag_ok t tg) ->
  (forall tg, In tg tags -> ~ tag_lists tg code \/ outside t tg range) ->
  reports (analyze t tags) cfg (bytes t) range code = reports empty_state cfg (bytes t) range code.
Proof.
  intros t tags range code cfg _ H2 Hok Hall.
  assert (code_disabled (analyze t tags) (anchor_range (bytes t) range) code = false) as CD.
  { apply not_true_is_false. intros (tg & r & A & B & C & D)%code_disabled_iff.
    destruct (Hall tg A) as [N|O]; [contradiction|].
    rewrite (tag_scope_outside t tg range r (Hok tg A) H2 O B) in D. discriminate. }
  assert (is_file_enabled (analyze t tags) code = false) as FE.
  { apply not_true_is_false. intros (tg & A & E)%file_enabled_iff.
    destruct (file_level_tag t tg range code (or_intror E)). destruct (Hall tg A); contradiction. }
  assert (is_file_disabled (analyze t tags) code = false) as FD.
  { apply not_true_is_false. intros (tg & A & E)%file_disabled_iff.
    destruct (file_level_tag t tg range code (or_introl E)). destruct (Hall tg A); contradiction. }
  unfold reports, should_report, is_checker_enable_by_code. rewrite CD, FE, FD. reflexivity.
Qed.

Lemma file_level_suppressed : forall (t : text) (tags : list tag) (tg : tag) (cs : list N) (range : N * N) (code : N) (cfg : config),
  In tg tags -> t_kind tg = TDisable -> t_block tg <> None -> t_top tg = true ->
  t_codes tg = Some cs -> In code cs ->
  (forall tg', In tg' tags -> t_kind tg' = TEnable -> ~ tag_lists tg' code \/ t_codes tg' = None) ->
  reports (analyze t tags) cfg (bytes t) range code = false.
Proof.
  intros t tags tg cs range code cfg HIn K B T C I NoEn.
  assert (is_file_enabled (analyze t tags) code = false) as FE.
  { apply not_true_is_false. intros (tg' & A & E)%file_enabled_iff.
    destruct (tag_enables_inv _ _ E) as [K' C'].
    destruct (NoEn tg' A K') as [N|N]; [|congruence]. apply N. unfold tag_lists. rewrite C'. exact E. }
  assert (is_file_disabled (analyze t tags) code = true) as FD.
  { apply file_disabled_iff. exists tg. split; [exact HIn|]. unfold tag_disables. rewrite K, T, C.
    destruct (t_block tg); [exact I|contradiction]. }
  unfold reports, is_checker_enable_by_code. rewrite FE, FD.
  destruct (workspace_disabled cfg code); [reflexivity|]. destruct (is_meta_file cfg); reflexivity.
Qed.

Lemma flat_map_filter : forall (A B : Type) (f : A -> list B) (p : A -> bool) (l : list A),
  (forall x, p x = false -> f x = []) -> flat_map f (filter p l) = flat_map f l.
Proof.
  intros A B f p l H. induction l as [|x l IH]; cbn [filter flat_map]; [reflexivity|].
  destruct (p x) eqn:E; cbn [flat_map]; rewrite IH; [reflexivity|]. rewrite (H x E). reflexivity.
Qed.

Lemma enable_after_disable : forall (t : text) (tags : list tag) (tg : tag) (cs : list N) (range : N * N) (code : N) (cfg : config),
  In tg tags -> t_kind tg = TEnable -> t_codes tg = Some cs -> In code cs ->
  is_checker_enable_by_code (analyze t tags) cfg code = true /\
  reports (analyze t tags) cfg (bytes t) range code = should_report (analyze t tags) (bytes t) range code /\
  (forall range', code_disabled (analyze t tags) range' code =
                  code_disabled (analyze t (filter (fun g => match t_kind g with TEnable => false | _ => true end) tags)) range' code).
Proof.
  intros t tags tg cs range code cfg HIn K C I.
  assert (is_checker_enable_by_code (analyze t tags) cfg code = true) as EN.
  { unfold is_checker_enable_by_code.
    replace (is_file_enabled (analyze t tags) code) with true; [reflexivity|].
    symmetry. apply file_enabled_iff. exists tg. split; [exact HIn|].
    unfold tag_enables. rewrite K, C. exact I. }
  split; [exact EN|]. split; [unfold reports; rewrite EN; reflexivity|].
  (* an [enable] tag has no scope, hence no action *)
  intros range'. unfold code_disabled.
  pose proof (fun l => proj1 (analyze_spec t l)) as A. rewrite !A.
  rewrite flat_map_filter; [reflexivity|].
  intros g. unfold tag_actions, tag_scope. destruct (t_kind g); [discriminate..|reflexivity|discriminate].
Qed.

Lemma no_shared_line_outside : forall (t : text) (tg : tag) (range : N * N) (lc l : N),
  (t_kind tg = TDisableNextLine \/ t_kind tg = TDisableLine) ->
  line_of t (fst (t_comment tg)) = Some lc -> line_of t (snd (t_comment tg)) = Some l ->
  (forall x, occupies (bytes t) range x ->
     exists lx, line_of t x = Some lx /\ (lx < lc \/ (if match t_kind tg with TDisableLine => true | _ => false end then l else l + 1) < lx)) ->
  fst (t_comment tg) <= snd (t_comment tg) ->
  outside t tg range.
Proof.
  intros t tg range lc l K Hc Hl Hall Hord. unfold outside.
  pose proof (get_line_mono (parse t) _ _ _ _ Hord Hc Hl) as Hlcl.
  destruct K as [K|K]; rewrite K in *.
  - exists l. split; [exact Hl|]. intros x Hx. destruct (Hall x Hx) as [lx [A [B|B]]].
    + (* on a line before the comment's first line, hence at an offset before the comment *)
      left. destruct (N.lt_ge_cases x (fst (t_comment tg))) as [G|G]; [exact G|].
      pose proof (get_line_mono (parse t) _ _ _ _ G Hc A). lia.
    + right. exists lx. split; assumption.
  - exists l. split; [exact Hl|]. intros x Hx. destruct (Hall x Hx) as [lx [A [B|B]]]; exists lx; (split; [exact A|lia]).
Qed.

(** non-vacuity.  ["---@diagnostic disable-next-line: c3\r\nfoo1()\r\nfoo2()\r\n  foo3() ---@diagnostic disable-line\r\nfoo4()"],
    with only the characters that matter kept: the comment is bytes [0,8), lines start at 0, 10, 18, 26, 38 *)
Definition ex_text : text :=
  [45;45;45;64;100;45;110;108;13;10;   (* ---@d-nl CRLF            line 0: 0..10  *)
   102;111;111;49;40;41;13;10;          (* foo1() CRLF              line 1: 10..18 *)
   102;111;111;50;40;41;13;10;          (* foo2() CRLF              line 2: 18..26 *)
   32;32;102;51;40;41;32;45;45;45;13;10; (* "  f3() ---" CRLF       line 3: 26..38 *)
   102;111;111;52;40;41].               (* foo4()                   line 4: 38..44 *)

Definition ex_tag0 : tag :=
  {| t_kind := TDisableNextLine; t_comment := (0, 8); t_block := Some (0, 44); t_top := true; t_codes := Some [3; 5] |}.
Definition ex_tag1 : tag :=
  {| t_kind := TDisableLine; t_comment := (33, 36); t_block := Some (0, 44); t_top := true; t_codes := None |}.
Definition ex_tags : list tag := [ex_tag0; ex_tag1].

Lemma hypotheses_example :
  tag_ok ex_text ex_tag0 /\ tag_ok ex_text ex_tag1 /\
  tag_lists ex_tag0 3 /\ ~ tag_lists ex_tag0 7 /\ tag_lists ex_tag1 7 /\
  inside ex_text ex_tag0 (10, 14) /\ outside ex_text ex_tag0 (18, 22) /\
  inside ex_text ex_tag1 (28, 30) /\ outside ex_text ex_tag1 (38, 42) /\ outside ex_text ex_tag1 (44, 44).
Proof.
  assert (bytes ex_text = 44) as B by (vm_compute; reflexivity).
  assert (comment_ok ex_text (0, 8) /\ comment_ok ex_text (33, 36)) as [Ok0 Ok1].
  { unfold comment_ok. cbn [fst snd]. rewrite B. repeat split; try lia; vm_compute; reflexivity. }
  assert (line_of ex_text 8 = Some 0 /\ line_of ex_text 36 = Some 3) as [L0 L1] by (split; vm_compute; reflexivity).
  destruct (next_line_scope_spec ex_text (0, 8) 0 Ok0 L0) as [e [E Q0]].
  vm_compute in E. injection E as <-.
  destruct (line_scope_spec ex_text (33, 36) 3 Ok1 L1) as [s [e [E Q1]]].
  vm_compute in E. injection E as <- <-.
  rewrite B in Q0, Q1.
  assert (forall a b x, a < b -> occupies 44 (a, b) x -> a <= x /\ x < b) as Occ.
  { intros a b x Hab Hx%occupies_cases. lia. }
  assert (forall x, 38 <= x -> x < 44 -> exists lx, line_of ex_text x = Some lx /\ lx <> 3) as Out1.
  { intros x Hlo Hhi. destruct (line_of_total ex_text x) as [lx Hlx]. exists lx. split; [exact Hlx|].
    intros ->. apply Q1 in Hlx; lia. }
  split; [exact Ok0|]. split; [exact Ok1|]. split; [left; reflexivity|].
  split; [intros [H|[H|[]]]; discriminate|]. split; [exact I|].
  unfold inside, outside. cbn [t_kind ex_tag0 ex_tag1 t_comment fst snd]. rewrite B.
  split; [|split; [|split; [|split]]].
  - exists 0. split; [exact L0|]. intros x Hx%Occ; [|lia]. split; [lia|]. apply Q0; lia.
  - exists 0. split; [exact L0|]. intros x Hx%Occ; [|lia]. right.
    destruct (line_of_total ex_text x) as [lx Hlx]. exists lx. split; [exact Hlx|].
    destruct (N.lt_ge_cases (0 + 1) lx) as [G|G]; [exact G|].
    assert (x < 18) by (apply Q0; [lia|eauto]). lia.
  - exists 3. split; [exact L1|]. intros x Hx%Occ; [|lia]. apply Q1; lia.
  - exists 3. split; [exact L1|]. intros x Hx%Occ; [|lia]. apply Out1; lia.
  - exists 3. split; [exact L1|]. intros x Hx%occupies_cases. apply Out1; lia.
Qed.

Lemma scope_example :
  let st := analyze ex_text ex_tags in
  let cfg := {| workspace_disabled := fun _ => false; is_meta_file := false; workspace_enabled := fun _ => false; default_enable := fun _ => true |} in
  List.map a_range (actions st) = [(0, 18); (0, 18); (26, 38)] /\
  reports st cfg 44 (10, 14) 3 = false /\     (* foo1, listed code: suppressed *)
  reports st cfg 44 (10, 14) 5 = false /\
  reports st cfg 44 (10, 14) 7 = true /\      (* other code *)
  reports st cfg 44 (18, 22) 3 = true /\      (* foo2 at column 0 of the line after the scope *)
  reports st cfg 44 (28, 30) 7 = false /\     (* f3 on the disable-line line, any code *)
  reports st cfg 44 (38, 42) 7 = true /\      (* foo4 at column 0 of the next line *)
  reports st cfg 44 (44, 44) 7 = true.        (* empty range at end of file: last line, not in scope *)
Proof. vm_compute. repeat split; reflexivity. Qed.
