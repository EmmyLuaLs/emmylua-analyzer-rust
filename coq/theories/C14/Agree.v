(** C14/Agree.v — the ordinal presentation of the reference resolver (A) used by the alpha-renaming theorem is the
    positional resolver of C13 up to the numbering of the declarations:
      map snd (ref_resolve p) = map (dec (dpos_block p 0)) (ord_resolve p). *)
From EV Require Import C13.Model C14.Model.
From Coq Require Import Arith.
Local Open Scope N_scope.

Section Agree.
Variable DP : list N.

Definition dec (oi : option nat) : option N := match oi with Some i => Some (nth i DP 0) | None => None end.
Definition decenv (r : oenv) : env := map (fun b => (fst b, nth (snd b) DP 0)) r.

(** the declarations of a construct are the slice of [DP] that starts at ordinal [k] *)
Definition sub (k : nat) (l : list N) : Prop := forall j, (j < List.length l)%nat -> nth (k + j) DP 0 = nth j l 0.

Lemma sub_app : forall k a b, sub k (a ++ b) -> sub k a /\ sub (k + List.length a) b.
Proof.
  intros k a b H. split.
  - intros j Hj. rewrite H by (rewrite app_length; lia). apply app_nth1. exact Hj.
  - intros j Hj. replace (k + List.length a + j)%nat with (k + (List.length a + j))%nat by lia.
    rewrite H by (rewrite app_length; lia). rewrite app_nth2 by lia. f_equal. lia.
Qed.

Lemma sub_cons : forall k a l, sub k (a :: l) -> nth k DP 0 = a /\ sub (S k) l.
Proof.
  intros k a l H. split.
  - specialize (H 0%nat ltac:(cbn; lia)). rewrite Nat.add_0_r in H. exact H.
  - intros j Hj. replace (S k + j)%nat with (k + S j)%nat by lia. apply (H (S j)). cbn. lia.
Qed.

Lemma lookup_dec : forall x r, lookup x (decenv r) = dec (olookup x r).
Proof.
  intros x r. unfold lookup, olookup, decenv. induction r as [|b t IH]; [reflexivity|].
  cbn [map find fst]. unfold name in *. destruct (fst b =? x); [reflexivity|exact IH].
Qed.

Lemma names_pos_length : forall xs o, List.length (names_pos xs o) = List.length xs.
Proof. induction xs as [|x t IH]; intros o; [reflexivity|]. cbn [names_pos List.length]. rewrite IH. reflexivity. Qed.

Lemma bind_dec : forall xs o k r, sub k (names_pos xs o) -> bind_names xs o (decenv r) = decenv (obind xs k r).
Proof.
  induction xs as [|x t IH]; intros o k r H; [reflexivity|].
  cbn [bind_names obind names_pos] in *. apply sub_cons in H. destruct H as (H0 & Ht).
  rewrite <- (IH (o + nlen x + 2) (S k) ((x, k) :: r) Ht). cbn [decenv map fst snd]. rewrite H0. reflexivity.
Qed.

Lemma falses_length : forall xs, List.length (falses xs) = List.length xs.
Proof. intros. unfold falses. apply map_length. Qed.

Lemma dpos_length :
  (forall e o, List.length (dpos_expr e o) = cnt_expr e) /\
  (forall es o, List.length (dpos_exprs es o) = cnt_exprs es) /\
  (forall s o, List.length (dpos_stat s o) = cnt_stat s) /\
  (forall els o, List.length (dpos_elifs els o) = cnt_elifs els) /\
  (forall b o, List.length (dpos_block b o) = cnt_block b).
Proof.
  unfold cnt_expr, cnt_exprs, cnt_stat, cnt_elifs, cnt_block.
  apply syntax_mutind; intros;
    cbn [dpos_expr dpos_exprs dpos_stat dpos_elifs dpos_block dk_expr dk_exprs dk_stat dk_elifs dk_block];
    try (destruct meth);
    cbn [List.length app]; repeat rewrite ?app_length, ?falses_length, ?names_pos_length; cbn [List.length];
    repeat match goal with H : forall o, List.length _ = _ |- _ => rewrite H; clear H end;
    try reflexivity; try lia.
Qed.

Ltac split_sub :=
  repeat match goal with
         | H : sub _ (_ ++ _) |- _ => apply sub_app in H; destruct H
         | H : sub _ (_ :: _) |- _ => apply sub_cons in H; destruct H
         end.

Definition len_e := proj1 dpos_length.
Definition len_es := proj1 (proj2 dpos_length).
Definition len_s := proj1 (proj2 (proj2 dpos_length)).
Definition len_el := proj1 (proj2 (proj2 (proj2 dpos_length))).
Definition len_b := proj2 (proj2 (proj2 (proj2 dpos_length))).

Lemma env_after_dec : forall s r o k, sub k (dpos_stat s o) -> snd (ref_stat (decenv r) s o) = decenv (env_after r s k).
Proof.
  intros s r o k H. destruct s; cbn [ref_stat env_after snd dpos_stat] in *; try reflexivity.
  - split_sub. apply bind_dec. assumption.
  - split_sub. unfold decenv. cbn [map fst snd]. congruence.
  - destruct (ref_block (decenv r) b (o + 6 + 1)). reflexivity.
  - split_sub. apply bind_dec. assumption.
Qed.

Lemma decenv_cons : forall x k p r, nth k DP 0 = p -> (x, p) :: decenv r = decenv ((x, k) :: r).
Proof. intros x k p r <-. reflexivity. Qed.

Definition agree_block (b : block) : Prop :=
  (forall r o k, sub k (dpos_block b o) -> map snd (fst (ref_block (decenv r) b o)) = map dec (ord_block r b k)) /\
  (forall r o k, sub k (dpos_block b o) -> snd (ref_block (decenv r) b o) = decenv (benv_after r b k)).

Lemma agree_SFun : forall root fields meth ps b, agree_block b -> forall r o k,
  sub k (dpos_stat (SFun root fields meth ps b) o) ->
  map snd (fst (ref_stat (decenv r) (SFun root fields meth ps b) o)) = map dec (ord_stat r (SFun root fields meth ps b) k).
Proof.
  intros root fields meth ps b (IHb & _) r o k H. cbn [ref_stat ord_stat dpos_stat fst] in *.
  cbn [map snd]. rewrite lookup_dec. f_equal.
  destruct meth as [m|]; cbn [meth_cnt meth_env app] in *; split_sub; rewrite ?names_pos_length in *.
  - erewrite decenv_cons by eassumption. replace (k + 1)%nat with (S k) by lia.
    erewrite bind_dec by eassumption. apply IHb. assumption.
  - replace (k + 0)%nat with k by lia. erewrite bind_dec by eassumption. apply IHb. assumption.
Qed.

(** the until condition is resolved in the environment at the end of the body *)
Lemma agree_SRepeat : forall b, agree_block b -> forall c,
  (forall r o k, sub k (dpos_expr c o) -> map snd (ref_expr (decenv r) c o) = map dec (ord_expr r c k)) ->
  forall r o k, sub k (dpos_stat (SRepeat b c) o) ->
  map snd (fst (ref_stat (decenv r) (SRepeat b c) o)) = map dec (ord_stat r (SRepeat b c) k).
Proof.
  intros b (IHb & IHe) c IHc r o k H. cbn [ref_stat ord_stat dpos_stat] in *. split_sub. rewrite len_b in *.
  pose proof (IHb r (o + 6 + 1) k ltac:(assumption)) as Hl. pose proof (IHe r (o + 6 + 1) k ltac:(assumption)) as He.
  destruct (ref_block (decenv r) b (o + 6 + 1)) as (l, r1). cbn [fst snd] in *. subst r1.
  rewrite !map_app. f_equal; [exact Hl|]. apply IHc. assumption.
Qed.

Lemma agree_BCons : forall s,
  (forall r o k, sub k (dpos_stat s o) -> map snd (fst (ref_stat (decenv r) s o)) = map dec (ord_stat r s k)) ->
  forall b, agree_block b -> agree_block (BCons s b).
Proof.
  intros s IHs t (IHt & IHe).
  assert (H : forall r o k, sub k (dpos_block (BCons s t) o) ->
            map snd (fst (ref_block (decenv r) (BCons s t) o)) = map dec (ord_block r (BCons s t) k)
            /\ snd (ref_block (decenv r) (BCons s t) o) = decenv (benv_after r (BCons s t) k)).
  { intros r o k H. cbn [ref_block ord_block dpos_block benv_after] in *. split_sub. rewrite len_s in *.
    pose proof (IHs r o k ltac:(assumption)) as Hl1.
    pose proof (env_after_dec s r o k ltac:(assumption)) as He1.
    destruct (ref_stat (decenv r) s o) as (l1, r1). cbn [fst snd] in *. subst r1.
    pose proof (IHt (env_after r s k) (o + len_stat s + 1) (k + cnt_stat s)%nat ltac:(assumption)) as Hl2.
    pose proof (IHe (env_after r s k) (o + len_stat s + 1) (k + cnt_stat s)%nat ltac:(assumption)) as He2.
    destruct (ref_block (decenv (env_after r s k)) t (o + len_stat s + 1)) as (l2, r2). cbn [fst snd] in *.
    split; [rewrite !map_app; f_equal; assumption|exact He2]. }
  split; intros r o k Hs; apply (H r o k Hs).
Qed.

(** every other construct passes the environment on unchanged or extends it by the declarations whose positions
    the slice gives ([bind_dec], [decenv_cons]) *)
Lemma agree_all :
  (forall e r o k, sub k (dpos_expr e o) -> map snd (ref_expr (decenv r) e o) = map dec (ord_expr r e k)) /\
  (forall es r o k, sub k (dpos_exprs es o) -> map snd (ref_exprs (decenv r) es o) = map dec (ord_exprs r es k)) /\
  (forall s r o k, sub k (dpos_stat s o) -> map snd (fst (ref_stat (decenv r) s o)) = map dec (ord_stat r s k)) /\
  (forall els r o k, sub k (dpos_elifs els o) -> map snd (ref_elifs (decenv r) els o) = map dec (ord_elifs r els k)) /\
  (forall b, agree_block b).
Proof.
  apply syntax_mutind; try exact agree_SFun; try exact agree_SRepeat; try exact agree_BCons; unfold agree_block; intros;
    repeat match goal with H : _ /\ _ |- _ => destruct H end;
    try (split; intros);
    cbn [ref_expr ref_exprs ref_stat ref_elifs ref_block ord_expr ord_exprs ord_stat ord_elifs ord_block
         dpos_expr dpos_exprs dpos_stat dpos_elifs dpos_block benv_after fst snd map] in *;
    split_sub; rewrite ?map_app, ?lookup_dec; rewrite ?names_pos_length, ?len_e, ?len_es, ?len_b, ?len_s in *;
    erewrite ?decenv_cons by eassumption; erewrite ?bind_dec by eassumption;
    auto using (f_equal2 (@app (option N))).
Qed.

Lemma agree :
  (forall e r o k, sub k (dpos_expr e o) -> map snd (ref_expr (decenv r) e o) = map dec (ord_expr r e k)) /\
  (forall es r o k, sub k (dpos_exprs es o) -> map snd (ref_exprs (decenv r) es o) = map dec (ord_exprs r es k)) /\
  (forall s r o k, sub k (dpos_stat s o) -> map snd (fst (ref_stat (decenv r) s o)) = map dec (ord_stat r s k)) /\
  (forall els r o k, sub k (dpos_elifs els o) -> map snd (ref_elifs (decenv r) els o) = map dec (ord_elifs r els k)) /\
  (forall b r o k, sub k (dpos_block b o) ->
     map snd (fst (ref_block (decenv r) b o)) = map dec (ord_block r b k)
     /\ snd (ref_block (decenv r) b o) = decenv (benv_after r b k)).
Proof.
  destruct agree_all as (He & Hes & Hs & Hel & Hb).
  split; [exact He|split; [exact Hes|split; [exact Hs|split; [exact Hel|]]]].
  intros b r o k H. split; apply (Hb b); exact H.
Qed.

End Agree.

Theorem ord_agrees_positional : forall p : program,
  map snd (ref_resolve p) = map (dec (dpos_block p 0)) (ord_resolve p).
Proof.
  intros p. unfold ref_resolve, ord_resolve.
  assert (H : sub (dpos_block p 0) 0 (dpos_block p 0)) by (intros j _; reflexivity).
  exact (proj1 (proj2 (proj2 (proj2 (proj2 (agree (dpos_block p 0))))) p [] 0 0%nat H)).
Qed.
