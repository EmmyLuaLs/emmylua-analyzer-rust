(** C14/Refs.v — the reference index of the C13 model as the inverse image of resolution; rename edits. *)
From EV Require Import C13.Model C13.Corr C13.Proofs C14.Model.
Local Open Scope N_scope.

(** the keys of the reference map are pairwise different (add_decl_reference never overwrites), and the cells list
    the same (use position, declaration position) pairs in the same order (both are filled by [add_ref] only) *)
Definition Q (st : state) : Prop :=
  NoDup (map fst (st_refs st)) /\
  map (fun c => (fst (snd c), fst c)) (st_cells st) = map (fun r => (fst r, d_pos (snd r))) (st_refs st).

Lemma lookup_ref_none_notin : forall p refs, lookup_ref p refs = None -> ~ In p (map fst refs).
Proof.
  intros p refs H Hin. unfold lookup_ref in H.
  destruct (find (fun r => fst r =? p) refs) as [r|] eqn:E; [discriminate|].
  apply in_map_iff in Hin. destruct Hin as (r & Hr & Hin).
  pose proof (find_none _ _ E r Hin) as Hn. cbv beta in Hn. rewrite Hr, N.eqb_refl in Hn. discriminate.
Qed.

Lemma NoDup_snoc : forall (l : list N) a, NoDup l -> ~ In a l -> NoDup (l ++ [a]).
Proof.
  intros l a Hnd Hni. apply (NoDup_Add (a := a) (l := l)); [|split; assumption].
  rewrite <- (app_nil_r l) at 1. apply Add_app.
Qed.

Lemma Q_add_ref : forall p e d st, Q st -> Q (add_ref p e d st).
Proof.
  intros p e d st (H & Hl). unfold add_ref. destruct (lookup_ref p (st_refs st)) eqn:E; [split; assumption|].
  unfold Q. cbn [st_refs st_cells]. rewrite !map_app. cbn [map fst snd]. split.
  - apply NoDup_snoc; [exact H|apply lookup_ref_none_notin; exact E].
  - rewrite Hl. reflexivity.
Qed.

Lemma Q_same : forall st st', st_refs st' = st_refs st /\ st_cells st' = st_cells st -> Q st -> Q st'.
Proof. intros st st' (E & E') H. unfold Q. rewrite E, E'. exact H. Qed.

Lemma refs_add_decl : forall d st, st_refs (add_decl d st) = st_refs st /\ st_cells (add_decl d st) = st_cells st.
Proof. intros d st. unfold add_decl. destruct (st_z st); split; reflexivity. Qed.
Lemma refs_pop : forall st, st_refs (pop_scope st) = st_refs st /\ st_cells (pop_scope st) = st_cells st.
Proof. intros st. unfold pop_scope. destruct (st_z st) as [|f [|g z]]; split; reflexivity. Qed.

Definition Pres (f : state -> state) : Prop := forall st, Q st -> Q (f st).

Lemma Pres_add_ref : forall p e d, Pres (add_ref p e d).
Proof. intros p e d st H. apply Q_add_ref. exact H. Qed.
Lemma Pres_id : Pres (fun st => st).
Proof. intros st H. exact H. Qed.
Lemma Pres_comp : forall f g, Pres f -> Pres g -> Pres (fun st => g (f st)).
Proof. intros f g Hf Hg st H. apply Hg, Hf, H. Qed.

(** the walk changes the reference index only by [add_ref] at the name uses it passes: it preserves any property
    [I] of the state that depends on the reference map and the cells only and that [add_ref] at a name use of [A]
    preserves, for a construct whose name uses are among [A] *)
Section WalkRefs.
Variable A : list (N * name).
Variable I : state -> Prop.
Hypothesis I_same : forall st st', st_refs st' = st_refs st /\ st_cells st' = st_cells st -> I st -> I st'.
Hypothesis I_add_ref : forall p x d st, In (p, x) A -> I st -> I (add_ref p (p + nlen x) d st).

Lemma I_add_decl : forall d st, I st -> I (add_decl d st).
Proof. intros d st. apply I_same, refs_add_decl. Qed.
Lemma I_pop : forall st, I st -> I (pop_scope st).
Proof. intros st. apply I_same, refs_pop. Qed.
Lemma I_create : forall s e k st, I st -> I (create_scope s e k st).
Proof. intros s e k st. apply I_same. split; reflexivity. Qed.

Lemma I_name : forall x p st, In (p, x) A -> I st -> I (analyze_name_expr x p st).
Proof.
  intros x p st Hin H. unfold analyze_name_expr. cbv zeta.
  destruct (get_decl p st); [apply I_add_ref; assumption|].
  destruct (find_decl x p st) as [d|]; [|exact H].
  destruct (is_local d); [apply I_add_ref; assumption|].
  destruct (d_pos d =? p); [exact H|apply I_add_ref; assumption].
Qed.

Lemma I_name_decls : forall xs o st, I st -> I (add_name_decls xs o st).
Proof. induction xs as [|x r IH]; intros o st H; [exact H|]. cbn [add_name_decls]. apply IH. apply I_add_decl. exact H. Qed.

Lemma I_assign_vars : forall vs o st, incl (uses_exprs vs o) A -> I st -> I (analyze_assign_vars vs o st).
Proof.
  induction vs as [|v r IH]; intros o st Hi H; [exact H|]. cbn [analyze_assign_vars uses_exprs] in *.
  apply incl_app_inv in Hi. destruct Hi as (Hv & Hr). apply IH; [exact Hr|].
  destruct v; try exact H.
  destruct (find_decl x o st); [|apply I_add_decl; exact H].
  apply I_add_ref; [|exact H]. apply Hv. left. reflexivity.
Qed.

Lemma I_body : forall (w : N -> state -> state) len hi bo,
  (forall st, I st -> I (w (bo + 1) st)) -> forall st, I st -> I (walk_body w len hi bo st).
Proof.
  intros w len hi bo Hw st H. unfold walk_body. destruct hi; [|exact H]. apply I_pop, Hw, I_create, H.
Qed.

Lemma I_closure : forall (w : N -> state -> state) len hi self ps cs ce po,
  (forall st, I st -> I (w (po + (1 + len_names ps + 1) + 1) st)) ->
  forall st, I st -> I (walk_closure w len hi self ps cs ce po st).
Proof.
  intros w len hi self ps cs ce po Hw st H. unfold walk_closure. cbv zeta. apply I_pop.
  assert (H3 : I (add_name_decls ps (po + 1)
                     match self with
                     | Some c => add_decl (mkDecl c self_name DSelf) (create_scope cs ce KClosure st)
                     | None => create_scope cs ce KClosure st
                     end)).
  { apply I_name_decls. destruct self; [apply I_add_decl|]; apply I_create, H. }
  destruct hi; [|exact H3]. apply I_pop.
  replace (po + 1 + len_names ps + 1 + 1) with (po + (1 + len_names ps + 1) + 1) by lia. apply Hw, I_create, H3.
Qed.

Ltac split_incl :=
  repeat match goal with
         | H : incl (_ ++ _) A |- _ => apply incl_app_inv in H; destruct H
         | H : incl (_ :: _) A |- _ => apply incl_cons_inv in H; destruct H
         end.

Lemma I_walk :
  (forall e o st, incl (uses_expr e o) A -> I st -> I (walk_expr e o st)) /\
  (forall es o st, incl (uses_exprs es o) A -> I st -> I (walk_exprs es o st)) /\
  (forall s o st, incl (uses_stat s o) A -> I st -> I (walk_stat s o st)) /\
  (forall els o st, incl (uses_elifs els o) A -> I st -> I (walk_elifs els o st)) /\
  (forall b o st, incl (uses_block b o) A -> I st -> I (walk_block b o st)).
Proof.
  apply syntax_mutind; intros;
    cbn [walk_expr walk_exprs walk_stat walk_elifs walk_block uses_expr uses_exprs uses_stat uses_elifs uses_block] in *;
    split_incl;
    auto 6 using I_pop, I_create, I_add_decl, I_name_decls, I_name, I_assign_vars, I_body, I_closure.
  (* SFun: the name of a plain function statement that resolves to nothing is declared before it is walked *)
  apply I_pop, I_closure; [auto|]. apply I_name; [assumption|].
  destruct fields; [destruct meth|]; try (apply I_create; assumption).
  destruct (find_decl root (o + 9) _); auto using I_add_decl, I_create.
Qed.

End WalkRefs.

Lemma Q_program : forall p, Q (walk_program p).
Proof.
  intros p. unfold walk_program.
  assert (H0 : Q (create_scope 0 (len_block p) KNormal (mkState [] [] [] []))) by (split; [constructor|reflexivity]).
  destruct (has_items p); [|exact H0].
  eapply Q_same; [apply refs_pop|].
  apply (proj2 (proj2 (proj2 (proj2 (I_walk (uses_block p 0) Q Q_same
                                            (fun q x d st _ => Q_add_ref q (q + nlen x) d st)))))); [apply incl_refl|exact H0].
Qed.

Lemma lookup_ref_in_nodup : forall refs u dd,
  NoDup (map fst refs) -> In (u, dd) refs -> lookup_ref u refs = Some dd.
Proof.
  induction refs as [|r t IH]; intros u dd Hnd Hin; [destruct Hin|].
  cbn [map] in Hnd. inversion Hnd as [|? ? Hni Hnd']; subst.
  unfold lookup_ref. cbn [find]. destruct Hin as [-> | Hin].
  - cbn [fst]. rewrite N.eqb_refl. reflexivity.
  - destruct (N.eqb_spec (fst r) u) as [E|E].
    + exfalso. apply Hni. rewrite E. apply in_map_iff. exists (u, dd). split; [reflexivity|exact Hin].
    + apply (IH u dd Hnd' Hin).
Qed.

Lemma lookup_ref_some_in : forall refs u dd, lookup_ref u refs = Some dd -> In (u, dd) refs.
Proof.
  intros refs u dd H. unfold lookup_ref in H.
  destruct (find (fun r => fst r =? u) refs) as [r|] eqn:E; [|discriminate].
  injection H as <-. apply find_some in E. destruct E as (Hin & Hk). apply N.eqb_eq in Hk.
  destruct r as [k v]. cbn [fst snd] in *. subst k. exact Hin.
Qed.

Lemma cells_preimage : forall refs d u,
  NoDup (map fst refs) ->
  (In u (map fst (filter (fun r => d_pos (snd r) =? d) refs))
   <-> exists dd, lookup_ref u refs = Some dd /\ d_pos dd = d).
Proof.
  intros refs d u Hnd. split.
  - intros H. apply in_map_iff in H. destruct H as ((k & dd) & Hk & Hin). cbn [fst] in Hk. subst k.
    apply filter_In in Hin. destruct Hin as (Hin & Hd). cbn [snd] in Hd. apply N.eqb_eq in Hd.
    exists dd. split; [apply lookup_ref_in_nodup; assumption|exact Hd].
  - intros (dd & Hl & Hd). apply in_map_iff. exists (u, dd). split; [reflexivity|].
    apply filter_In. split; [apply lookup_ref_some_in; exact Hl|]. cbn [snd]. apply N.eqb_eq. exact Hd.
Qed.

(** the declaration (identified by its position, as [LuaDeclId]) the reference index maps a position to *)
Definition resolve_B (st : state) (u : N) : option N :=
  match lookup_ref u (st_refs st) with Some dd => Some (d_pos dd) | None => None end.

(** the cell lists and the map are filled in lockstep *)
Lemma cells_of_refs : forall (cells : list (N * (N * N))) (refs : list (N * decl)) d,
  map (fun c => (fst (snd c), fst c)) cells = map (fun r => (fst r, d_pos (snd r))) refs ->
  map fst (map snd (filter (fun c => fst c =? d) cells)) = map fst (filter (fun r => d_pos (snd r) =? d) refs).
Proof.
  induction cells as [|c t IH]; intros refs d H; destruct refs as [|r t']; try discriminate; [reflexivity|].
  cbn [map] in H. injection H as H1 H2 H3. cbn [filter]. rewrite H2.
  destruct (d_pos (snd r) =? d); cbn [map]; rewrite (IH t' d H3); [rewrite H1|]; reflexivity.
Qed.

Lemma decl_cells_refs : forall p d,
  decl_cells (walk_program p) d = map fst (filter (fun r => d_pos (snd r) =? d) (st_refs (walk_program p))).
Proof. intros p d. unfold decl_cells, decl_cell_ranges. apply cells_of_refs. apply (proj2 (Q_program p)). Qed.

Theorem refs_eq_preimage : forall (p : program) (d u : N),
  In u (decl_cells (walk_program p) d) <-> resolve_B (walk_program p) u = Some d.
Proof.
  intros p d u. rewrite decl_cells_refs. unfold resolve_B. rewrite (cells_preimage _ d u (proj1 (Q_program p))). split.
  - intros (dd & Hl & Hd). rewrite Hl, Hd. reflexivity.
  - intros H. destruct (lookup_ref u (st_refs (walk_program p))) as [dd|]; [|discriminate].
    injection H as H. exists dd. split; [reflexivity|exact H].
Qed.

(** with C13: every use that Lua scoping resolves to the local declaration at [d] is a cell of [d] *)
Theorem refs_contain_resolved : forall (p : program) (u d : N),
  In (u, Some d) (ref_resolve p) -> In u (decl_cells (walk_program p) d).
Proof.
  intros p u d H. rewrite <- impl_resolver_eq_reference in H. unfold impl_resolve in H.
  apply in_map_iff in H. destruct H as ((u' & x) & Heq & _). cbn [fst] in Heq. injection Heq as -> Himpl.
  apply refs_eq_preimage. unfold resolve_B. unfold impl_at, classify in Himpl.
  destruct (lookup_ref u (st_refs (walk_program p))) as [dd|]; [|discriminate].
  destruct (d_kind dd); try discriminate; injection Himpl as <-; reflexivity.
Qed.

(** and a cell of a declaration that is local (not a global's) is a position the reference index — hence, for the
    name uses of the program, Lua scoping — resolves to it *)
Theorem refs_only_resolved : forall (p : program) (u d : N) (x : name),
  In u (decl_cells (walk_program p) d) -> In (u, x) (uses_block p 0) ->
  (forall dd, lookup_ref u (st_refs (walk_program p)) = Some dd -> d_kind dd <> DGlobal) ->
  In (u, Some d) (ref_resolve p).
Proof.
  intros p u d x Hc Hu Hk. apply refs_eq_preimage in Hc. unfold resolve_B in Hc.
  rewrite <- impl_resolver_eq_reference. unfold impl_resolve. apply in_map_iff. exists (u, x). split; [|exact Hu].
  cbn [fst]. f_equal. unfold impl_at, classify.
  destruct (lookup_ref u (st_refs (walk_program p))) as [dd|] eqn:E; [|discriminate].
  injection Hc as Hc. specialize (Hk dd eq_refl). destruct (d_kind dd); try congruence; rewrite Hc; reflexivity.
Qed.

Lemma range_eqb_eq : forall a b, range_eqb a b = true <-> a = b.
Proof.
  intros [a1 a2] [b1 b2]. unfold range_eqb. cbn [fst snd]. rewrite andb_true_iff, !N.eqb_eq. split.
  - intros (-> & ->). reflexivity.
  - intros E. injection E as -> ->. split; reflexivity.
Qed.

Lemma nodupR_in : forall l a, In a (nodupR l) <-> In a l.
Proof.
  induction l as [|b r IH]; intros a; [reflexivity|]. cbn [nodupR].
  destruct (existsb (range_eqb b) r) eqn:E.
  - rewrite IH. split; [intros H; right; exact H|]. intros [<- | H]; [|exact H].
    apply existsb_exists in E. destruct E as (c & Hc & Hbc). apply range_eqb_eq in Hbc. subst c. exact Hc.
  - cbn [In]. rewrite IH. reflexivity.
Qed.

Lemma nodupR_nodup : forall l, NoDup (nodupR l).
Proof.
  induction l as [|b r IH]; [constructor|]. cbn [nodupR].
  destruct (existsb (range_eqb b) r) eqn:E; [exact IH|].
  constructor; [|exact IH]. intros H. apply (proj1 (nodupR_in r b)) in H.
  assert (existsb (range_eqb b) r = true) by (apply existsb_exists; exists b; split; [exact H|apply range_eqb_eq; reflexivity]). congruence.
Qed.

Definition edit_start (e : edit) : N := fst (fst e).
Definition edit_range (e : edit) : N * N := fst e.

(** the edits of a rename are exactly the declaration token and the references of the declaration: each range
    once, with the new name *)
Theorem rename_edits_exact : forall (p : program) (d : N) (x new : name),
  let st := walk_program p in
  let es := impl_rename st d x new in
  (forall r, In r (map edit_range es) <-> r = (d, d + nlen x) \/ In r (decl_cell_ranges st d)) /\
  (forall q, In q (map edit_start es) <-> q = d \/ resolve_B st q = Some d) /\
  NoDup (map edit_range es) /\
  Forall (fun e => snd e = new) es.
Proof.
  intros p d x new st es. unfold es, impl_rename.
  set (rs := nodupR ((d, d + nlen x) :: decl_cell_ranges st d)).
  assert (Hmap : map edit_range (map (fun r => (fst r, snd r, new)) rs) = rs).
  { rewrite map_map. unfold edit_range. cbn [fst]. rewrite <- (map_id rs) at 2. apply map_ext. intros [a b]. reflexivity. }
  assert (Hstart : map edit_start (map (fun r => (fst r, snd r, new)) rs) = map fst rs).
  { rewrite map_map. reflexivity. }
  split; [|split; [|split]].
  - intros r. rewrite Hmap. unfold rs. rewrite nodupR_in. cbn [In]. split; intros [H|H]; auto.
  - intros q. rewrite Hstart. unfold st. rewrite <- (refs_eq_preimage p d q). unfold decl_cells. split.
    + intros H. apply in_map_iff in H. destruct H as (r & <- & Hr). unfold rs in Hr. apply (proj1 (nodupR_in _ _)) in Hr.
      destruct Hr as [<- | Hr]; [left; reflexivity|right; apply in_map; exact Hr].
    + intros [-> | H].
      * apply in_map_iff. exists (d, d + nlen x). split; [reflexivity|]. unfold rs. apply (proj2 (nodupR_in _ _)). left. reflexivity.
      * apply in_map_iff in H. destruct H as (r & <- & Hr). apply in_map. unfold rs. apply (proj2 (nodupR_in _ _)). right. exact Hr.
  - rewrite Hmap. apply nodupR_nodup.
  - apply Forall_forall. intros e He. apply in_map_iff in He. destruct He as (r & <- & _). reflexivity.
Qed.
