(** C14/Alpha.v — alpha-renaming: renaming a declaration that has a token, and exactly the uses that resolve to
    it, to a fresh name leaves the resolution structure of the reference resolver (A) unchanged. *)
From EV Require Import C13.Model C14.Model C14.Agree.
From Coq Require Import Arith.

Section Alpha.
Variable d : nat.
Variable y : name.

Lemma al_names_length : forall xs k, List.length (al_names d y xs k) = List.length xs.
Proof. induction xs as [|x t IH]; intros k; [reflexivity|]. cbn [al_names List.length]. rewrite IH. reflexivity. Qed.

Lemma falses_al_names : forall xs k, falses (al_names d y xs k) = falses xs.
Proof. induction xs as [|x t IH]; intros k; [reflexivity|]. cbn [al_names falses map]. f_equal. apply IH. Qed.

Lemma al_dk :
  (forall e r k, dk_expr (al_expr d y r e k) = dk_expr e) /\
  (forall es r k, dk_exprs (al_exprs d y r es k) = dk_exprs es) /\
  (forall s r k, dk_stat (al_stat d y r s k) = dk_stat s) /\
  (forall els r k, dk_elifs (al_elifs d y r els k) = dk_elifs els) /\
  (forall b r k, dk_block (al_block d y r b k) = dk_block b).
Proof.
  apply syntax_mutind; intros;
    cbn [al_expr al_exprs al_stat al_elifs al_block dk_expr dk_exprs dk_stat dk_elifs dk_block];
    rewrite ?falses_al_names; cbn [falses map]; congruence.
Qed.

Lemma al_cnt_expr : forall e r k, cnt_expr (al_expr d y r e k) = cnt_expr e.
Proof. intros. unfold cnt_expr. rewrite (proj1 al_dk). reflexivity. Qed.
Lemma al_cnt_exprs : forall es r k, cnt_exprs (al_exprs d y r es k) = cnt_exprs es.
Proof. intros. unfold cnt_exprs. rewrite (proj1 (proj2 al_dk)). reflexivity. Qed.
Lemma al_cnt_stat : forall s r k, cnt_stat (al_stat d y r s k) = cnt_stat s.
Proof. intros. unfold cnt_stat. rewrite (proj1 (proj2 (proj2 al_dk))). reflexivity. Qed.
Lemma al_cnt_block : forall b r k, cnt_block (al_block d y r b k) = cnt_block b.
Proof. intros. unfold cnt_block. rewrite (proj2 (proj2 (proj2 (proj2 al_dk)))). reflexivity. Qed.

Definition ren (r : oenv) : oenv := map (fun b => if Nat.eqb (snd b) d then (y, snd b) else b) r.

Definition env_ok (r : oenv) : Prop := ~ In y (map fst r).

Lemma olookup_cons : forall (x : N) (b : N * nat) (t : list (N * nat)),
  olookup x (b :: t) = if (fst b =? x)%N then Some (snd b) else olookup x t.
Proof. intros x b t. unfold olookup. cbn [find]. unfold name in *. destruct (fst b =? x)%N; reflexivity. Qed.

Lemma al_use_cons_ne : forall (x : N) (b : N * nat) (t : list (N * nat)),
  (fst b =? x)%N = false -> al_use d y (b :: t) x = al_use d y t x.
Proof. intros x b t H. unfold al_use. rewrite olookup_cons. unfold name in *. rewrite H. reflexivity. Qed.

Lemma olookup_ren : forall r x, env_ok r -> x <> y -> olookup (al_use d y r x) (ren r) = olookup x r.
Proof.
  induction r as [|[x0 i0] t IH]; intros x Hok Hxy; unfold name in *.
  - reflexivity.
  - assert (Hok' : env_ok t) by (intros H; apply Hok; right; exact H).
    assert (Hx0 : x0 <> y) by (intros E; apply Hok; left; exact E).
    cbn [ren map snd]. fold (ren t). rewrite (olookup_cons x (x0, i0) t). cbn [fst snd].
    destruct (N.eqb_spec x0 x) as [E|E].
    + subst x0.
      assert (Hl : olookup x ((x, i0) :: t) = Some i0)
        by (rewrite olookup_cons; cbn [fst snd]; rewrite N.eqb_refl; reflexivity).
      unfold al_use. rewrite Hl.
      destruct (Nat.eqb i0 d); rewrite olookup_cons; cbn [fst snd]; rewrite N.eqb_refl; reflexivity.
    + rewrite al_use_cons_ne by (cbn [fst]; apply N.eqb_neq; exact E).
      specialize (IH x Hok' Hxy).
      assert (Hu : al_use d y t x = x \/ (al_use d y t x = y /\ olookup x t = Some d)).
      { unfold al_use. destruct (olookup x t) as [i|]; [|left; reflexivity].
        destruct (Nat.eqb_spec i d); [right; split; [reflexivity|congruence]|left; reflexivity]. }
      destruct (Nat.eqb_spec i0 d) as [Ei|Ei].
      * rewrite olookup_cons. cbn [fst snd].
        destruct Hu as [Hu|(Hu & Hl)]; rewrite Hu in *.
        -- replace (y =? x)%N with false by (symmetry; apply N.eqb_neq; congruence). exact IH.
        -- rewrite N.eqb_refl. rewrite Hl. congruence.
      * rewrite olookup_cons. cbn [fst snd].
        destruct Hu as [Hu|(Hu & Hl)]; rewrite Hu in *.
        -- replace (x0 =? x)%N with false by (symmetry; apply N.eqb_neq; exact E). exact IH.
        -- replace (x0 =? y)%N with false by (symmetry; apply N.eqb_neq; exact Hx0). exact IH.
Qed.

Lemma ren_obind : forall xs k r, ren (obind xs k r) = obind (al_names d y xs k) k (ren r).
Proof.
  induction xs as [|x t IH]; intros k r; [reflexivity|].
  cbn [obind al_names]. rewrite IH. f_equal. cbn [ren map snd]. destruct (Nat.eqb k d); reflexivity.
Qed.

Lemma ren_cons : forall x k r, ren ((x, k) :: r) = (if Nat.eqb k d then y else x, k) :: ren r.
Proof. intros. cbn [ren map snd]. destruct (Nat.eqb k d); reflexivity. Qed.

Lemma env_ok_obind : forall xs k r, env_ok r -> ~ In y xs -> env_ok (obind xs k r).
Proof.
  induction xs as [|x t IH]; intros k r Hok Hn; [exact Hok|].
  cbn [obind]. apply IH.
  - intros [E|H]; [apply Hn; left; exact E|apply Hok; exact H].
  - intros H. apply Hn. right. exact H.
Qed.

Lemma env_ok_cons : forall x i r, env_ok r -> y <> x -> env_ok ((x, i) :: r).
Proof. intros x i r Hok Hx [E|H]; [apply Hx; symmetry; exact E|apply Hok; exact H]. Qed.

(** no implicit self (a [true] of the [dk_] lists) has the ordinal [d] *)
Definition noself (k : nat) (l : list bool) : Prop := forall j, nth_error l j = Some true -> (k + j)%nat <> d.

Lemma noself_app : forall k a b, noself k (a ++ b) -> noself k a /\ noself (k + List.length a) b.
Proof.
  intros k a b H. split.
  - intros j Hj. apply H. rewrite nth_error_app1; [exact Hj|]. apply nth_error_Some. congruence.
  - intros j Hj. replace (k + List.length a + j)%nat with (k + (List.length a + j))%nat by lia. apply H.
    rewrite nth_error_app2 by lia. replace (List.length a + j - List.length a)%nat with j by lia. exact Hj.
Qed.

Lemma noself_cons_false : forall k l, noself k (false :: l) -> noself (S k) l.
Proof. intros k l H j Hj. replace (S k + j)%nat with (k + S j)%nat by lia. apply H. exact Hj. Qed.

Lemma noself_cons_true : forall k l, noself k (true :: l) -> k <> d /\ noself (S k) l.
Proof.
  intros k l H. split.
  - specialize (H 0%nat eq_refl). rewrite Nat.add_0_r in H. exact H.
  - intros j Hj. replace (S k + j)%nat with (k + S j)%nat by lia. apply H. exact Hj.
Qed.

Lemma noself_falses : forall k xs l, noself k (falses xs ++ l) -> noself (k + List.length xs) l.
Proof. intros k xs l H. apply noself_app in H. destruct H as (_ & H). rewrite falses_length in H. exact H. Qed.

Hypothesis Hself : y <> self_name.

Lemma ren_env_after : forall s r k, env_after (ren r) (al_stat d y r s k) k = ren (env_after r s k).
Proof.
  intros s r k. destruct s; cbn [al_stat env_after]; try reflexivity.
  - symmetry. apply ren_obind.
  - cbn [ren map snd]. destruct (Nat.eqb k d); reflexivity.
  - cbn [obind ren map snd]. destruct (Nat.eqb k d); reflexivity.
Qed.

Lemma ren_benv_after : forall b r k, benv_after (ren r) (al_block d y r b k) k = ren (benv_after r b k).
Proof.
  induction b as [|es|s t IH]; intros r k; cbn [al_block benv_after]; try reflexivity.
  rewrite al_cnt_stat, ren_env_after. apply IH.
Qed.

Lemma not_in_app : forall (a b : list name), ~ In y (a ++ b) -> ~ In y a /\ ~ In y b.
Proof. intros a b H. split; intros Hin; apply H; apply in_or_app; [left|right]; exact Hin. Qed.

Lemma env_ok_after : forall s r k, env_ok r -> ~ In y (names_stat s) -> env_ok (env_after r s k).
Proof.
  intros s r k Hok Hn. destruct s; cbn [env_after names_stat] in *; try exact Hok.
  - apply not_in_app in Hn. apply env_ok_obind; [exact Hok|apply Hn].
  - apply env_ok_cons; [exact Hok|]. intros E. apply Hn. left. symmetry. exact E.
  - cbn [obind]. apply env_ok_cons; [exact Hok|]. intros E. apply Hn. left. symmetry. exact E.
Qed.

Lemma env_ok_bafter : forall b r k, env_ok r -> ~ In y (names_block b) -> env_ok (benv_after r b k).
Proof.
  induction b as [|es|s t IH]; intros r k Hok Hn; cbn [benv_after names_block] in *; try exact Hok.
  apply not_in_app in Hn. destruct Hn as (Hn1 & Hn2). apply IH; [apply env_ok_after; assumption|exact Hn2].
Qed.

Lemma env_ok_meth : forall meth r k, env_ok r -> env_ok (meth_env meth r k).
Proof.
  intros [m|] r k Hok; cbn [meth_env]; [|exact Hok]. apply env_ok_cons; [exact Hok|exact Hself].
Qed.

Lemma ren_meth : forall meth r k, (meth <> None -> k <> d) -> ren (meth_env meth r k) = meth_env meth (ren r) k.
Proof.
  intros [m|] r k H; cbn [meth_env]; [|reflexivity]. cbn [ren map snd].
  destruct (Nat.eqb_spec k d) as [E|E]; [exfalso; apply H; [discriminate|exact E]|reflexivity].
Qed.

Ltac split_names :=
  repeat match goal with
         | H : ~ In y (_ ++ _) |- _ => apply not_in_app in H; destruct H
         | H : ~ In y (_ :: _) |- _ => apply not_in_cons in H; destruct H
         end.

Ltac split_noself :=
  repeat match goal with
         | H : noself _ (falses _ ++ _) |- _ => apply noself_falses in H
         | H : noself _ (_ ++ _) |- _ => apply noself_app in H; destruct H
         | H : noself _ (false :: _) |- _ => apply noself_cons_false in H
         end.

(** a method's implicit self has no token, so it is not the renamed declaration *)
Lemma alpha_ord_SFun : forall root fields meth ps b,
  (forall r k, env_ok r -> ~ In y (names_block b) -> noself k (dk_block b) ->
               ord_block (ren r) (al_block d y r b k) k = ord_block r b k) ->
  forall r k, env_ok r -> ~ In y (names_stat (SFun root fields meth ps b)) ->
  noself k (dk_stat (SFun root fields meth ps b)) ->
  ord_stat (ren r) (al_stat d y r (SFun root fields meth ps b) k) k = ord_stat r (SFun root fields meth ps b) k.
Proof.
  intros root fields meth ps b IHb r k Hok Hn Hs. cbn [al_stat ord_stat names_stat dk_stat] in *.
  split_names.
  assert (Hm : (meth <> None -> k <> d) /\ noself (k + meth_cnt meth + List.length ps) (dk_block b)).
  { destruct meth as [m|]; cbn [meth_cnt app] in *.
    - apply noself_cons_true in Hs. destruct Hs as (Hk & Hs). split; [intros _; exact Hk|].
      apply noself_falses in Hs. replace (k + 1 + List.length ps)%nat with (S k + List.length ps)%nat by lia. exact Hs.
    - split; [intros E; congruence|]. apply noself_falses in Hs.
      replace (k + 0 + List.length ps)%nat with (k + List.length ps)%nat by lia. exact Hs. }
  destruct Hm as (Hm & Hsb).
  f_equal; [apply olookup_ren; [exact Hok|congruence]|].
  unfold olen. rewrite al_names_length, <- (ren_meth meth r k Hm), <- ren_obind.
  apply IHb; [apply env_ok_obind; [apply env_ok_meth; exact Hok|assumption]|assumption|exact Hsb].
Qed.

(** everywhere else the renamed environments are the environments of the renamed construct ([ren_obind],
    [ren_cons], [ren_env_after], [ren_benv_after]) and the uses look up what they looked up ([olookup_ren]) *)
Lemma alpha_ord :
  (forall e r k, env_ok r -> ~ In y (names_expr e) -> noself k (dk_expr e) ->
                 ord_expr (ren r) (al_expr d y r e k) k = ord_expr r e k) /\
  (forall es r k, env_ok r -> ~ In y (names_exprs es) -> noself k (dk_exprs es) ->
                  ord_exprs (ren r) (al_exprs d y r es k) k = ord_exprs r es k) /\
  (forall s r k, env_ok r -> ~ In y (names_stat s) -> noself k (dk_stat s) ->
                 ord_stat (ren r) (al_stat d y r s k) k = ord_stat r s k) /\
  (forall els r k, env_ok r -> ~ In y (names_elifs els) -> noself k (dk_elifs els) ->
                   ord_elifs (ren r) (al_elifs d y r els k) k = ord_elifs r els k) /\
  (forall b r k, env_ok r -> ~ In y (names_block b) -> noself k (dk_block b) ->
                 ord_block (ren r) (al_block d y r b k) k = ord_block r b k).
Proof.
  apply syntax_mutind; try exact alpha_ord_SFun; intros;
    cbn [al_expr al_exprs al_stat al_elifs al_block ord_expr ord_exprs ord_stat ord_elifs ord_block
         names_expr names_exprs names_stat names_elifs names_block dk_expr dk_exprs dk_stat dk_elifs dk_block] in *;
    split_names; split_noself; unfold olen in *;
    rewrite ?al_names_length, ?al_cnt_expr, ?al_cnt_exprs, ?al_cnt_stat, ?al_cnt_block, ?ren_env_after, ?ren_benv_after,
            <- ?ren_cons, <- ?ren_obind;
    auto using (f_equal2 (@app (option nat))), (f_equal2 (@cons (option nat))), olookup_ren, env_ok_obind, env_ok_cons, env_ok_after, env_ok_bafter.
Qed.

End Alpha.

(** renaming the declaration with ordinal [d] (one that has a token) and its uses to a fresh name leaves the
    resolution of every use unchanged *)
Theorem alpha_preserves_resolution : forall (p : program) (d : nat) (y : name),
  fresh y p -> real_decl p d \/ List.length (dk_block p) <= d ->
  ord_resolve (alpha d y p) = ord_resolve p.
Proof.
  intros p d y (Hn & Hs) Hd. unfold ord_resolve, alpha.
  apply (proj2 (proj2 (proj2 (proj2 (alpha_ord d y Hs)))) p [] 0%nat).
  - intros H. exact H.
  - exact Hn.
  - intros j Hj E. cbn [Nat.add] in E. subst j. destruct Hd as [Hd|Hd].
    + unfold real_decl in Hd. congruence.
    + apply nth_error_None in Hd. congruence.
Qed.
