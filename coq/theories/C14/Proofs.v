(** C14/Proofs.v — the lemmas behind C14/Props.v, collected from Refs, Tokens, Alpha and Agree. *)
From EV Require Import C13.Model C13.Corr C14.Model C14.Refs C14.Tokens C14.Alpha C14.Agree C14.Corr.
Local Open Scope N_scope.

Definition refs_eq_preimage := Refs.refs_eq_preimage.
Definition refs_contain_resolved := Refs.refs_contain_resolved.
Definition refs_only_resolved := Refs.refs_only_resolved.
Definition rename_edits_exact := Refs.rename_edits_exact.
Definition cells_are_tokens := Tokens.cells_are_tokens.
Definition rename_edits_disjoint := Tokens.rename_edits_disjoint.
Definition rename_preserves_resolution := Alpha.alpha_preserves_resolution.
Definition ord_resolver_agrees := Agree.ord_agrees_positional.

(** in byte positions: the k-th use of the program and of the renamed program resolve to the declaration with the
    same ordinal (or both to a global) *)
Lemma rename_preserves_resolution_positional : forall (p : program) (d : nat) (y : name),
  fresh y p -> real_decl p d \/ (List.length (dk_block p) <= d)%nat ->
  map snd (ref_resolve p) = map (dec (dpos_block p 0)) (ord_resolve p) /\
  map snd (ref_resolve (alpha d y p)) = map (dec (dpos_block (alpha d y p) 0)) (ord_resolve p).
Proof.
  intros p d y Hf Hd. split; [apply Agree.ord_agrees_positional|].
  rewrite <- (Alpha.alpha_preserves_resolution p d y Hf Hd). apply Agree.ord_agrees_positional.
Qed.

(** non-vacuity: [local a = 1 do local a = a f(a) end f(a)]: the outer a (ordinal 0) has the declaration at 6, the
    use at 25 (the initialiser of the inner a) and the use at 38; renaming it to v9001 gives the printed text of
    alpha and leaves the resolution structure unchanged; the inner a (ordinal 1) has the use at 29 only *)
Example rename_example :
  let p := BCons (SLocal [0] (ECons (ENum 1) ENil))
          (BCons (SDo (BCons (SLocal [0] (ECons (EName 0) ENil)) (BCons (SCall (EName 3) (ECons (EName 0) ENil)) BNil)))
          (BCons (SCall (EName 3) (ECons (EName 0) ENil)) BNil)) in
  let st := walk_program p in
  impl_references st 6 = [6; 25; 38]
  /\ impl_references st 21 = [21; 29]
  /\ impl_rename st 6 0 9001 = [(6, 7, 9001); (25, 26, 9001); (38, 39, 9001)]
  /\ ord_resolve p = [Some 0%nat; None; Some 1%nat; None; Some 0%nat]
  /\ ord_resolve (alpha 0 9001 p) = ord_resolve p
  /\ real_decl p 0 /\ fresh 9001 p
  /\ check_case {| c_prog := p; c_text := pr_program p; c_fresh := 9001;
                   c_decls := [{| o_pos := 6; o_name := 0; o_cells := [(25, 26); (38, 39)];
                                  o_edits := [(6, 7, 9001); (25, 26, 9001); (38, 39, 9001)] |}] |} = true.
Proof.
  cbv zeta.
  split; [vm_compute; reflexivity|]. split; [vm_compute; reflexivity|]. split; [vm_compute; reflexivity|].
  split; [vm_compute; reflexivity|]. split; [vm_compute; reflexivity|]. split; [vm_compute; reflexivity|].
  split; [|vm_compute; reflexivity].
  split; [|discriminate].
  intros H. vm_compute in H. repeat (destruct H as [H|H]; [discriminate|]). exact H.
Qed.
