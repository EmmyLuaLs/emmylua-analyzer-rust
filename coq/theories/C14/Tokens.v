(** C14/Tokens.v — the name tokens of the printed program are pairwise separated; every cell of the reference index
    is the range of a name-use token; hence the ranges edited by a rename are pairwise disjoint. *)
From EV Require Import C13.Model C13.Sim C14.Model C14.Refs.
Local Open Scope N_scope.

(** every token ends before the next one starts, all within [lo, hi] *)
Fixpoint sep (lo : N) (l : list (N * name)) (hi : N) : Prop :=
  match l with
  | [] => lo <= hi
  | t :: r => lo <= fst t /\ sep (fst t + nlen (snd t)) r hi
  end.

Lemma sep_weaken : forall l lo hi lo' hi', sep lo l hi -> lo' <= lo -> hi <= hi' -> sep lo' l hi'.
Proof.
  induction l as [|t r IH]; intros lo hi lo' hi' H H1 H2; cbn [sep] in *; [lia|].
  destruct H as (Ha & Hb). split; [lia|]. eapply IH; [exact Hb|lia|exact H2].
Qed.

Lemma sep_app : forall a b lo mid hi, sep lo a mid -> sep mid b hi -> sep lo (a ++ b) hi.
Proof.
  induction a as [|t r IH]; intros b lo mid hi Ha Hb; cbn [sep app] in *.
  - eapply sep_weaken; [exact Hb|exact Ha|lia].
  - destruct Ha as (H1 & H2). split; [exact H1|]. eapply IH; eassumption.
Qed.

Lemma sep_comp : forall lo a oa ea rest hi,
  sep oa a ea -> lo <= oa -> sep ea rest hi -> sep lo (a ++ rest) hi.
Proof.
  intros lo a oa ea rest hi Ha Hlo Hr. apply (sep_app a rest lo ea hi); [|exact Hr].
  apply (sep_weaken a oa ea lo ea Ha Hlo). lia.
Qed.

Lemma sep_names : forall xs o, sep o (names_toks xs o) (o + len_names xs).
Proof.
  induction xs as [|x t IH]; intros o; cbn [names_toks sep len_names fst snd]; [lia|].
  split; [lia|]. destruct t as [|y t'].
  - cbn [names_toks sep]. lia.
  - eapply sep_weaken; [apply IH|lia|lia].
Qed.

Lemma sep_bounds : forall l lo hi t, sep lo l hi -> In t l -> lo <= fst t /\ fst t + nlen (snd t) <= hi.
Proof.
  induction l as [|a r IH]; intros lo hi t H Hin; [destruct Hin|].
  cbn [sep] in H. destruct H as (H1 & H2). pose proof (nlen_pos (snd a)).
  destruct Hin as [<- | Hin].
  - split; [exact H1|]. clear IH. revert H2. generalize (fst a + nlen (snd a)). clear.
    induction r as [|b r IH]; intros s H; cbn [sep] in H; [exact H|].
    destruct H as (Ha & Hb). pose proof (nlen_pos (snd b)). specialize (IH _ Hb). lia.
  - destruct (IH _ _ t H2 Hin). split; lia.
Qed.

Lemma sep_disjoint : forall l lo hi t1 t2, sep lo l hi -> In t1 l -> In t2 l ->
  t1 = t2 \/ fst t1 + nlen (snd t1) <= fst t2 \/ fst t2 + nlen (snd t2) <= fst t1.
Proof.
  induction l as [|a r IH]; intros lo hi t1 t2 H H1 H2; [destruct H1|].
  cbn [sep] in H. destruct H as (Ha & Hb).
  destruct H1 as [<- | H1], H2 as [<- | H2].
  - left. reflexivity.
  - right. left. destruct (sep_bounds _ _ _ _ Hb H2). lia.
  - right. right. destruct (sep_bounds _ _ _ _ Hb H1). lia.
  - eapply IH; eassumption.
Qed.

(** a token list is separated when its components are: the first component, its interval, then the rest *)
Ltac sepgo :=
  repeat match goal with
         | |- sep _ (_ :: _) _ => split; [cbn [fst snd]; lia|cbn [fst snd]]
         | |- sep _ [] _ => cbn [sep]; lia
         | |- sep _ (_ ++ _) _ => eapply sep_comp; [solve [eauto using sep_names]|lia|]
         | |- sep _ _ _ => eapply sep_weaken; [solve [eauto using sep_names]|lia|lia]
         end.

Lemma toks_sep :
  (forall e o, sep o (toks_expr e o) (o + len_expr e)) /\
  (forall es o, sep o (toks_exprs es o) (o + len_exprs es)) /\
  (forall s o, sep o (toks_stat s o) (o + len_stat s)) /\
  (forall els o, sep o (toks_elifs els o) (o + len_elifs els)) /\
  (forall b o, sep o (toks_block b o) (o + len_block b)).
Proof.
  apply syntax_mutind; intros;
    cbn [toks_expr toks_exprs toks_stat toks_elifs toks_block len_expr len_exprs len_stat len_elifs len_block];
    (* the names of the construct in hand, as [syntax_mutind] introduces them, are not empty *)
    try (pose proof (nlen_pos x)); try (pose proof (nlen_pos f)); try (pose proof (nlen_pos root));
    try (pose proof (nlen_pos m)); try (pose proof (nlen_pos l));
    try solve [sepgo].
  - (* ECons *) destruct es as [|e2 es2].
    + cbn [toks_exprs]. rewrite app_nil_r. sepgo.
    + remember (ECons e2 es2) as es. sepgo.
  - (* SLocal *) destruct es as [|e2 es2].
    + cbn [toks_exprs]. rewrite app_nil_r. sepgo.
    + remember (ECons e2 es2) as es. sepgo.
  - (* SLocalAttr *) destruct es as [|e2 es2].
    + cbn [toks_exprs names_toks app sep fst snd]. lia.
    + remember (ECons e2 es2) as es. cbn [names_toks app]. sepgo.
  - (* BRet *) destruct es as [|e2 es2].
    + cbn [toks_exprs sep]. lia.
    + remember (ECons e2 es2) as es. sepgo.
Qed.

Lemma uses_in_toks :
  (forall e o, incl (uses_expr e o) (toks_expr e o)) /\
  (forall es o, incl (uses_exprs es o) (toks_exprs es o)) /\
  (forall s o, incl (uses_stat s o) (toks_stat s o)) /\
  (forall els o, incl (uses_elifs els o) (toks_elifs els o)) /\
  (forall b o, incl (uses_block b o) (toks_block b o)).
Proof.
  apply syntax_mutind; intros;
    cbn [toks_expr toks_exprs toks_stat toks_elifs toks_block uses_expr uses_exprs uses_stat uses_elifs uses_block];
    repeat match goal with
           | |- incl (_ ++ _) _ => apply incl_app
           | |- incl [] _ => intros ? []
           | |- incl (_ :: _) (_ :: _) => apply incl_cons; [left; reflexivity|apply incl_tl]
           end;
    eauto 8 using incl_appl, incl_appr, incl_tl, incl_refl.
Qed.

Section Cells.
Variable A : list (N * name).

Definition KA (st : state) : Prop :=
  Forall (fun c => exists x, In (fst (snd c), x) A /\ snd (snd c) = fst (snd c) + nlen x) (st_cells st).

Lemma KA_same : forall st st', st_cells st' = st_cells st -> KA st -> KA st'.
Proof. intros st st' E H. unfold KA. rewrite E. exact H. Qed.

Lemma KA_add_ref : forall p x d st, In (p, x) A -> KA st -> KA (add_ref p (p + nlen x) d st).
Proof.
  intros p x d st Hin H. unfold add_ref. destruct (lookup_ref p (st_refs st)); [exact H|].
  unfold KA. cbn [st_cells]. apply Forall_app. split; [exact H|]. constructor; [|constructor].
  cbn [fst snd]. exists x. split; [exact Hin|reflexivity].
Qed.

End Cells.

Lemma KA_program : forall p, KA (toks_block p 0) (walk_program p).
Proof.
  intros p. unfold walk_program. set (A := toks_block p 0).
  assert (H0 : KA A (create_scope 0 (len_block p) KNormal (mkState [] [] [] []))) by constructor.
  destruct (has_items p); [|exact H0].
  eapply KA_same; [apply (proj2 (refs_pop _))|].
  apply (proj2 (proj2 (proj2 (proj2 (I_walk A (KA A) (fun st st' E => KA_same A st st' (proj2 E))
                                            (fun q x d st => KA_add_ref A q x d st)))))); [|exact H0].
  apply (proj2 (proj2 (proj2 (proj2 uses_in_toks)))).
Qed.

Theorem cells_are_tokens : forall (p : program) (d : N) (r : N * N),
  In r (decl_cell_ranges (walk_program p) d) ->
  exists x, In (fst r, x) (toks_block p 0) /\ snd r = fst r + nlen x.
Proof.
  intros p d r H. unfold decl_cell_ranges in H. apply in_map_iff in H. destruct H as (c & <- & Hc).
  apply filter_In in Hc. destruct Hc as (Hc & _).
  pose proof (KA_program p) as HK. unfold KA in HK. rewrite Forall_forall in HK. exact (HK c Hc).
Qed.

Theorem rename_edits_disjoint : forall (p : program) (d : N) (x new : name),
  In (d, x) (toks_block p 0) ->
  forall e1 e2, In e1 (impl_rename (walk_program p) d x new) -> In e2 (impl_rename (walk_program p) d x new) ->
  edit_range e1 <> edit_range e2 ->
  snd (edit_range e1) <= fst (edit_range e2) \/ snd (edit_range e2) <= fst (edit_range e1).
Proof.
  intros p d x new Hd e1 e2 H1 H2 Hne.
  assert (Htok : forall e, In e (impl_rename (walk_program p) d x new) ->
                 exists y, In (fst (edit_range e), y) (toks_block p 0) /\ snd (edit_range e) = fst (edit_range e) + nlen y).
  { intros e He. unfold impl_rename in He. apply in_map_iff in He. destruct He as (r & <- & Hr).
    apply (proj1 (nodupR_in _ _)) in Hr. unfold edit_range. cbn [fst snd].
    destruct Hr as [<- | Hr]; [exists x; split; [exact Hd|reflexivity]|].
    apply (cells_are_tokens p d r Hr). }
  destruct (Htok e1 H1) as (y1 & Hi1 & He1). destruct (Htok e2 H2) as (y2 & Hi2 & He2).
  destruct (sep_disjoint _ _ _ _ _ (proj2 (proj2 (proj2 (proj2 toks_sep))) p 0) Hi1 Hi2) as [E|[E|E]]; cbn [fst snd] in E.
  - exfalso. apply Hne. injection E as E1 E2. destruct (edit_range e1), (edit_range e2). cbn [fst snd] in *. subst. reflexivity.
  - left. lia.
  - right. lia.
Qed.
