(** C26/Proofs.v — the token encoder through one invariant ([gf]: ordered, disjoint, non-empty) that [flatten]
    establishes on any list sorted by start and the delta encoding preserves; the selection-range chain; and
    the meaning of the executable validity predicates. *)
From EV Require Import C26.Model.
From EV Require C23.Proofs.
From Coq Require Import Permutation.
Local Open Scope N_scope.

Definition from (L p : N) (a : tok) : Prop := (t_line a = L /\ p <= t_col a) \/ L < t_line a.

(** "good from [(L, p)]": ordered, disjoint, non-empty *)
Fixpoint gf (L p : N) (l : list tok) : Prop :=
  match l with
  | [] => True
  | a :: r => from L p a /\ 0 < t_len a /\ gf (t_line a) (tend a) r
  end.

(** [sf L p l] ("sorted from"): [l] is sorted by start (line, col), weakly, from (L, p) on *)
Fixpoint sf (L p : N) (l : list tok) : Prop :=
  match l with
  | [] => True
  | a :: r => from L p a /\ sf (t_line a) (t_col a) r
  end.

(** [seg L p l q]: like [gf] but all on line [L] and ending at or before [q] *)
Fixpoint seg (L p : N) (l : list tok) (q : N) : Prop :=
  match l with
  | [] => p <= q
  | a :: r => t_line a = L /\ p <= t_col a /\ 0 < t_len a /\ seg L (tend a) r q
  end.

Lemma from_weaken : forall a L1 p1 L2 p2,
  from L2 p2 a -> (L1 < L2 \/ (L1 = L2 /\ p1 <= p2)) -> from L1 p1 a.
Proof. unfold from. lia. Qed.

Lemma gf_weaken : forall l L1 p1 L2 p2,
  gf L2 p2 l -> (L1 < L2 \/ (L1 = L2 /\ p1 <= p2)) -> gf L1 p1 l.
Proof.
  intros [|a r] L1 p1 L2 p2 H W; [exact I|]. destruct H as [H1 H2].
  split; [exact (from_weaken _ _ _ _ _ H1 W)|exact H2].
Qed.

Lemma sf_weaken : forall l L1 p1 L2 p2,
  sf L2 p2 l -> (L1 < L2 \/ (L1 = L2 /\ p1 <= p2)) -> sf L1 p1 l.
Proof.
  intros [|a r] L1 p1 L2 p2 H W; [exact I|]. destruct H as [H1 H2].
  split; [exact (from_weaken _ _ _ _ _ H1 W)|exact H2].
Qed.

Lemma gf_sf : forall l L p, gf L p l -> sf L p l.
Proof.
  induction l as [|a r IH]; intros L p H; [exact I|].
  destruct H as [H1 [H2 H3]]. split; [exact H1|].
  apply IH. eapply gf_weaken; [exact H3|]. unfold tend. lia.
Qed.

Lemma seg_gf_app : forall em L p q rest L2 p2,
  seg L p em q -> gf L2 p2 rest -> (L < L2 \/ (L = L2 /\ q <= p2)) -> gf L p (em ++ rest).
Proof.
  induction em as [|a r IH]; intros L p q rest L2 p2 S G W; cbn [seg app] in *.
  - eapply gf_weaken; [exact G|]. lia.
  - destruct S as [S1 [S2 [S3 S4]]]. split; [left; split; assumption|]. split; [exact S3|].
    rewrite S1. eapply IH; eassumption.
Qed.

Lemma seg_app : forall a L p q b r, seg L p a q -> seg L q b r -> seg L p (a ++ b) r.
Proof.
  induction a as [|x a IH]; intros L p q b r S1 S2; cbn [seg app] in *.
  - destruct b as [|y b]; cbn [seg] in *; [lia|].
    destruct S2 as [E1 [E2 [E3 E4]]]. repeat split; try assumption. lia.
  - destruct S1 as [E1 [E2 [E3 E4]]]. repeat split; try assumption. eapply IH; eassumption.
Qed.

Definition on_line (L : N) (l : list tok) : Prop := Forall (fun t => t_line t = L) l.

Lemma close_spec : forall open pos limit L em o' p',
  on_line L open -> close open pos limit = (em, o', p') ->
  seg L pos em p' /\ on_line L o' /\
  (forall l, limit = Some l -> pos <= l -> p' <= l) /\
  (limit = None -> o' = []).
Proof.
  induction open as [|top rest IH]; intros pos limit L em o' p' HL E; cbn [close] in E.
  - inversion E; subst. cbn [seg]. split; [lia|]. split; [constructor|]. split; [intros; assumption|reflexivity].
  - inversion HL as [|x y Htop Hrest]; subst x y.
    set (e := tend top) in *.
    set (still := match limit with Some l => l <? e | None => false end) in *.
    set (stop := if still then match limit with Some l => l | None => e end else e) in *.
    set (start := N.max (t_col top) pos) in *.
    set (emit := if start <? stop then _ else _) in *.
    set (pos1 := if start <? stop then stop else pos) in *.
    assert (Hemit : seg L pos emit pos1).
    { subst emit pos1 start.
      destruct (N.ltb_spec (N.max (t_col top) pos) stop); cbn [seg]; unfold tend; cbn [mk t_line t_col t_len];
        repeat split; lia. }
    assert (Hlim : forall l, limit = Some l -> pos <= l -> pos1 <= l).
    { intros l El Hp. assert (stop <= l) by (subst stop still; rewrite El; destruct (N.ltb_spec l e); lia).
      subst pos1. destruct (start <? stop); lia. }
    destruct still eqn:Es.
    + inversion E; subst em o' p'. split; [exact Hemit|]. split; [exact HL|]. split; [exact Hlim|].
      intros En. subst still. rewrite En in Es. discriminate.
    + destruct (close rest pos1 limit) as [[em1 st] p] eqn:Ec. inversion E; subst em o' p'.
      destruct (IH pos1 limit L em1 st p Hrest Ec) as [I1 [I2 [I3 I4]]].
      split; [exact (seg_app _ _ _ _ _ _ Hemit I1)|]. split; [exact I2|]. split; [|exact I4].
      intros l El Hp. exact (I3 l El (Hlim l El Hp)).
Qed.

Lemma sweep_spec : forall input open line pos,
  on_line line open -> sf line pos input -> gf line pos (sweep input open line pos).
Proof.
  induction input as [|tk r IH]; intros open line pos HL HS; cbn [sweep].
  - destruct (close open pos None) as [[em o'] p'] eqn:E.
    destruct (close_spec _ _ _ _ _ _ _ HL E) as [C1 _].
    rewrite <- (app_nil_r em). eapply (seg_gf_app em line pos p' [] line p'); [exact C1|exact I|lia].
  - destruct HS as [HB HS]. unfold from in HB.
    destruct (N.eqb_spec (t_line tk) line) as [El|Nl].
    + destruct (close open pos (Some (t_col tk))) as [[em o'] p'] eqn:E.
      destruct (close_spec _ _ _ _ _ _ _ HL E) as [C1 [C2 [C3 _]]].
      specialize (C3 _ eq_refl ltac:(lia)).
      eapply (seg_gf_app em line pos p' _ line p'); [exact C1| |lia].
      apply IH; [constructor; [exact El|exact C2]|].
      eapply sf_weaken; [exact HS|]. lia.
    + destruct (close open pos None) as [[em1 o1] p1] eqn:E.
      destruct (close_spec _ _ _ _ _ _ _ HL E) as [C1 [_ [_ C4]]]. rewrite (C4 eq_refl). cbn [close app].
      eapply (seg_gf_app em1 line pos p1 _ (t_line tk) 0); [exact C1| |lia].
      apply IH; [constructor; [reflexivity|constructor]|].
      eapply sf_weaken; [exact HS|]. lia.
Qed.

Lemma flatten_good : forall l, sf 0 0 l -> gf 0 0 (flatten l).
Proof. intros l H. unfold flatten. apply sweep_spec; [constructor|exact H]. Qed.

(** one level of the lexicographic comparison [kle] *)
Lemma lex_total : forall (x y : N) (k k' : bool), (k = false -> k' = true) ->
  (if x <? y then true else if y <? x then false else k) = false ->
  (if y <? x then true else if x <? y then false else k') = true.
Proof. intros x y k k' H. destruct (N.ltb_spec x y), (N.ltb_spec y x); auto; discriminate. Qed.

Lemma kle_total : forall a b, kle a b = false -> kle b a = true.
Proof.
  intros a b. unfold kle. do 4 apply lex_total. intros H%N.leb_gt. apply N.leb_le. lia.
Qed.

Lemma kle_start : forall a b, kle a b = true -> from (t_line a) (t_col a) b.
Proof.
  intros a b. unfold kle, from.
  destruct (N.ltb_spec (t_line a) (t_line b)); [intros; lia|].
  destruct (N.ltb_spec (t_line b) (t_line a)); [discriminate|].
  destruct (N.ltb_spec (t_col a) (t_col b)); [intros; lia|].
  destruct (N.ltb_spec (t_col b) (t_col a)); [discriminate|].
  intros _. lia.
Qed.

(** [kle] is total and refines the order of starts *)
Lemma insert_sf : forall x l L p, from L p x -> sf L p l -> sf L p (insert x l).
Proof.
  intros x l. induction l as [|y r IH]; intros L p Hx H; cbn [insert].
  - split; [exact Hx|exact I].
  - destruct H as [Hy Hr]. destruct (kle x y) eqn:E.
    + split; [exact Hx|]. split; [exact (kle_start _ _ E)|exact Hr].
    + split; [exact Hy|]. apply IH; [apply kle_start, kle_total, E|exact Hr].
Qed.

Lemma sort_sf : forall l, sf 0 0 (sort l).
Proof.
  induction l as [|x r IH]; cbn [sort]; [exact I|]. apply insert_sf; [unfold from; lia|exact IH].
Qed.

Lemma insert_perm : forall x l, Permutation (insert x l) (x :: l).
Proof.
  intros x l. induction l as [|y r IH]; cbn [insert]; [apply Permutation_refl|].
  destruct (kle x y); [apply Permutation_refl|].
  eapply Permutation_trans; [apply perm_skip; exact IH|apply perm_swap].
Qed.

Lemma sort_perm : forall l, Permutation (sort l) l.
Proof.
  induction l as [|x r IH]; cbn [sort]; [apply Permutation_refl|].
  eapply Permutation_trans; [apply insert_perm|apply perm_skip; exact IH].
Qed.

Lemma decode_encode : forall l L p, sf L p l -> decode L p (encode L p l) = l.
Proof.
  induction l as [|a r IH]; intros L p H; cbn [encode decode]; [reflexivity|].
  destruct H as [HB HS]. unfold from in HB.
  replace (L + (t_line a - L)) with (t_line a) by lia.
  assert (E : (if t_line a - L =? 0 then p + (t_col a - (if t_line a - L =? 0 then p else 0))
               else t_col a - (if t_line a - L =? 0 then p else 0)) = t_col a).
  { destruct (N.eqb_spec (t_line a - L) 0); lia. }
  rewrite E, (IH _ _ HS). destruct a; reflexivity.
Qed.

Fixpoint no_overlap (l : list tok) : Prop :=
  match l with
  | a :: ((b :: _) as r) => (t_line a < t_line b \/ (t_line a = t_line b /\ tend a <= t_col b)) /\ no_overlap r
  | _ => True
  end.

Lemma gf_no_overlap : forall l L p, gf L p l -> no_overlap l /\ Forall (fun t => 0 < t_len t) l.
Proof.
  induction l as [|a r IH]; intros L p H; [split; [exact I|constructor]|].
  destruct H as [H1 [H2 H3]]. destruct (IH _ _ H3) as [N1 N2].
  split; [|constructor; assumption].
  destruct r as [|b r']; [exact I|]. split; [|exact N1].
  destruct H3 as [H4 _]. unfold from in H4. lia.
Qed.

Lemma close_single : forall a pos limit,
  pos <= t_col a -> 0 < t_len a ->
  match limit with Some l => tend a <= l | None => True end ->
  close [a] pos limit = ([a], [], tend a).
Proof.
  intros a pos limit Hp Hn Hl. cbn [close].
  assert ((match limit with Some l => l <? tend a | None => false end) = false) as Es.
  { destruct limit as [l|]; [|reflexivity]. destruct (N.ltb_spec l (tend a)); [lia|reflexivity]. }
  rewrite Es.
  replace (N.max (t_col a) pos) with (t_col a) by lia.
  assert (t_col a <? tend a = true) as Elt by (apply N.ltb_lt; unfold tend; lia).
  rewrite Elt. cbn [app].
  replace (tend a - t_col a) with (t_len a) by (unfold tend; lia).
  destruct a; reflexivity.
Qed.

Lemma sweep_id : forall input a pos,
  pos <= t_col a -> 0 < t_len a -> gf (t_line a) (tend a) input ->
  sweep input [a] (t_line a) pos = a :: input.
Proof.
  induction input as [|b r IH]; intros a pos Hp Hn G; cbn [sweep].
  - rewrite (close_single a pos None Hp Hn I). reflexivity.
  - destruct G as [G1 [G2 G3]]. unfold from in G1.
    destruct (N.eqb_spec (t_line b) (t_line a)) as [El|Nl].
    + assert (tend a <= t_col b) as Hb by lia.
      rewrite (close_single a pos (Some (t_col b)) Hp Hn Hb). cbn [app].
      f_equal. rewrite <- El. apply IH; [exact Hb|exact G2|exact G3].
    + rewrite (close_single a pos None Hp Hn I). cbn [close app].
      f_equal. apply IH; [lia|exact G2|exact G3].
Qed.

Lemma flatten_id : forall l, gf 0 0 l -> flatten l = l.
Proof.
  intros [|a r] G; [reflexivity|].
  destruct G as [G1 [G2 G3]].
  unfold flatten. cbn [sweep].
  destruct (N.eqb_spec (t_line a) 0) as [Z|NZ]; cbn [close app].
  - rewrite <- Z. apply sweep_id; [lia|exact G2|exact G3].
  - apply sweep_id; [lia|exact G2|exact G3].
Qed.

Lemma decode_build : forall data, decode 0 0 (build data) = flatten (sort data).
Proof. intros data. apply decode_encode, gf_sf, flatten_good, sort_sf. Qed.

Lemma build_no_overlap : forall data,
  no_overlap (decode 0 0 (build data)) /\ Forall (fun t => 0 < t_len t) (decode 0 0 (build data)).
Proof. intros data. rewrite decode_build. eapply gf_no_overlap, flatten_good, sort_sf. Qed.

Definition disjoint (a b : tok) : Prop :=
  t_line a <> t_line b \/ tend a <= t_col b \/ tend b <= t_col a.

Lemma sf_disjoint_gf : forall l L p,
  sf L p l -> NoDup l ->
  (forall a b, In a l -> In b l -> a <> b -> disjoint a b) ->
  (forall a, In a l -> 0 < t_len a) ->
  gf L p l.
Proof.
  induction l as [|a r IH]; intros L p S ND D P; [exact I|].
  destruct S as [HB S]. inversion ND as [|x y Hnin ND']; subst x y.
  split; [exact HB|]. split; [apply P; left; reflexivity|].
  specialize (IH _ _ S ND' (fun x y Hx Hy => D x y (or_intror Hx) (or_intror Hy))
                (fun x Hx => P x (or_intror Hx))).
  (* the next token starts at or after [a]; being disjoint from it, it starts after its end *)
  destruct r as [|b r']; [exact I|]. destruct IH as [Hb G]. split; [|exact G].
  assert (a <> b) as Hab by (intros ->; apply Hnin; left; reflexivity).
  pose proof (D a b (or_introl eq_refl) (or_intror (or_introl eq_refl)) Hab) as Dab.
  pose proof (P b (or_intror (or_introl eq_refl))) as Pb.
  unfold disjoint, tend, from in *. lia.
Qed.

Lemma build_disjoint_input : forall data,
  NoDup data ->
  (forall a b, In a data -> In b data -> a <> b -> disjoint a b) ->
  (forall a, In a data -> 0 < t_len a) ->
  decode 0 0 (build data) = sort data.
Proof.
  intros data ND D P. rewrite decode_build. apply flatten_id.
  pose proof (sort_perm data) as PM.
  apply sf_disjoint_gf.
  - apply sort_sf.
  - eapply Permutation_NoDup; [apply Permutation_sym; exact PM|exact ND].
  - intros a b Ha Hb. apply D; eapply Permutation_in; eassumption.
  - intros a Ha. apply P. eapply Permutation_in; eassumption.
Qed.

(** de-duplication by start offset plus sorting alone (the code before the fix) does not prevent overlap:
    a long token and a token starting inside it *)
Lemma overlap_possible_refuted : exists data,
  NoDup (map (fun t => (t_line t, t_col t)) data) /\ ~ no_overlap (sort data).
Proof.
  exists [mk 0 0 20 17 0; mk 0 10 4 15 0]. split.
  - cbn. constructor; [intros [H|[]]; discriminate|]. constructor; [intros []|constructor].
  - cbn. intros [[H|[_ H]] _]; unfold tend in H; cbn in H; lia.
Qed.

Fixpoint strict_chain_off (c : list (N * N)) : Prop :=
  match c with
  | a :: ((b :: _) as r) => (rcontains b a = true /\ a <> b) /\ strict_chain_off r
  | _ => True
  end.

Lemma strict_chain_snoc : forall l x y,
  strict_chain_off (l ++ [x]) -> rcontains y x = true /\ x <> y ->
  strict_chain_off ((l ++ [x]) ++ [y]).
Proof.
  induction l as [|a l IH]; intros x y H C.
  - cbn. split; [exact C|exact I].
  - destruct l as [|b l'].
    + cbn in *. destruct H as [H1 _]. split; [exact H1|]. split; [exact C|exact I].
    + cbn [app] in *. cbn [strict_chain_off] in *. destruct H as [H1 H2].
      split; [exact H1|]. apply IH; assumption.
Qed.

(** [acc] has the outermost range first: read backwards it is a strict chain *)
Lemma push_growing_strict : forall acc r,
  strict_chain_off (rev acc) -> strict_chain_off (rev (push_growing acc r)).
Proof.
  intros [|l acc] r H; cbn [push_growing]; [exact I|].
  destruct (req r l) eqn:E1; cbn [orb]; [exact H|].
  destruct (rcontains r l) eqn:E2; cbn [negb]; [|exact H].
  cbn [rev] in *. apply strict_chain_snoc; [exact H|]. split; [exact E2|].
  intros <-. unfold req in E1. rewrite !N.eqb_refl in E1. discriminate.
Qed.

Lemma growing_chain_strict : forall rs, strict_chain_off (growing_chain rs).
Proof.
  intros rs. unfold growing_chain.
  enough (forall acc, strict_chain_off (rev acc) -> strict_chain_off (rev (fold_left push_growing rs acc))) as H
    by (apply H; exact I).
  induction rs as [|r rs IH]; intros acc H; cbn [fold_left]; [exact H|].
  apply IH, push_growing_strict, H.
Qed.

Definition PosLe (p q : pos) : Prop := fst p < fst q \/ (fst p = fst q /\ snd p <= snd q).
Definition InDoc (lens : list N) (p : pos) : Prop :=
  exists n, nth_error lens (N.to_nat (fst p)) = Some n /\ snd p <= n.
Definition RangeInDoc (lens : list N) (r : range) : Prop :=
  InDoc lens (fst r) /\ InDoc lens (snd r) /\ PosLe (fst r) (snd r).
Definition Contains (outer inner : range) : Prop :=
  PosLe (fst outer) (fst inner) /\ PosLe (snd inner) (snd outer).

Lemma forallb_Forall : forall (A : Type) (f : A -> bool) (P : A -> Prop) (l : list A),
  (forall x, f x = true <-> P x) -> (forallb f l = true <-> Forall P l).
Proof.
  intros A f P l H. rewrite forallb_forall, Forall_forall. split; intros G x Hx; apply H, G, Hx.
Qed.

Lemma opt_all : forall (A : Type) (o : option A) (f : A -> bool) (P : A -> Prop),
  (forall a, f a = true <-> P a) ->
  (match o with Some a => f a | None => true end = true <-> forall a, o = Some a -> P a).
Proof.
  intros A [a|] f P H.
  - rewrite H. split; [intros G b [= <-]; exact G|intros G; apply G; reflexivity].
  - split; [intros _ b [=]|reflexivity].
Qed.

Lemma opt_ex : forall (A : Type) (o : option A) (f : A -> bool) (P : A -> Prop),
  (forall a, f a = true <-> P a) ->
  (match o with Some a => f a | None => false end = true <-> exists a, o = Some a /\ P a).
Proof.
  intros A [a|] f P H.
  - rewrite H. split; [eauto|intros (b & [= <-] & G); exact G].
  - split; [discriminate|intros (b & [=] & _)].
Qed.

Lemma pos_leb_spec : forall p q, pos_leb p q = true <-> PosLe p q.
Proof.
  intros p q. unfold pos_leb, PosLe.
  rewrite orb_true_iff, andb_true_iff, N.ltb_lt, N.eqb_eq, N.leb_le. reflexivity.
Qed.

Lemma nth_len_spec : forall lens i, nth_len lens i = nth_error lens (N.to_nat i).
Proof.
  intros lens i. unfold nth_len.
  destruct (N.leb_spec (N.of_nat (length lens)) i) as [H|H]; [|reflexivity].
  symmetry. apply nth_error_None. lia.
Qed.

Lemma pos_in_doc_spec : forall lens p, pos_in_doc lens p = true <-> InDoc lens p.
Proof.
  intros lens p. unfold pos_in_doc, InDoc. rewrite nth_len_spec. apply opt_ex. intros n. apply N.leb_le.
Qed.

Lemma range_in_doc_spec : forall lens r, range_in_doc lens r = true <-> RangeInDoc lens r.
Proof.
  intros lens r. unfold range_in_doc, RangeInDoc.
  rewrite !andb_true_iff, !pos_in_doc_spec, pos_leb_spec. tauto.
Qed.

Lemma contains_spec : forall o i, contains o i = true <-> Contains o i.
Proof. intros o i. unfold contains, Contains. rewrite andb_true_iff, !pos_leb_spec. reflexivity. Qed.

Lemma pair_eqb_spec : forall (A B : Type) (fa : A -> A -> bool) (fb : B -> B -> bool),
  (forall x y, fa x y = true <-> x = y) -> (forall x y, fb x y = true <-> x = y) ->
  forall p q : A * B, fa (fst p) (fst q) && fb (snd p) (snd q) = true <-> p = q.
Proof.
  intros A B fa fb Ha Hb [a b] [c d]. cbn [fst snd]. rewrite andb_true_iff, Ha, Hb.
  split; [intros [-> ->]; reflexivity|intros [= -> ->]; auto].
Qed.

Lemma pos_eqb_spec : forall p q : pos, pos_eqb p q = true <-> p = q.
Proof. exact (pair_eqb_spec _ _ _ _ N.eqb_eq N.eqb_eq). Qed.

Lemma range_eqb_spec : forall a b : range, range_eqb a b = true <-> a = b.
Proof. exact (pair_eqb_spec _ _ _ _ pos_eqb_spec pos_eqb_spec). Qed.

Inductive Nested (lens : list N) : option range -> sym -> Prop :=
| Nested_intro : forall parent r sel ch,
    RangeInDoc lens r -> RangeInDoc lens sel -> Contains r sel ->
    (forall p, parent = Some p -> Contains p r) ->
    Forall (Nested lens (Some r)) ch ->
    Nested lens parent (Sym r sel ch).

Lemma symbol_ok_spec : forall lens s parent, symbol_ok lens parent s = true <-> Nested lens parent s.
Proof.
  (* [sym] is nested through [list]: structural recursion by hand, [IH] being applied to elements of [ch] only *)
  intros lens. fix IH 1. intros [r sel ch] parent. cbn [symbol_ok].
  rewrite !andb_true_iff, !range_in_doc_spec, contains_spec.
  rewrite (opt_all _ parent _ (fun p => Contains p r)) by (intros p; apply contains_spec).
  assert (Hch : (fix all (l : list sym) : bool :=
                   match l with [] => true | c :: k => symbol_ok lens (Some r) c && all k end) ch = true
                <-> Forall (Nested lens (Some r)) ch).
  { induction ch as [|c k IHk]; [split; [constructor|reflexivity]|].
    rewrite andb_true_iff, IHk, (IH c (Some r)). split; [intros [A B]; constructor; assumption|].
    intros H. inversion H; subst. split; assumption. }
  rewrite Hch. split.
  - intros [[[[A B] C] D] E]. constructor; assumption.
  - intros H. inversion H; subst. tauto.
Qed.

Lemma symbols_nested_spec : forall lens l,
  symbols_ok lens l = true <-> Forall (Nested lens None) l.
Proof. intros lens l. apply forallb_Forall. intros s. apply symbol_ok_spec. Qed.

Definition FoldValid (lens : list N) (f : fold) : Prop :=
  let '(sl, sc, el, ec) := f in
  exists ns ne,
    nth_error lens (N.to_nat sl) = Some ns /\ nth_error lens (N.to_nat el) = Some ne /\
    sl <= el /\
    (forall c, sc = Some c -> c <= ns) /\ (forall c, ec = Some c -> c <= ne) /\
    PosLe (sl, match sc with Some c => c | None => 0 end) (el, match ec with Some c => c | None => ne end).

Lemma fold_ok_spec : forall lens f, fold_ok lens f = true <-> FoldValid lens f.
Proof.
  intros lens [[[sl sc] el] ec]. unfold fold_ok, FoldValid. rewrite !nth_len_spec.
  destruct (nth_error lens (N.to_nat sl)) as [ns|]; [|split; [discriminate|intros [a [b [E _]]]; discriminate]].
  destruct (nth_error lens (N.to_nat el)) as [ne|]; [|split; [discriminate|intros [a [b [_ [E _]]]]; discriminate]].
  rewrite !andb_true_iff, !N.leb_le, pos_leb_spec. split.
  - intros [[[A B] C] D]. exists ns, ne. repeat split; try reflexivity; try assumption.
    + intros c ->. exact A.
    + intros c ->. exact B.
  - intros [a [b [E1 [E2 [D [A [B C]]]]]]]. inversion E1; inversion E2; subst a b.
    repeat split; try assumption.
    + destruct sc as [c|]; [apply A; reflexivity|lia].
    + destruct ec as [c|]; [apply B; reflexivity|lia].
Qed.

Lemma folds_valid_spec : forall lens l, folds_ok lens l = true <-> Forall (FoldValid lens) l.
Proof. intros lens l. apply forallb_Forall. intros f. apply fold_ok_spec. Qed.

Fixpoint StrictChain (c : list range) : Prop :=
  match c with
  | a :: ((b :: _) as r) => (Contains b a /\ a <> b) /\ StrictChain r
  | _ => True
  end.

Lemma selection_strictly_growing_spec : forall lens c,
  chain_ok lens c = true <-> Forall (RangeInDoc lens) c /\ StrictChain c.
Proof.
  intros lens. induction c as [|a r IH]; cbn [chain_ok].
  - split; [intros _; split; [constructor|exact I]|reflexivity].
  - rewrite !andb_true_iff, IH, range_in_doc_spec, Forall_cons_iff.
    destruct r as [|b r']; [cbn [StrictChain]; tauto|].
    rewrite andb_true_iff, contains_spec, negb_true_iff, <- not_true_iff_false, range_eqb_spec.
    cbn [StrictChain]. tauto.
Qed.

Lemma completion_edit_spec : forall lens cursor r,
  completion_edit_ok lens cursor r = true <->
  RangeInDoc lens r /\ fst (fst r) = fst (snd r) /\ PosLe (fst r) cursor /\ PosLe cursor (snd r).
Proof.
  intros lens cursor r. unfold completion_edit_ok.
  rewrite !andb_true_iff, range_in_doc_spec, N.eqb_eq, !pos_leb_spec. tauto.
Qed.

Definition NoOverlap (a b : range) : Prop := PosLe (snd a) (fst b) \/ PosLe (snd b) (fst a).

Lemma edits_disjoint_spec : forall lens es,
  edits_ok lens es = true <-> Forall (RangeInDoc lens) es /\ ForallOrdPairs NoOverlap es.
Proof.
  intros lens. induction es as [|a r IH]; cbn [edits_ok].
  - split; [intros _; split; constructor|reflexivity].
  - rewrite !andb_true_iff, IH, range_in_doc_spec, Forall_cons_iff.
    rewrite (forallb_Forall _ _ (NoOverlap a)).
    + split; [intros [[A B] [C D]]; split; [split|constructor]; assumption|].
      intros [[A C] B]. inversion B; subst. tauto.
    + intros x. unfold no_overlap_edits, NoOverlap. rewrite orb_true_iff, !pos_leb_spec. reflexivity.
Qed.

Fixpoint TokensValid (lens : list N) (ntypes nmods : N) (ml : bool) (prev : option tok) (l : list tok) : Prop :=
  match l with
  | [] => True
  | t :: r =>
      (t_typ t < ntypes /\ t_mod t < 2 ^ nmods) /\
      (exists n, nth_error lens (N.to_nat (t_line t)) = Some n /\ t_col t <= n /\ (ml = true \/ tend t <= n)) /\
      (forall p, prev = Some p -> t_line p < t_line t \/ (t_line p = t_line t /\ tend p <= t_col t)) /\
      TokensValid lens ntypes nmods ml (Some t) r
  end.

Lemma toks_ok_spec : forall lens ntypes nmods ml l prev,
  toks_ok lens ntypes nmods ml prev l = true <-> TokensValid lens ntypes nmods ml prev l.
Proof.
  intros lens ntypes nmods ml. induction l as [|t r IH]; intros prev; cbn [toks_ok TokensValid].
  - split; [intros _; exact I|reflexivity].
  - rewrite !andb_true_iff, IH, !N.ltb_lt, nth_len_spec.
    rewrite (opt_ex _ _ _ (fun n => t_col t <= n /\ (ml = true \/ tend t <= n)))
      by (intros n; rewrite andb_true_iff, orb_true_iff, !N.leb_le; reflexivity).
    rewrite (opt_all _ prev _ (fun p => t_line p < t_line t \/ (t_line p = t_line t /\ tend p <= t_col t)))
      by (intros p; rewrite orb_true_iff, andb_true_iff, N.ltb_lt, N.eqb_eq, N.leb_le; reflexivity).
    tauto.
Qed.

Lemma tokens_valid_spec : forall lens ntypes nmods ml data,
  tokens_ok lens ntypes nmods ml data = true <->
  exists g, group5 data = Some g /\ TokensValid lens ntypes nmods ml None (decode 0 0 g).
Proof.
  intros lens ntypes nmods ml data. unfold tokens_ok. apply opt_ex. intros g. apply toks_ok_spec.
Qed.

Lemma line_lens_length : forall t cur off,
  length (line_lens_from t cur) = S (length (C23.Proofs.starts t off)).
Proof.
  induction t as [|c r IH]; intros cur off; cbn [line_lens_from C23.Proofs.starts]; [reflexivity|].
  destruct (is_break c r); cbn [length]; rewrite (IH _ (off + blen c)); reflexivity.
Qed.

Lemma line_lens_count : forall t, N.of_nat (length (line_lens t)) = line_count (parse t).
Proof.
  intros t. unfold line_lens, line_count. rewrite C23.Proofs.parse_eq, (line_lens_length t 0 0). reflexivity.
Qed.

Lemma document_lsp_range_refuted : forall t, range_in_doc (line_lens t) (document_lsp_range t) = false.
Proof.
  intros t. unfold range_in_doc, document_lsp_range. cbn [fst snd].
  assert (pos_in_doc (line_lens t) (line_count (parse t), 0) = false) as E.
  { unfold pos_in_doc, nth_len. cbn [fst snd]. rewrite line_lens_count, N.leb_refl. reflexivity. }
  rewrite E. rewrite andb_false_r. reflexivity.
Qed.

Lemma ranges_checked_spec : forall (t : text) (rs : list range),
  forallb (fun r => range_in_doc (line_lens t) r || range_eqb r (document_lsp_range t)) rs = true <->
  Forall (fun r => RangeInDoc (line_lens t) r \/ r = document_lsp_range t) rs.
Proof.
  intros t rs. apply forallb_Forall. intros r.
  rewrite orb_true_iff, range_in_doc_spec, range_eqb_spec. reflexivity.
Qed.
