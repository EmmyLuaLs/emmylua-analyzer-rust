(** C26/Props.v — property theorems only.  Each is closed by [exact] of a lemma of Proofs.v; the example by evaluation.

    PROVED about the code (all inputs): the semantic-token encoder [SemanticBuilder::build] and the selection-range
    chain builder.  For document symbols, folding ranges, completion edits and workspace edits the theorems
    below give the MEANING of the executable validity predicates that the check runs on the real server's
    results: that is a verified checker, not a proof that the handlers always produce valid results. *)
From EV Require Import C26.Model C26.Proofs.
Local Open Scope N_scope.

(** Whatever tokens the handlers push, a client that decodes the emitted deltas reads exactly the sorted and
    flattened token list: the delta encoding loses nothing. *)
Theorem decode_build : forall (data : list tok), decode 0 0 (build data) = flatten (sort data).
Proof. exact Proofs.decode_build. Qed.

(** Whatever tokens the handlers push (overlapping, nested, duplicated, empty), the decoded stream is strictly
    ordered, its tokens never overlap, and none is empty. *)
Theorem build_ordered_no_overlap : forall (data : list tok),
  no_overlap (decode 0 0 (build data)) /\ Forall (fun t => 0 < t_len t) (decode 0 0 (build data)).
Proof. exact Proofs.build_no_overlap. Qed.

(** If the pushed tokens are already non-empty and pairwise disjoint, the client reads exactly those tokens,
    sorted: the overlap repair changes nothing on a well-formed stream. *)
Theorem build_disjoint_input : forall (data : list tok),
  NoDup data ->
  (forall a b, In a data -> In b data -> a <> b -> disjoint a b) ->
  (forall a, In a data -> 0 < t_len a) ->
  decode 0 0 (build data) = sort data.
Proof. exact Proofs.build_disjoint_input. Qed.

(** De-duplicating by start position and sorting alone (what [build] did before the fix) is NOT enough: a long
    token followed by one that starts inside it survives as an overlap.  The real handlers produced this
    (doc comments, multi-line split pieces); replayed on the server before commit "fix: semantic tokens never
    overlap". *)
Theorem overlap_possible_refuted : exists (data : list tok),
  NoDup (map (fun t => (t_line t, t_col t)) data) /\ ~ no_overlap (sort data).
Proof. exact Proofs.overlap_possible_refuted. Qed.

(** The selection-range chain built by [push_growing_range] from ANY sequence of candidate ranges strictly grows
    outward: each range contains the previous one and differs from it. *)
Theorem selection_chain_strict : forall (rs : list (N * N)), strict_chain_off (growing_chain rs).
Proof. exact Proofs.growing_chain_strict. Qed.

(** Meaning of the validity predicates (the verified checker). *)
Theorem symbols_nested_spec : forall (lens : list N) (l : list sym),
  symbols_ok lens l = true <-> Forall (Nested lens None) l.
Proof. exact Proofs.symbols_nested_spec. Qed.

Theorem folds_valid_spec : forall (lens : list N) (l : list fold),
  folds_ok lens l = true <-> Forall (FoldValid lens) l.
Proof. exact Proofs.folds_valid_spec. Qed.

Theorem selection_strictly_growing_spec : forall (lens : list N) (c : list range),
  chain_ok lens c = true <-> Forall (RangeInDoc lens) c /\ StrictChain c.
Proof. exact Proofs.selection_strictly_growing_spec. Qed.

Theorem completion_edit_spec : forall (lens : list N) (cursor : pos) (r : range),
  completion_edit_ok lens cursor r = true <->
  RangeInDoc lens r /\ fst (fst r) = fst (snd r) /\ PosLe (fst r) cursor /\ PosLe cursor (snd r).
Proof. exact Proofs.completion_edit_spec. Qed.

Theorem edits_disjoint_spec : forall (lens : list N) (es : list range),
  edits_ok lens es = true <-> Forall (RangeInDoc lens) es /\ ForallOrdPairs NoOverlap es.
Proof. exact Proofs.edits_disjoint_spec. Qed.

Theorem tokens_valid_spec : forall (lens : list N) (ntypes nmods : N) (ml : bool) (data : list N),
  tokens_ok lens ntypes nmods ml data = true <->
  exists g, group5 data = Some g /\ TokensValid lens ntypes nmods ml None (decode 0 0 g).
Proof. exact Proofs.tokens_valid_spec. Qed.

(** OPEN FINDING (recorded, not repaired: a unit test pins the convention).  The "whole document" range of
    [LuaDocument::get_document_lsp_range] — returned by formatting, incoming calls of a chunk-level caller,
    goto-definition of a module file — is NEVER inside its document: its end line does not exist. *)
Theorem document_lsp_range_refuted : forall (t : text), range_in_doc (line_lens t) (document_lsp_range t) = false.
Proof. exact Proofs.document_lsp_range_refuted. Qed.

(** The generic walk over ALL result kinds (verified checker): every observed range or position lies inside the
    document with start <= end — the full statement minus the one named known class above. *)
Theorem ranges_checked_spec : forall (t : text) (rs : list range),
  forallb (fun r => range_in_doc (line_lens t) r || range_eqb r (document_lsp_range t)) rs = true <->
  Forall (fun r => RangeInDoc (line_lens t) r \/ r = document_lsp_range t) rs.
Proof. exact Proofs.ranges_checked_spec. Qed.

(** non-vacuity: a comment token with a nested tag and a same-start duplicate is split around the inner token;
    the checkers accept a valid and reject an invalid instance of every kind *)
Example build_example :
  decode 0 0 (build [mk 0 0 20 17 0; mk 0 10 4 15 0; mk 0 0 3 21 0; mk 2 5 0 1 0; mk 1 2 3 8 1])
  = [mk 0 0 3 21 0; mk 0 3 7 17 0; mk 0 10 4 15 0; mk 0 14 6 17 0; mk 1 2 3 8 1]
  /\ growing_chain [(4, 6); (4, 6); (2, 9); (3, 5); (0, 20)] = [(4, 6); (2, 9); (0, 20)]
  /\ (let lens := line_lens [97; 128512; 98; 13; 10; 99; 100; 10] in
      lens = [5; 2; 0]
      /\ symbols_ok lens [Sym ((0, 0), (1, 2)) ((0, 1), (0, 3)) [Sym ((1, 0), (1, 2)) ((1, 0), (1, 1)) []]] = true
      /\ symbols_ok lens [Sym ((0, 0), (0, 3)) ((0, 1), (0, 3)) [Sym ((1, 0), (1, 2)) ((1, 0), (1, 1)) []]] = false
      /\ folds_ok lens [(0, None, 1, None)] = true /\ folds_ok lens [(1, None, 0, None)] = false
      /\ folds_ok lens [(0, None, 3, None)] = false
      /\ chain_ok lens [((0, 1), (0, 2)); ((0, 0), (0, 4)); ((0, 0), (1, 2))] = true
      /\ chain_ok lens [((0, 1), (0, 2)); ((0, 1), (0, 2))] = false
      /\ completion_edit_ok lens (0, 2) ((0, 1), (0, 4)) = true /\ completion_edit_ok lens (1, 0) ((0, 1), (1, 1)) = false
      /\ edits_ok lens [((0, 0), (0, 1)); ((0, 1), (0, 1)); ((0, 1), (0, 3)); ((1, 0), (1, 2))] = true
      /\ edits_ok lens [((0, 0), (0, 2)); ((0, 1), (0, 3))] = false
      /\ tokens_ok lens 24 10 false [0; 0; 1; 8; 0; 0; 1; 2; 18; 1; 1; 0; 2; 8; 512] = true
      /\ tokens_ok lens 24 10 false [0; 0; 3; 8; 0; 0; 1; 2; 18; 1] = false
      /\ tokens_ok lens 24 10 false [0; 0; 1; 24; 0] = false
      /\ tokens_ok lens 24 10 false [0; 4; 9999; 8; 0] = false).
Proof. vm_compute. repeat split; reflexivity. Qed.
