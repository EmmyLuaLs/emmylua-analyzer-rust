(** C32/Proofs.v — lemmas: the nested form does not depend on the hash iteration order; flat and nested
    spellings denote the same settings; merging lets the later file win and appends arrays without
    duplicates.  Model: C31/Model.v. *)
From EV Require Import Base.JsonFacts C31.Model C31.Proofs C32.Spec.
Local Open Scope N_scope.

(** what one [sp] does to the slot of its first key: [None] = leave the map alone *)
Definition slot (rest : list text) (v : json) (o : option json) : option json :=
  match rest with
  | [] => if holds_obj o then None else Some v
  | _ :: _ => Some (JObj (sp rest v (sub_obj o)))
  end.

Definition upd (k : text) (o : option json) (m : list (text * json)) : list (text * json) :=
  match o with Some x => bt_insert k x m | None => m end.

Lemma sp_cons : forall k rest v m, sp (k :: rest) v m = upd k (slot rest v (bt_get k m)) m.
Proof.
  intros k rest v m. cbn [sp]. unfold slot, upd. destruct rest; [destruct (holds_obj (bt_get k m))|]; reflexivity.
Qed.

Lemma bt_get_upd_other : forall k k' o m, k <> k' -> bt_get k (upd k' o m) = bt_get k m.
Proof. intros k k' [x|] m H; cbn [upd]; [apply bt_get_insert_other; exact H|reflexivity]. Qed.

Lemma upd_comm : forall k1 k2 o1 o2 m, k1 <> k2 -> upd k1 o1 (upd k2 o2 m) = upd k2 o2 (upd k1 o1 m).
Proof.
  intros k1 k2 [x1|] [x2|] m H; cbn [upd]; try reflexivity. apply bt_insert_comm. exact H.
Qed.

Lemma holds_obj_false_sub : forall o, holds_obj o = false -> sub_obj o = [].
Proof. intros [[| | | | |x]|]; cbn; intros H; try reflexivity. discriminate. Qed.

(** a leaf at [k] against a key that goes on below [k] *)
Lemma sp_comm_leaf : forall k a r v1 v2 m, is_obj v1 = false ->
  sp [k] v1 (sp (k :: a :: r) v2 m) = sp (k :: a :: r) v2 (sp [k] v1 m).
Proof.
  intros k a r v1 v2 m Hv1. rewrite !sp_cons. cbn [slot].
  assert (Hs1 : sub_obj (Some v1) = []) by (destruct v1; try reflexivity; discriminate).
  destruct (holds_obj (bt_get k m)) eqn:Ho; cbn [upd].
  - rewrite bt_get_insert_same. reflexivity.
  - rewrite !bt_get_insert_same. cbn [holds_obj is_obj upd].
    rewrite Hs1, (holds_obj_false_sub _ Ho), bt_insert_insert_same. reflexivity.
Qed.

(** two different keys can be set in either order (leaves are never objects: [flatten_object] descends
    into every object) *)
Lemma sp_comm : forall ks1 ks2 v1 v2 m, ks1 <> ks2 -> is_obj v1 = false -> is_obj v2 = false ->
  sp ks1 v1 (sp ks2 v2 m) = sp ks2 v2 (sp ks1 v1 m).
Proof.
  induction ks1 as [|k1 r1 IH]; intros ks2 v1 v2 m Hne Hv1 Hv2; [reflexivity|].
  destruct ks2 as [|k2 r2]; [reflexivity|].
  destruct (text_eq_dec k1 k2) as [->|Hk].
  - destruct r1 as [|a1 r1']; destruct r2 as [|a2 r2']; [congruence| | |].
    + apply sp_comm_leaf. exact Hv1.
    + symmetry. apply sp_comm_leaf. exact Hv2.
    + rewrite !sp_cons. cbn [slot upd]. rewrite !bt_get_insert_same. cbn [sub_obj].
      rewrite !bt_insert_insert_same. f_equal. f_equal. apply IH; congruence.
  - rewrite !sp_cons, (bt_get_upd_other k1 k2), (bt_get_upd_other k2 k1) by congruence.
    apply upd_comm. exact Hk.
Qed.

Lemma split_dot_nonempty : forall t, split_dot t <> [].
Proof.
  induction t as [|c r IH]; cbn [split_dot]; [discriminate|].
  destruct (c =? DOT); [discriminate|]. destruct (split_dot r); discriminate.
Qed.

Lemma join_split : forall t, join_dot (split_dot t) = t.
Proof.
  induction t as [|c r IH]; cbn [split_dot]; [reflexivity|].
  pose proof (split_dot_nonempty r) as Hne. destruct (split_dot r) as [|s ss]; [contradiction|].
  cbn [join_dot] in IH. destruct (N.eqb_spec c DOT) as [->|_]; cbn [join_dot app]; [|destruct ss];
    rewrite <- IH; reflexivity.
Qed.

Lemma split_dot_inj : forall a b, split_dot a = split_dot b -> a = b.
Proof. intros a b H. rewrite <- (join_split a), <- (join_split b), H. reflexivity. Qed.

Lemma split_dot_app : forall a b, split_dot (a ++ DOT :: b) = split_dot a ++ split_dot b.
Proof.
  induction a as [|c r IH]; intros b; cbn [app split_dot]; [rewrite N.eqb_refl; reflexivity|].
  rewrite IH. destruct (c =? DOT); [reflexivity|].
  pose proof (split_dot_nonempty r) as Hne. destruct (split_dot r); [contradiction|reflexivity].
Qed.

Definition leaves_ok (it : hmap) : Prop := Forall (fun kv => is_obj (snd kv) = false) it.

Lemma ins_comm : forall m x y, fst x <> fst y -> is_obj (snd x) = false -> is_obj (snd y) = false ->
  ins (ins m x) y = ins (ins m y) x.
Proof.
  intros m x y Hk Hx Hy. unfold ins. apply sp_comm; [|exact Hy|exact Hx].
  intros H. apply split_dot_inj in H. congruence.
Qed.

Lemma fold_ins_perm : forall it it', Permutation it it' ->
  NoDup (map fst it) -> leaves_ok it -> forall m, fold_left ins it m = fold_left ins it' m.
Proof.
  induction 1 as [|x l l' HP IH|x y l|l l' l'' HP1 IH1 HP2 IH2]; intros Hnd Hl m.
  - reflexivity.
  - cbn [fold_left]. cbn [map] in Hnd. inversion Hnd; subst. inversion Hl; subst. apply IH; assumption.
  - cbn [fold_left]. cbn [map] in Hnd. inversion Hnd as [|? ? Hnotin Hnd']; subst.
    inversion Hl as [|? ? Hy Hl']; subst. inversion Hl' as [|? ? Hx Hl'']; subst.
    rewrite (ins_comm m y x); [reflexivity| |assumption|assumption].
    intros E. apply Hnotin. cbn [map In]. left. symmetry. exact E.
  - rewrite IH1 by assumption. apply IH2.
    + eapply Permutation_NoDup; [apply Permutation_map; exact HP1|exact Hnd].
    + unfold leaves_ok in *. eapply Permutation_Forall; eassumption.
Qed.

Definition hmi (c : hmap) (kv : text * json) : hmap := hm_insert (fst kv) (snd kv) c.

Lemma flat_entries_obj_cons : forall p k x r,
  flat_entries p (JObj ((k, x) :: r)) = flat_entries (new_key p k) x ++ flat_entries p (JObj r).
Proof. reflexivity. Qed.

Lemma flatten_object_obj_cons : forall p k x r cfg,
  flatten_object p (JObj ((k, x) :: r)) cfg = flatten_object p (JObj r) (flatten_object (new_key p k) x cfg).
Proof. reflexivity. Qed.

Lemma flatten_fold : forall v p cfg, flatten_object p v cfg = fold_left hmi (flat_entries p v) cfg.
Proof.
  induction v using json_ind'; intros p cfg; try reflexivity.
  revert cfg. induction H as [|[k x] m Hx Hm IH]; intros cfg; [reflexivity|].
  rewrite flatten_object_obj_cons, flat_entries_obj_cons, fold_left_app.
  cbn [snd] in Hx. rewrite <- Hx. apply IH.
Qed.

Lemma flat_entries_leaves : forall v p, leaves_ok (flat_entries p v).
Proof.
  induction v using json_ind'; intros p; try (repeat constructor).
  unfold leaves_ok. induction H as [|[k x] m Hx Hm IH]; [constructor|].
  rewrite flat_entries_obj_cons. apply Forall_app. split; [apply Hx|apply IH].
Qed.

Lemma hm_insert_keys : forall k v m k', In k' (map fst (hm_insert k v m)) <-> k' = k \/ In k' (map fst m).
Proof.
  intros k v m k'. induction m as [|[k2 v2] r IH]; cbn [hm_insert map fst In].
  - intuition.
  - destruct (text_eqb_spec k k2) as [->|Hne]; cbn [map fst In]; [intuition|]. rewrite IH. intuition.
Qed.

Lemma hm_insert_nodup : forall k v m, NoDup (map fst m) -> NoDup (map fst (hm_insert k v m)).
Proof.
  intros k v. induction m as [|[k2 v2] r IH]; cbn [hm_insert map fst]; intros Hnd.
  - constructor; [intros []|constructor].
  - inversion Hnd as [|? ? Hnotin Hnd']; subst.
    destruct (text_eqb_spec k k2) as [->|Hne]; cbn [map fst].
    + constructor; assumption.
    + constructor; [|apply IH; exact Hnd'].
      rewrite hm_insert_keys. intros [E|E]; [congruence|contradiction].
Qed.

Lemma hm_insert_leaves : forall k v m, is_obj v = false -> leaves_ok m -> leaves_ok (hm_insert k v m).
Proof.
  intros k v m Hv. unfold leaves_ok. induction m as [|[k2 v2] r IH]; cbn [hm_insert]; intros Hl.
  - constructor; [exact Hv|constructor].
  - inversion Hl; subst. destruct (text_eqb k k2); constructor; auto.
Qed.

Lemma fold_hmi_inv : forall l cfg, leaves_ok l -> NoDup (map fst cfg) -> leaves_ok cfg ->
  NoDup (map fst (fold_left hmi l cfg)) /\ leaves_ok (fold_left hmi l cfg).
Proof.
  induction l as [|[k v] l IH]; intros cfg Hl Hnd Hc; cbn [fold_left]; [split; assumption|].
  inversion Hl; subst. apply IH; [assumption| |].
  - apply hm_insert_nodup. exact Hnd.
  - apply hm_insert_leaves; assumption.
Qed.

Lemma parse_fold : forall v, parse v = fold_left hmi (flat_entries [] v) [].
Proof. intros v. unfold parse. apply flatten_fold. Qed.

Lemma parse_inv : forall v, NoDup (map fst (parse v)) /\ leaves_ok (parse v).
Proof.
  intros v. rewrite parse_fold.
  apply (fold_hmi_inv (flat_entries [] v) []); [apply flat_entries_leaves|constructor|constructor].
Qed.

Definition parse_nodup v : NoDup (map fst (parse v)) := proj1 (parse_inv v).
Definition parse_leaves v : leaves_ok (parse v) := proj2 (parse_inv v).

Lemma hm_insert_fresh : forall k v m, ~ In k (map fst m) -> hm_insert k v m = m ++ [(k, v)].
Proof.
  intros k v. induction m as [|[k2 v2] r IH]; cbn [hm_insert map fst In app]; intros Hn; [reflexivity|].
  destruct (text_eqb_spec k k2) as [->|Hne]; [exfalso; apply Hn; left; reflexivity|].
  rewrite IH; [reflexivity|]. intros Hin. apply Hn. right. exact Hin.
Qed.

Lemma fold_hmi_nodup : forall l cfg, NoDup (map fst (cfg ++ l)) -> fold_left hmi l cfg = cfg ++ l.
Proof.
  induction l as [|[k v] l IH]; intros cfg Hnd; cbn [fold_left]; [rewrite app_nil_r; reflexivity|].
  unfold hmi at 2. cbn [fst snd]. rewrite hm_insert_fresh.
  - rewrite IH; rewrite <- app_assoc; [reflexivity|exact Hnd].
  - rewrite map_app in Hnd. cbn [map fst] in Hnd. apply NoDup_remove_2 in Hnd.
    intros Hin. apply Hnd. apply in_or_app. left. exact Hin.
Qed.

Lemma parse_settings : forall v, NoDup (map fst (flat_entries [] v)) -> parse v = flat_entries [] v.
Proof. intros v H. rewrite parse_fold. apply (fold_hmi_nodup (flat_entries [] v) []). exact H. Qed.

Lemma normal_form_perm : forall it it', Permutation it it' -> NoDup (map fst it) -> leaves_ok it ->
  to_emmyrc_json it = to_emmyrc_json it'.
Proof.
  intros it it' HP Hnd Hl. rewrite !to_emmyrc_json_fold. rewrite (fold_ins_perm it it' HP Hnd Hl). reflexivity.
Qed.

Lemma normal_form_iter : forall v it, Permutation it (parse v) -> to_emmyrc_json it = to_emmyrc_json (parse v).
Proof.
  intros v it HP. symmetry. apply normal_form_perm.
  - apply Permutation_sym. exact HP.
  - apply parse_nodup.
  - apply parse_leaves.
Qed.

Lemma new_key_assoc : forall p k1 k2, (p <> [] \/ k1 <> []) ->
  new_key (new_key p k1) k2 = new_key p (k1 ++ DOT :: k2).
Proof.
  intros [|c p] k1 k2 H; cbn [new_key].
  - destruct k1 as [|c1 k1]; [destruct H; congruence|]. reflexivity.
  - cbn [new_key app]. f_equal. rewrite <- app_assoc. reflexivity.
Qed.

Lemma flat_entries_respell : forall p k1 k2 v, (p <> [] \/ k1 <> []) ->
  flat_entries p (JObj [(k1 ++ DOT :: k2, v)]) = flat_entries p (JObj [(k1, JObj [(k2, v)])]).
Proof.
  intros p k1 k2 v H. rewrite !flat_entries_obj_cons. rewrite (new_key_assoc p k1 k2 H).
  cbn [flat_entries]. rewrite !app_nil_r. reflexivity.
Qed.

Lemma flat_entries_app : forall p l1 l2,
  flat_entries p (JObj (l1 ++ l2)) = flat_entries p (JObj l1) ++ flat_entries p (JObj l2).
Proof.
  intros p. induction l1 as [|[k x] l1 IH]; intros l2; [reflexivity|].
  cbn [app]. rewrite !flat_entries_obj_cons, IH, app_assoc. reflexivity.
Qed.

Lemma flat_entries_perm : forall p l l', Permutation l l' ->
  Permutation (flat_entries p (JObj l)) (flat_entries p (JObj l')).
Proof.
  intros p. induction 1 as [|[k x] l l' HP IH|[k x] [k' y] l|l l' l'' HP1 IH1 HP2 IH2].
  - apply Permutation_refl.
  - rewrite !flat_entries_obj_cons. apply Permutation_app_head. exact IH.
  - rewrite !flat_entries_obj_cons. rewrite !app_assoc. apply Permutation_app_tail. apply Permutation_app_comm.
  - eapply Permutation_trans; eassumption.
Qed.

Lemma same_settings : forall v1 v2 it1 it2,
  Permutation it1 (parse v1) -> Permutation it2 (parse v2) -> Permutation (parse v1) (parse v2) ->
  to_emmyrc_json it1 = to_emmyrc_json it2.
Proof.
  intros v1 v2 it1 it2 H1 H2 H12.
  rewrite (normal_form_iter v1 it1 H1), (normal_form_iter v2 it2 H2).
  apply normal_form_perm; [exact H12|apply parse_nodup|apply parse_leaves].
Qed.

Lemma flat_eq_nested : forall lf ln l k1 k2 v it it',
  k1 <> [] ->
  Permutation lf ((k1 ++ DOT :: k2, v) :: l) ->
  Permutation ln ((k1, JObj [(k2, v)]) :: l) ->
  NoDup (map fst (settings (JObj lf))) ->
  Permutation it (parse (JObj lf)) -> Permutation it' (parse (JObj ln)) ->
  to_emmyrc_json it = to_emmyrc_json it'.
Proof.
  intros lf ln l k1 k2 v it it' Hk Hf Hn Hnd Hit Hit'.
  assert (HS : Permutation (settings (JObj lf)) (settings (JObj ln))).
  { unfold settings.
    eapply Permutation_trans; [apply flat_entries_perm; exact Hf|].
    eapply Permutation_trans; [|apply flat_entries_perm; apply Permutation_sym; exact Hn].
    change ((k1 ++ DOT :: k2, v) :: l) with ([(k1 ++ DOT :: k2, v)] ++ l).
    change ((k1, JObj [(k2, v)]) :: l) with ([(k1, JObj [(k2, v)])] ++ l).
    rewrite !flat_entries_app. rewrite flat_entries_respell by (right; exact Hk). apply Permutation_refl. }
  assert (Hnd' : NoDup (map fst (settings (JObj ln)))).
  { eapply Permutation_NoDup; [apply Permutation_map; exact HS|exact Hnd]. }
  apply (same_settings (JObj lf) (JObj ln)); try assumption.
  unfold settings in *. rewrite (parse_settings _ Hnd), (parse_settings _ Hnd'). exact HS.
Qed.

Fixpoint mgo (om bm : list (text * json)) : list (text * json) :=
  match om with
  | [] => bm
  | (k, ov) :: r =>
      mgo r (match bt_get k bm with
             | Some bv => bt_insert k (merge_values bv ov) bm
             | None => bt_insert k ov bm
             end)
  end.

Lemma merge_obj : forall bm om, merge_values (JObj bm) (JObj om) = JObj (mgo om bm).
Proof.
  intros bm om. reflexivity.
Qed.

Lemma merge_non_obj_base : forall b om, is_obj b = false -> merge_values b (JObj om) = JObj om.
Proof. intros [| | | | |x] om H; try reflexivity. discriminate. Qed.

Lemma merge_scalar : forall b s, scalar s = true -> merge_values b s = s.
Proof.
  intros b s H. unfold scalar in H. apply andb_prop in H. destruct H as [H1 H2].
  destruct s; try discriminate; destruct b; reflexivity.
Qed.

Definition lt_all (k : text) (r : list (text * json)) : Prop :=
  Forall (fun kv => text_cmp k (fst kv) = Lt) r.

Fixpoint sorted (m : list (text * json)) : Prop :=
  match m with
  | [] => True
  | (k, _) :: r => lt_all k r /\ sorted r
  end.

Lemma bt_get_lt_all : forall k r, lt_all k r -> bt_get k r = None.
Proof.
  intros k r H. induction H as [|[k' v] r Hk Hr IH]; [reflexivity|].
  cbn [bt_get]. cbn [fst] in Hk. unfold text_eqb. rewrite Hk. exact IH.
Qed.

Lemma mgo_get : forall om bm k, sorted om ->
  bt_get k (mgo om bm) =
  match bt_get k om with
  | Some ov => Some (match bt_get k bm with Some bv => merge_values bv ov | None => ov end)
  | None => bt_get k bm
  end.
Proof.
  induction om as [|[k0 ov0] r IH]; intros bm k Hs; [reflexivity|].
  cbn [sorted] in Hs. destruct Hs as [Hlt Hs]. cbn [mgo bt_get]. rewrite IH by exact Hs.
  destruct (text_eqb_spec k k0) as [->|Hne].
  - rewrite (bt_get_lt_all k0 r Hlt). destruct (bt_get k0 bm); rewrite bt_get_insert_same; reflexivity.
  - destruct (bt_get k0 bm); rewrite (bt_get_insert_other k k0) by exact Hne; reflexivity.
Qed.

(** objects reachable through objects have strictly increasing keys *)
Fixpoint wfo (v : json) : Prop :=
  match v with
  | JObj m => sorted m /\
              (fix go (m : list (text * json)) : Prop :=
                 match m with [] => True | (_, x) :: r => wfo x /\ go r end) m
  | _ => True
  end.

Definition wfm (m : list (text * json)) : Prop := sorted m /\ Forall (fun kv => wfo (snd kv)) m.

Lemma wfo_obj : forall m, wfo (JObj m) <-> wfm m.
Proof.
  intros m. unfold wfm. cbn [wfo]. apply and_iff_compat_l.
  induction m as [|[k x] r IH]; [split; constructor|]. rewrite Forall_cons_iff, <- IH. reflexivity.
Qed.

Lemma wfo_non_obj : forall v, is_obj v = false -> wfo v.
Proof. intros [| | | | |m] H; try exact I. discriminate. Qed.

Lemma Forall_bt_get : forall (P : json -> Prop) m k y,
  Forall (fun kv => P (snd kv)) m -> bt_get k m = Some y -> P y.
Proof.
  intros P m k y H. induction H as [|[k' v] r Hv Hr IH]; cbn [bt_get]; [discriminate|].
  destruct (text_eqb k k'); [intros E; inversion E; subst; exact Hv|exact IH].
Qed.

Lemma lookup_cons_obj : forall k r v x, lookup (k :: r) v = Some x ->
  exists m y, v = JObj m /\ bt_get k m = Some y /\ lookup r y = Some x.
Proof.
  intros k r v x H. cbn [lookup] in H. destruct v as [| | | | |m]; cbn [val_get] in H; try discriminate.
  destruct (bt_get k m) as [y|] eqn:E; [|discriminate]. exists m, y. repeat split; assumption.
Qed.

Lemma lookup_merge_cons : forall k r base om, sorted om ->
  lookup (k :: r) (merge_values base (JObj om)) =
  match bt_get k om with
  | Some ov => lookup r (match val_get base k with Some bv => merge_values bv ov | None => ov end)
  | None => lookup (k :: r) base
  end.
Proof.
  intros k r base om Hs. destruct base as [| | | | |bm];
    try (cbn [merge_values lookup val_get]; destruct (bt_get k om); reflexivity).
  rewrite merge_obj. cbn [lookup val_get]. rewrite (mgo_get om bm k Hs).
  destruct (bt_get k om); [destruct (bt_get k bm)|]; reflexivity.
Qed.

Lemma lookup_merge : forall ks ov base x, wfo ov -> lookup ks ov = Some x ->
  lookup ks (merge_values base ov) =
  Some (match lookup ks base with Some b => merge_values b x | None => x end).
Proof.
  induction ks as [|k r IH]; intros ov base x Hw Hl.
  - cbn [lookup] in *. inversion Hl; subst. reflexivity.
  - destruct (lookup_cons_obj k r ov x Hl) as [om [y [-> [Hy Hr]]]].
    apply wfo_obj in Hw. destruct Hw as [Hs Hf].
    rewrite (lookup_merge_cons k r base om Hs), Hy. cbn [lookup].
    destruct (val_get base k) as [bv|]; [|exact Hr].
    apply IH; [exact (Forall_bt_get wfo om k y Hf Hy)|exact Hr].
Qed.

Lemma silent_lookup_none : forall ks v, silent ks v -> lookup ks v = None.
Proof.
  induction ks as [|k r IH]; intros v H; cbn [silent] in H; [contradiction|].
  destruct v as [| | | | |m]; try contradiction. cbn [lookup val_get].
  destruct (bt_get k m) as [x|]; [|reflexivity]. destruct H as [_ [_ H]]. apply IH. exact H.
Qed.

Lemma lookup_merge_silent : forall ks ov base, wfo ov -> silent ks ov ->
  lookup ks (merge_values base ov) = lookup ks base.
Proof.
  induction ks as [|k r IH]; intros ov base Hw Hsil; cbn [silent] in Hsil; [contradiction|].
  destruct ov as [| | | | |om]; try contradiction.
  apply wfo_obj in Hw. destruct Hw as [Hs Hf].
  rewrite (lookup_merge_cons k r base om Hs).
  destruct (bt_get k om) as [x|] eqn:Hx; [|reflexivity].
  destruct Hsil as [_ [_ Hsil]]. cbn [lookup].
  destruct (val_get base k) as [bv|].
  - apply IH; [exact (Forall_bt_get wfo om k x Hf Hx)|exact Hsil].
  - apply silent_lookup_none. exact Hsil.
Qed.

Lemma Forall_bt_insert : forall (P : text * json -> Prop) k v m, P (k, v) -> Forall P m -> Forall P (bt_insert k v m).
Proof.
  intros P k v m Hkv H. induction H as [|[k' v'] r Hx Hr IH]; cbn [bt_insert]; [repeat constructor; exact Hkv|].
  destruct (text_cmp k k'); repeat constructor; assumption.
Qed.

Lemma bt_insert_sorted : forall k v m, sorted m -> sorted (bt_insert k v m).
Proof.
  intros k v. induction m as [|[k' v'] r IH]; intros Hs; cbn [bt_insert]; [split; [constructor|exact I]|].
  cbn [sorted] in Hs. destruct Hs as [Hlt Hs].
  destruct (text_cmp k k') eqn:E; cbn [sorted].
  - apply text_cmp_eq in E. subst k'. split; assumption.
  - split; [|split; assumption]. constructor; [exact E|].
    unfold lt_all in *. eapply Forall_impl; [|exact Hlt]. intros [k2 v2] H2. cbn [fst] in *.
    eapply text_cmp_lt_trans; eassumption.
  - split; [|apply IH; exact Hs]. apply Forall_bt_insert; [cbn [fst]; apply text_cmp_gt_lt; exact E|exact Hlt].
Qed.

Lemma bt_insert_wfm : forall k v m, wfo v -> wfm m -> wfm (bt_insert k v m).
Proof.
  intros k v m Hv [Hs Hf]. split; [apply bt_insert_sorted; exact Hs|].
  apply Forall_bt_insert; [exact Hv|exact Hf].
Qed.

Lemma sub_obj_wfm : forall m k, wfm m -> wfm (sub_obj (bt_get k m)).
Proof.
  intros m k [Hs Hf]. unfold sub_obj. destruct (bt_get k m) as [y|] eqn:E; [|split; [exact I|constructor]].
  destruct y; try (split; [exact I|constructor]). apply wfo_obj. exact (Forall_bt_get wfo m k _ Hf E).
Qed.

Lemma sp_wfm : forall ks v m, is_obj v = false -> wfm m -> wfm (sp ks v m).
Proof.
  induction ks as [|k rest IH]; intros v m Hv Hm; cbn [sp]; [exact Hm|].
  destruct rest as [|k2 rest'].
  - destruct (holds_obj (bt_get k m)); [exact Hm|]. apply bt_insert_wfm; [apply wfo_non_obj; exact Hv|exact Hm].
  - apply bt_insert_wfm; [|exact Hm]. apply wfo_obj. apply IH; [exact Hv|apply sub_obj_wfm; exact Hm].
Qed.

Lemma fold_ins_wfm : forall it m, leaves_ok it -> wfm m -> wfm (fold_left ins it m).
Proof.
  induction it as [|kv it IH]; intros m Hl Hm; cbn [fold_left]; [exact Hm|].
  inversion Hl; subst. apply IH; [assumption|]. unfold ins. apply sp_wfm; assumption.
Qed.

Lemma normal_wfo : forall it n, leaves_ok it -> to_emmyrc_json it = Val n -> wfo n.
Proof.
  intros it n Hl H. rewrite to_emmyrc_json_fold in H. inversion H; subst.
  apply wfo_obj. apply fold_ins_wfm; [exact Hl|split; [exact I|constructor]].
Qed.

Lemma iter_ok_leaves : forall c, iter_ok c -> leaves_ok (snd c).
Proof.
  intros c H. unfold iter_ok in H. unfold leaves_ok.
  eapply Permutation_Forall; [apply Permutation_sym; exact H|apply parse_leaves].
Qed.

Lemma load_raw_fold : forall files partials,
  load_configs_raw files partials = fold_left load_step (config_jsons files partials) (Val (JObj [])).
Proof. intros. unfold load_configs_raw. destruct (config_jsons files partials); reflexivity. Qed.

Lemma load_list_fold : forall cs, load_list cs = fold_left load_step cs (Val (JObj [])).
Proof. intros cs. exact (load_raw_fold [] cs). Qed.

Lemma later_wins_fold : forall cs2 a ks s, Forall iter_ok cs2 ->
  lookup ks a = Some s ->
  (forall c n, In c cs2 -> normal_form c n -> silent ks n) ->
  exists j, fold_left load_step cs2 (Val a) = Val j /\ lookup ks j = Some s.
Proof.
  induction cs2 as [|c cs2 IH]; intros a ks s Hok Ha Hsil; cbn [fold_left].
  - exists a. split; [reflexivity|exact Ha].
  - inversion Hok; subst. unfold load_step at 2. rewrite to_emmyrc_json_fold.
    apply IH; [assumption| |].
    + rewrite lookup_merge_silent; [exact Ha| |].
      * eapply normal_wfo; [apply iter_ok_leaves; eassumption|apply to_emmyrc_json_fold].
      * apply (Hsil c); [left; reflexivity|]. unfold normal_form. apply to_emmyrc_json_fold.
    + intros c' n' Hin Hn. apply (Hsil c'); [right; exact Hin|exact Hn].
Qed.

Lemma later_wins : forall cs1 c cs2 n ks s,
  Forall iter_ok (cs1 ++ c :: cs2) ->
  normal_form c n -> ks <> [] -> lookup ks n = Some s -> scalar s = true ->
  (forall c' n', In c' cs2 -> normal_form c' n' -> silent ks n') ->
  exists j, load_list (cs1 ++ c :: cs2) = Val j /\ lookup ks j = Some s.
Proof.
  intros cs1 c cs2 n ks s Hok Hn Hks Hl Hsc Hsil.
  rewrite load_list_fold, fold_left_app. cbn [fold_left].
  destruct (load_fold_total cs1 (JObj [])) as [a Ha]. rewrite Ha.
  apply Forall_app in Hok. destruct Hok as [_ Hok]. inversion Hok; subst.
  unfold load_step at 2. unfold normal_form in Hn. rewrite Hn.
  apply later_wins_fold; [assumption| |exact Hsil].
  rewrite (lookup_merge ks n a s); [| |exact Hl].
  - destruct (lookup ks a); [rewrite merge_scalar by exact Hsc|]; reflexivity.
  - eapply normal_wfo; [apply iter_ok_leaves; eassumption|exact Hn].
Qed.

Lemma filter_unseen_In : forall ov seen x, In x (filter_unseen seen ov) <-> In x ov /\ ~ In x seen.
Proof.
  induction ov as [|y r IH]; intros seen x; cbn [filter_unseen In]; [tauto|].
  destruct (json_mem y seen) eqn:E.
  - apply json_mem_In in E. rewrite IH. split; [tauto|]. intros [[->|H] Hn]; [contradiction|tauto].
  - apply json_mem_false in E. cbn [In]. rewrite IH. cbn [In].
    destruct (json_eqb_spec y x) as [->|Hne]; tauto.
Qed.

Lemma filter_unseen_nodup : forall ov seen, NoDup (filter_unseen seen ov).
Proof.
  induction ov as [|y r IH]; intros seen; cbn [filter_unseen]; [constructor|].
  destruct (json_mem y seen); [apply IH|]. constructor; [|apply IH].
  rewrite filter_unseen_In. cbn [In]. tauto.
Qed.

Lemma nodup_app : forall (A : Type) (a b : list A), NoDup a -> NoDup b -> (forall x, In x b -> ~ In x a) -> NoDup (a ++ b).
Proof.
  intros A a b Ha Hb Hd. induction Ha as [|x a Hx Ha IH]; cbn [app]; [exact Hb|].
  constructor.
  - intros Hin. apply in_app_or in Hin. destruct Hin as [Hin|Hin]; [contradiction|]. apply (Hd x Hin). left. reflexivity.
  - apply IH. intros y Hy Hin. apply (Hd y Hy). right. exact Hin.
Qed.

Lemma arrays_nodup : forall ba oa, exists added,
  merge_values (JArr ba) (JArr oa) = JArr (ba ++ added) /\
  NoDup added /\
  (forall x, In x added -> ~ In x ba /\ In x oa) /\
  (forall x, In x oa -> In x ba \/ In x added) /\
  (NoDup ba -> NoDup (ba ++ added)).
Proof.
  intros ba oa. exists (filter_unseen ba oa).
  split; [reflexivity|]. split; [apply filter_unseen_nodup|]. split; [|split].
  - intros x Hx. apply filter_unseen_In in Hx. tauto.
  - intros x Hx. rewrite filter_unseen_In, <- json_mem_In. destruct (json_mem x ba); [left; reflexivity|right].
    split; [exact Hx|discriminate].
  - intros Hnd. apply nodup_app; [exact Hnd|apply filter_unseen_nodup|].
    intros x Hx. apply filter_unseen_In in Hx. tauto.
Qed.

Lemma array_again : forall ba, merge_values (JArr ba) (JArr ba) = JArr ba.
Proof.
  intros ba. cbn [merge_values]. destruct (filter_unseen ba ba) as [|x r] eqn:E; [rewrite app_nil_r; reflexivity|].
  assert (H : In x (filter_unseen ba ba)) by (rewrite E; left; reflexivity).
  apply filter_unseen_In in H. tauto.
Qed.

Lemma arrays_at_path : forall ks base ov ba oa, wfo ov -> ks <> [] ->
  lookup ks base = Some (JArr ba) -> lookup ks ov = Some (JArr oa) ->
  lookup ks (merge_values base ov) = Some (JArr (ba ++ filter_unseen ba oa)).
Proof.
  intros ks base ov ba oa Hw _ Hb Ho. rewrite (lookup_merge ks ov base (JArr oa) Hw Ho), Hb. reflexivity.
Qed.

Lemma lookup_sp_new : forall ks s, ks <> [] -> lookup ks (JObj (sp ks s [])) = Some s.
Proof.
  induction ks as [|k r IH]; intros s Hne; [congruence|].
  cbn [sp]. destruct r as [|k2 r'].
  - cbn [bt_get holds_obj bt_insert lookup val_get]. rewrite text_eqb_refl. reflexivity.
  - cbn [bt_get sub_obj bt_insert]. cbn [lookup val_get bt_get]. rewrite text_eqb_refl.
    apply IH. discriminate.
Qed.

(** setting another key [ks'] keeps the scalar at [ks], unless [ks'] goes through [ks] *)
Lemma lookup_sp_preserved : forall ks' ks m v' s,
  lookup ks (JObj m) = Some s -> is_obj s = false -> (forall ext, ks' <> ks ++ ext) ->
  lookup ks (JObj (sp ks' v' m)) = Some s.
Proof.
  induction ks' as [|k' r' IH]; intros ks m v' s Hl Hs Hpre; [exact Hl|].
  destruct ks as [|k r].
  { cbn [lookup] in Hl. inversion Hl; subst. discriminate. }
  rewrite sp_cons. cbn [lookup val_get] in *.
  destruct (text_eq_dec k k') as [<-|Hk].
  2:{ rewrite bt_get_upd_other by exact Hk. exact Hl. }
  destruct (bt_get k m) as [x|] eqn:Hx; [|discriminate].
  destruct r' as [|a' r0'].
  - (* ks' = [k] : a leaf never replaces the object above [ks] *)
    destruct r as [|a r0]; [exfalso; apply (Hpre []); reflexivity|].
    assert (Hobj : is_obj x = true).
    { destruct x; try reflexivity; cbn [lookup val_get] in Hl; discriminate. }
    cbn [slot holds_obj]. rewrite Hobj. cbn [upd]. rewrite Hx. exact Hl.
  - cbn [slot upd]. rewrite bt_get_insert_same.
    destruct r as [|a r0].
    + exfalso. apply (Hpre (a' :: r0')). reflexivity.
    + destruct x as [| | | | |o]; cbn [lookup val_get] in Hl; try discriminate.
      cbn [sub_obj]. apply IH; [exact Hl|exact Hs|].
      intros ext E. apply (Hpre ext). cbn [app]. rewrite E. reflexivity.
Qed.

Lemma fold_ins_preserved : forall rest m ks s,
  lookup ks (JObj m) = Some s -> is_obj s = false ->
  (forall kv, In kv rest -> forall ext, split_dot (fst kv) <> ks ++ ext) ->
  lookup ks (JObj (fold_left ins rest m)) = Some s.
Proof.
  induction rest as [|kv rest IH]; intros m ks s Hl Hs Hpre; cbn [fold_left]; [exact Hl|].
  apply IH; [|exact Hs|].
  - unfold ins. apply lookup_sp_preserved; [exact Hl|exact Hs|]. apply Hpre. left. reflexivity.
  - intros kv' Hin. apply Hpre. right. exact Hin.
Qed.

(** a file that gives the key [k] (in whichever spelling: [parse] has already forgotten it) the value [s],
    and no other key that extends [k], has [s] at the path of [k] in its nested form *)
Lemma setting_in_normal_form : forall v it k s n,
  Permutation it (parse v) -> In (k, s) (parse v) ->
  (forall k' s', In (k', s') (parse v) -> k' <> k -> forall ext, split_dot k' <> split_dot k ++ ext) ->
  to_emmyrc_json it = Val n -> lookup (split_dot k) n = Some s.
Proof.
  intros v it k s n Hit Hin Hpre Hn.
  rewrite (normal_form_iter v it Hit) in Hn.
  (* iterate [(k, s)] first: it is set in the empty object, and none of the other keys disturbs it *)
  destruct (Add_inv _ _ Hin) as [l HP]. apply Permutation_Add, Permutation_sym in HP.
  pose proof (Permutation_NoDup (Permutation_map fst HP) (parse_nodup v)) as Hnd.
  pose proof (Permutation_Forall HP (parse_leaves v)) as Hl.
  inversion Hnd as [|? ? Hk _]; subst. inversion Hl as [|? ? Hs _]; subst.
  rewrite (normal_form_perm _ _ HP (parse_nodup v) (parse_leaves v)), to_emmyrc_json_fold in Hn.
  inversion Hn; subst n. cbn [fold_left]. unfold ins at 2. cbn [fst snd].
  apply fold_ins_preserved; [apply lookup_sp_new; apply split_dot_nonempty|exact Hs|].
  intros [k' s'] Hin' ext. cbn [fst]. apply (Hpre k' s').
  - eapply Permutation_in; [symmetry; exact HP|right; exact Hin'].
  - intros ->. apply Hk. change k with (fst (k, s')). apply in_map. exact Hin'.
Qed.

Lemma cfg_equiv_normal : forall c c', cfg_equiv c c' -> to_emmyrc_json (snd c) = to_emmyrc_json (snd c').
Proof.
  intros [v it] [v' it'] [Hv [H1 H2]]. cbn [fst snd] in *. subst v'.
  rewrite (normal_form_iter v it H1), (normal_form_iter v it' H2). reflexivity.
Qed.

Lemma fold_load_equiv : forall cs cs', Forall2 cfg_equiv cs cs' ->
  forall a, fold_left load_step cs a = fold_left load_step cs' a.
Proof.
  induction 1 as [|c c' cs cs' Hc Hcs IH]; intros a; cbn [fold_left]; [reflexivity|].
  assert (E : load_step a c = load_step a c').
  { unfold load_step. rewrite (cfg_equiv_normal c c' Hc). reflexivity. }
  rewrite E. apply IH.
Qed.

Lemma config_jsons_equiv : forall files files' partials partials',
  Forall2 file_equiv files files' -> Forall2 cfg_equiv partials partials' ->
  Forall2 cfg_equiv (config_jsons files partials) (config_jsons files' partials').
Proof.
  intros files files' partials partials' Hf Hp. unfold config_jsons. apply Forall2_app; [|exact Hp].
  induction Hf as [|f f' fs fs' Hff Hfs IH]; cbn [flat_map]; [constructor|].
  apply Forall2_app; [|exact IH].
  destruct f as [| |v it], f' as [| |v' it']; cbn [file_equiv] in Hff; try contradiction; cbn [file_jsons].
  - constructor.
  - constructor.
  - constructor; [exact Hff|constructor].
Qed.

(** the same files in the same order give the same configuration, whatever order the hash maps are
    iterated in *)
Lemma merge_deterministic : forall (C : Type) (decode : json -> option C) (dflt : C) files files' partials partials',
  Forall2 file_equiv files files' -> Forall2 cfg_equiv partials partials' ->
  load_configs_raw files partials = load_configs_raw files' partials' /\
  load_configs decode dflt files partials = load_configs decode dflt files' partials'.
Proof.
  intros C decode dflt files files' partials partials' Hf Hp.
  assert (H : load_configs_raw files partials = load_configs_raw files' partials').
  { rewrite !load_raw_fold. apply fold_load_equiv. apply config_jsons_equiv; assumption. }
  split; [exact H|]. unfold load_configs. rewrite H. reflexivity.
Qed.

Definition k_diag_enable : text := [100;105;97;103;110;111;115;116;105;99;115;46;101;110;97;98;108;101].
Definition k_diag : text := [100;105;97;103;110;111;115;116;105;99;115].
Definition k_enable : text := [101;110;97;98;108;101].
Definition k_globals : text := [103;108;111;98;97;108;115].
Definition ex_flat (b : bool) : json := JObj [(k_diag_enable, JBool b)].
Definition ex_nested (b : bool) : json := JObj [(k_diag, JObj [(k_enable, JBool b)])].
Definition ex_cfg (v : json) : cfg_json := (v, parse v).
Definition ex_cfg_rev (v : json) : cfg_json := (v, rev (parse v)).

(** the two defects of the unchanged tree, on the repaired model: the later file wins in both orders and
    both spellings; the same globals twice stay one *)
Lemma later_wins_example :
  load_list [ex_cfg (ex_flat false); ex_cfg (ex_nested true)] = Val (ex_nested true) /\
  load_list [ex_cfg (ex_nested true); ex_cfg (ex_flat false)] = Val (ex_nested false) /\
  load_list [ex_cfg (ex_flat false); ex_cfg (ex_flat true)] = Val (ex_nested true) /\
  lookup [k_diag; k_enable] (ex_nested true) = Some (JBool true) /\
  silent [k_diag; k_enable] (JObj [(k_diag, JObj [(k_globals, JArr [])])]).
Proof. vm_compute. repeat split; try reflexivity; intros H; discriminate H. Qed.

Lemma arrays_example :
  let g := JObj [(k_diag, JObj [(k_globals, JArr [JStr [97]])])] in
  let h := JObj [(k_diag ++ DOT :: k_globals, JArr [JStr [98]; JStr [97]; JStr [98]])] in
  load_list [ex_cfg g; ex_cfg g] = Val g /\
  load_list [ex_cfg g; ex_cfg h] = Val (JObj [(k_diag, JObj [(k_globals, JArr [JStr [97]; JStr [98]])])]).
Proof. vm_compute. split; reflexivity. Qed.

Lemma flat_eq_nested_example :
  let v1 := JObj [([97], JObj [([100], JNull)]); ([97;45;99], JNum 2); ([97;46;98], JNum 1)] in
  let v2 := JObj [([97], JObj [([98], JNum 1); ([100], JNull)]); ([97;45;99], JNum 2)] in
  NoDup (map fst (settings v1)) /\ Permutation (parse v1) (parse v2) /\
  to_emmyrc_json (rev (parse v1)) = to_emmyrc_json (parse v2) /\
  to_emmyrc_json (parse v2) = Val v2.
Proof.
  cbv zeta. split; [|split; [|split]].
  - vm_compute. repeat constructor; cbn; intuition discriminate.
  - vm_compute.
    match goal with |- Permutation [?a; ?b; ?c] _ => apply Permutation_sym; exact (Permutation_cons_append [a; b] c) end.
  - vm_compute. reflexivity.
  - vm_compute. reflexivity.
Qed.

Lemma merge_deterministic_example :
  let v := JObj [([97], JNum 1); ([97;46;98], JNum 2); ([99], JNull); ([99;46;100], JNum 3)] in
  Forall2 file_equiv [Parsed v (parse v); Invalid] [Parsed v (rev (parse v)); Invalid] /\
  load_configs_raw [Parsed v (parse v); Invalid] [] = load_configs_raw [Parsed v (rev (parse v)); Invalid] [] /\
  load_configs_raw [Parsed v (parse v); Invalid] [] = Val (JObj [([97], JObj [([98], JNum 2)]); ([99], JObj [([100], JNum 3)])]).
Proof.
  cbv zeta. split; [|split; vm_compute; reflexivity].
  constructor; [|constructor; [exact I|constructor]].
  cbn [file_equiv]. unfold cfg_equiv. cbn [fst snd]. split; [reflexivity|]. split; [apply Permutation_refl|].
  apply Permutation_sym. apply Permutation_rev.
Qed.
