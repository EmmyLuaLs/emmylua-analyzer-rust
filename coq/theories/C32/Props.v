(** C32/Props.v — configuration merging is deterministic and later files win.
    Model: C31/Model.v; vocabulary: C32/Spec.v. *)
From EV Require Import C31.Model C32.Spec C32.Proofs.
Local Open Scope N_scope.

(** Determinism: the same files in the same order (and the same client partials) give the same raw and
    typed configuration, whatever order each flattened hash map is iterated in. *)
Theorem merge_deterministic : forall (C : Type) (decode : json -> option C) (dflt : C)
    (files files' : list file) (partials partials' : list cfg_json),
  Forall2 file_equiv files files' -> Forall2 cfg_equiv partials partials' ->
  load_configs_raw files partials = load_configs_raw files' partials' /\
  load_configs decode dflt files partials = load_configs decode dflt files' partials'.
Proof. exact Proofs.merge_deterministic. Qed.

(** the nested form of one file does not depend on the iteration order *)
Theorem nested_form_order_independent : forall (v : json) (it : hmap),
  Permutation it (parse v) -> to_emmyrc_json it = to_emmyrc_json (parse v).
Proof. exact Proofs.normal_form_iter. Qed.

(** Flat = nested.  An object with the flat entry ["k1.k2": v] (anywhere, [lf]) and an object with the nested
    entry ["k1": {"k2": v}] instead (anywhere, [ln]) and otherwise the same entries have the same nested
    form under any iteration orders — provided the file gives no setting twice. *)
Theorem flat_eq_nested : forall (lf ln l : list (text * json)) (k1 k2 : text) (v : json) (it it' : hmap),
  k1 <> [] ->
  Permutation lf ((k1 ++ DOT :: k2, v) :: l) ->
  Permutation ln ((k1, JObj [(k2, v)]) :: l) ->
  NoDup (map fst (settings (JObj lf))) ->
  Permutation it (parse (JObj lf)) -> Permutation it' (parse (JObj ln)) ->
  to_emmyrc_json it = to_emmyrc_json it'.
Proof. exact Proofs.flat_eq_nested. Qed.

(** the general form: files with the same settings have the same nested form … *)
Theorem same_settings_same_config : forall (v1 v2 : json) (it1 it2 : hmap),
  Permutation it1 (parse v1) -> Permutation it2 (parse v2) -> Permutation (parse v1) (parse v2) ->
  to_emmyrc_json it1 = to_emmyrc_json it2.
Proof. exact Proofs.same_settings. Qed.

(** … and the settings are insensitive to the spelling, at any depth ([p] is the enclosing dotted prefix):
    a flat key is its nested spelling, settings of an object are those of its entries *)
Theorem settings_respell : forall (p k1 k2 : text) (v : json), (p <> [] \/ k1 <> []) ->
  flat_entries p (JObj [(k1 ++ DOT :: k2, v)]) = flat_entries p (JObj [(k1, JObj [(k2, v)])]).
Proof. exact Proofs.flat_entries_respell. Qed.

Theorem settings_app : forall (p : text) (l1 l2 : list (text * json)),
  flat_entries p (JObj (l1 ++ l2)) = flat_entries p (JObj l1) ++ flat_entries p (JObj l2).
Proof. exact Proofs.flat_entries_app. Qed.

Theorem settings_parse : forall (v : json), NoDup (map fst (settings v)) -> parse v = settings v.
Proof. exact Proofs.parse_settings. Qed.

(** a file that sets the key [k] to [s] (in whichever spelling: [parse] has forgotten it) and no key that
    extends [k] has [s] at the path of [k] in its nested form *)
Theorem setting_in_nested_form : forall (v : json) (it : hmap) (k : text) (s n : json),
  Permutation it (parse v) -> In (k, s) (parse v) ->
  (forall k' s', In (k', s') (parse v) -> k' <> k -> forall ext, split_dot k' <> split_dot k ++ ext) ->
  to_emmyrc_json it = Val n -> lookup (split_dot k) n = Some s.
Proof. exact Proofs.setting_in_normal_form. Qed.

(** Later wins.  [c] is the last configuration that has a scalar [s] at the path [ks] of its nested form;
    the later ones are silent about [ks]; then the loaded configuration has [s] at [ks] — whatever the
    earlier ones say, in whichever spelling, under any iteration orders. *)
Theorem later_wins : forall (cs1 : list cfg_json) (c : cfg_json) (cs2 : list cfg_json) (n : json)
    (ks : list text) (s : json),
  Forall iter_ok (cs1 ++ c :: cs2) ->
  normal_form c n -> ks <> [] -> lookup ks n = Some s -> scalar s = true ->
  (forall c' n', In c' cs2 -> normal_form c' n' -> silent ks n') ->
  exists j, load_list (cs1 ++ c :: cs2) = Val j /\ lookup ks j = Some s.
Proof. exact Proofs.later_wins. Qed.

(** Arrays.  Merging an array into an array appends exactly the items that are new, each once, in order of
    first appearance; a duplicate-free base stays duplicate-free. *)
Theorem arrays_nodup : forall (ba oa : list json), exists added,
  merge_values (JArr ba) (JArr oa) = JArr (ba ++ added) /\
  NoDup added /\
  (forall x, In x added -> ~ In x ba /\ In x oa) /\
  (forall x, In x oa -> In x ba \/ In x added) /\
  (NoDup ba -> NoDup (ba ++ added)).
Proof. exact Proofs.arrays_nodup. Qed.

(** loading the same array again changes nothing *)
Theorem array_again : forall (ba : list json), merge_values (JArr ba) (JArr ba) = JArr ba.
Proof. exact Proofs.array_again. Qed.

(** non-vacuity *)
Example later_wins_example :
  load_list [ex_cfg (ex_flat false); ex_cfg (ex_nested true)] = Val (ex_nested true) /\
  load_list [ex_cfg (ex_nested true); ex_cfg (ex_flat false)] = Val (ex_nested false) /\
  load_list [ex_cfg (ex_flat false); ex_cfg (ex_flat true)] = Val (ex_nested true) /\
  lookup [k_diag; k_enable] (ex_nested true) = Some (JBool true) /\
  silent [k_diag; k_enable] (JObj [(k_diag, JObj [(k_globals, JArr [])])]).
Proof. exact Proofs.later_wins_example. Qed.

Example arrays_example :
  let g := JObj [(k_diag, JObj [(k_globals, JArr [JStr [97]])])] in
  let h := JObj [(k_diag ++ DOT :: k_globals, JArr [JStr [98]; JStr [97]; JStr [98]])] in
  load_list [ex_cfg g; ex_cfg g] = Val g /\
  load_list [ex_cfg g; ex_cfg h] = Val (JObj [(k_diag, JObj [(k_globals, JArr [JStr [97]; JStr [98]])])]).
Proof. exact Proofs.arrays_example. Qed.

Example flat_eq_nested_example :
  let v1 := JObj [([97], JObj [([100], JNull)]); ([97;45;99], JNum 2); ([97;46;98], JNum 1)] in
  let v2 := JObj [([97], JObj [([98], JNum 1); ([100], JNull)]); ([97;45;99], JNum 2)] in
  NoDup (map fst (settings v1)) /\ Permutation (parse v1) (parse v2) /\
  to_emmyrc_json (rev (parse v1)) = to_emmyrc_json (parse v2) /\
  to_emmyrc_json (parse v2) = Val v2.
Proof. exact Proofs.flat_eq_nested_example. Qed.

Example merge_deterministic_example :
  let v := JObj [([97], JNum 1); ([97;46;98], JNum 2); ([99], JNull); ([99;46;100], JNum 3)] in
  Forall2 file_equiv [Parsed v (parse v); Invalid] [Parsed v (rev (parse v)); Invalid] /\
  load_configs_raw [Parsed v (parse v); Invalid] [] = load_configs_raw [Parsed v (rev (parse v)); Invalid] [] /\
  load_configs_raw [Parsed v (parse v); Invalid] [] = Val (JObj [([97], JObj [([98], JNum 2)]); ([99], JObj [([100], JNum 3)])]).
Proof. exact Proofs.merge_deterministic_example. Qed.
