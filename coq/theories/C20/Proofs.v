(** C20/Proofs.v — whatever is reported is [mk_diag] of an emission whose code passes the enable chain
    ([reported_emitted], with converse [emitted_reported]); the chain is one boolean formula ([chain_formula]). *)
From Coq Require Import List String NArith Bool Lia.
From EV Require Import C20.Model.
Import ListNotations.
Local Open Scope N_scope.

Lemma mem_true_iff : forall c l, mem c l = true <-> In c l.
Proof.
  intros c l. unfold mem. rewrite existsb_exists. split.
  - intros [x [Hin Hb]]. apply internal_code_dec_bl in Hb. subst. exact Hin.
  - intros Hin. exists c. split; [exact Hin|]. apply internal_code_dec_lb. reflexivity.
Qed.

Lemma in_filter_map : forall (A B : Type) (g : A -> option B) (l : list A) (b : B),
  In b (filter_map g l) <-> exists a, In a l /\ g a = Some b.
Proof.
  intros A B g l b. induction l as [|a r IH]; cbn [filter_map].
  - split; [intros []|intros [a [[] _]]].
  - assert (In b (match g a with Some b' => b' :: filter_map g r | None => filter_map g r end) <->
            g a = Some b \/ In b (filter_map g r)) as ->.
    { destruct (g a) as [b'|]; cbn [In]; [|intuition discriminate]. split; intros [H|H]; auto; left; congruence. }
    rewrite IH. split.
    + intros [H|(a' & Hin & H)]; [exists a|exists a']; cbn [In]; auto.
    + intros (a' & [<-|Hin] & H); eauto.
Qed.

Definition mk_diag (tr : range -> lsp_range) (cfg : config) (e : emit) : diag :=
  {| d_code := e_code e; d_name := code_name (e_code e); d_range := tr (e_range e);
     d_severity := get_severity cfg (e_code e); d_msg := e_msg e; d_data := e_data e |}.

Lemma add_diagnostic_some : forall tr cfg f e d,
  add_diagnostic tr cfg f e = Some d <->
  is_checker_enable_by_code cfg f (e_code e) = true /\ f_suppressed f (e_code e) (e_range e) = false /\
  d = mk_diag tr cfg e.
Proof.
  intros tr cfg f e d. unfold add_diagnostic. fold (mk_diag tr cfg e).
  destruct (is_checker_enable_by_code cfg f (e_code e)), (f_suppressed f (e_code e) (e_range e)); cbn [negb];
    (split; [intros [= <-]; auto|intros (H1 & H2 & ->); congruence]).
Qed.

Lemma in_check_file : forall tr cfg f ks d,
  In d (check_file tr cfg f ks) <->
  exists k e, In k ks /\ In e (k_body k cfg) /\
              existsb (is_checker_enable_by_code cfg f) (k_codes k) = true /\
              is_checker_enable_by_code cfg f (e_code e) = true /\
              f_suppressed f (e_code e) (e_range e) = false /\
              d = mk_diag tr cfg e.
Proof.
  intros tr cfg f ks d. unfold check_file. rewrite in_flat_map. split.
  - intros [k [Hk Hd]]. unfold run_check in Hd.
    destruct (existsb (is_checker_enable_by_code cfg f) (k_codes k)) eqn:Hg; [|destruct Hd].
    apply in_filter_map in Hd. destruct Hd as [e [He Ha]].
    apply add_diagnostic_some in Ha. destruct Ha as [H1 [H2 H3]].
    exists k, e. repeat (split; [assumption|]). assumption.
  - intros [k [e [Hk [He [Hg [H1 [H2 H3]]]]]]]. exists k. split; [exact Hk|].
    unfold run_check. rewrite Hg. apply in_filter_map. exists e. split; [exact He|].
    apply add_diagnostic_some. repeat (split; [assumption|]). assumption.
Qed.

Lemma in_dedup_acc : forall l kept d, In d (dedup_acc kept l) <-> In d l /\ ~ In d kept.
Proof.
  induction l as [|x r IH]; intros kept d; cbn [dedup_acc In]; [tauto|].
  destruct (in_dec diag_eq_dec x kept) as [Hx|Hx]; cbn [In]; rewrite IH; cbn [In].
  - split; [tauto|]. intros [[<-|H1] H2]; tauto.
  - destruct (diag_eq_dec x d) as [<-|E]; tauto.
Qed.

Lemma nodup_dedup_acc : forall l kept, NoDup (dedup_acc kept l).
Proof.
  induction l as [|x r IH]; intros kept; cbn [dedup_acc]; [constructor|].
  destruct (in_dec diag_eq_dec x kept); [apply IH|].
  constructor; [|apply IH]. rewrite in_dedup_acc. cbn [In]. tauto.
Qed.

Lemma in_get_diagnostics : forall l d, In d (get_diagnostics l) <-> In d l.
Proof.
  intros l d. unfold get_diagnostics. destruct dedup_diagnostics; [|reflexivity].
  rewrite in_dedup_acc. cbn [In]. tauto.
Qed.

Lemma diagnose_file_some : forall tr cfg f ks ds,
  diagnose_file tr cfg f ks = Some ds <->
  cfg_enable cfg = true /\
  (f_workspace f = None \/ f_workspace f = Some main_workspace_id) /\
  ds = get_diagnostics (check_file tr cfg f ks).
Proof.
  intros tr cfg f ks ds. unfold diagnose_file.
  destruct (cfg_enable cfg); cbn [negb]; [|split; [discriminate|intros [H _]; discriminate]].
  destruct (f_workspace f) as [w|]; [destruct (N.eqb_spec w main_workspace_id) as [->|Hne]|].
  - split; [intros [= <-]; auto|intros (_ & _ & ->); reflexivity].
  - split; [discriminate|]. intros (_ & [H|H] & _); congruence.
  - split; [intros [= <-]; auto|intros (_ & _ & ->); reflexivity].
Qed.

Lemma reported_emitted : forall tr cfg f ks ds d,
  diagnose_file tr cfg f ks = Some ds -> In d ds ->
  exists k e, In k ks /\ In e (k_body k cfg) /\
              is_checker_enable_by_code cfg f (e_code e) = true /\ d = mk_diag tr cfg e.
Proof.
  intros tr cfg f ks ds d (_ & _ & ->)%diagnose_file_some Hin%in_get_diagnostics%in_check_file.
  destruct Hin as (k & e & Hk & He & _ & Hon & _ & Hd). eauto 6.
Qed.

Lemma emitted_reported : forall tr cfg f ks k e,
  In k ks -> In e (k_body k cfg) -> In (e_code e) (k_codes k) ->
  cfg_enable cfg = true ->
  (f_workspace f = None \/ f_workspace f = Some main_workspace_id) ->
  is_checker_enable_by_code cfg f (e_code e) = true ->
  f_suppressed f (e_code e) (e_range e) = false ->
  exists ds, diagnose_file tr cfg f ks = Some ds /\ In (mk_diag tr cfg e) ds.
Proof.
  intros tr cfg f ks k e Hk He Hc Hen Hws Hon Hsup.
  exists (get_diagnostics (check_file tr cfg f ks)). split; [apply diagnose_file_some; auto|].
  apply in_get_diagnostics, in_check_file. exists k, e.
  split; [exact Hk|]. split; [exact He|]. split; [|auto].
  apply existsb_exists. exists (e_code e). auto.
Qed.

Lemma reported_enabled : forall tr cfg f ks ds d,
  diagnose_file tr cfg f ks = Some ds -> In d ds ->
  is_checker_enable_by_code cfg f (d_code d) = true.
Proof.
  intros tr cfg f ks ds d H Hin.
  destruct (reported_emitted _ _ _ _ _ _ H Hin) as (k & e & _ & _ & Hon & ->). exact Hon.
Qed.

(** the chain, for the order of the tests found in today's source *)
Lemma chain_formula : forall cfg f c,
  is_checker_enable_by_code cfg f c =
  negb (f_meta f) &&
  (mem c (f_enabled f) ||
   (negb (mem c (ws_disabled cfg)) && negb (mem c (f_disabled f)) &&
    (mem c (ws_enabled cfg) || default_enable c (cfg_level cfg)))).
Proof.
  intros cfg f c. unfold is_checker_enable_by_code, chain_order; cbn [run_chain test_verdict].
  destruct (f_meta f); destruct (mem c (f_enabled f)); destruct (mem c (ws_disabled cfg));
  destruct (mem c (f_disabled f)); destruct (mem c (ws_enabled cfg)); reflexivity.
Qed.

Lemma disabled_never_unless_file_enabled : forall tr cfg f ks ds d,
  diagnose_file tr cfg f ks = Some ds -> In d ds ->
  In (d_code d) (ws_disabled cfg) -> In (d_code d) (f_enabled f).
Proof.
  intros tr cfg f ks ds d H Hin Hdis%mem_true_iff. apply mem_true_iff.
  pose proof (reported_enabled tr cfg f ks ds d H Hin) as Hon.
  rewrite chain_formula, Hdis in Hon.
  destruct (f_meta f), (mem (d_code d) (f_enabled f)); [discriminate..|reflexivity|discriminate].
Qed.

Lemma not_mem_false : forall c l, ~ In c l -> mem c l = false.
Proof. intros c l H. apply not_true_is_false. rewrite mem_true_iff. exact H. Qed.

Lemma enables_reported : forall tr cfg f ks k e,
  In k ks -> In e (k_body k cfg) -> In (e_code e) (k_codes k) ->
  cfg_enable cfg = true ->
  (f_workspace f = None \/ f_workspace f = Some main_workspace_id) ->
  f_meta f = false ->
  In (e_code e) (ws_enabled cfg) -> ~ In (e_code e) (ws_disabled cfg) -> ~ In (e_code e) (f_disabled f) ->
  f_suppressed f (e_code e) (e_range e) = false ->
  exists ds, diagnose_file tr cfg f ks = Some ds /\ In (mk_diag tr cfg e) ds.
Proof.
  intros tr cfg f ks k e Hk He Hc Hen Hws Hmeta Hwe%mem_true_iff Hwd%not_mem_false Hfd%not_mem_false Hsup.
  apply (emitted_reported tr cfg f ks k e); try assumption.
  rewrite chain_formula, Hmeta, Hwe, Hwd, Hfd. apply orb_true_r.
Qed.

(** the hypothesis [In (e_code e) (k_codes k)] holds for every checker of the source: whatever code a
    checker's module mentions is listed in its CODES (finite table, checked by computation) *)
Lemma emits_within_codes :
  forallb (fun k => forallb (fun c => mem c (ck_codes k)) (ck_emits k)) checkers = true.
Proof. vm_compute. reflexivity. Qed.

Lemma emits_within_codes_in : forall ki c, In ki checkers -> In c (ck_emits ki) -> In c (ck_codes ki).
Proof.
  intros ki c Hk Hc. pose proof emits_within_codes as H.
  rewrite forallb_forall in H. specialize (H ki Hk). rewrite forallb_forall in H.
  apply mem_true_iff. apply H. exact Hc.
Qed.

Lemma severity_override : forall tr cfg f ks ds d,
  diagnose_file tr cfg f ks = Some ds -> In d ds ->
  d_severity d = match lookup_severity cfg (d_code d) with
                 | Some s => Some s
                 | None => Some (default_severity (d_code d))
                 end.
Proof.
  intros tr cfg f ks ds d H Hin.
  destruct (reported_emitted _ _ _ _ _ _ H Hin) as (k & e & _ & _ & _ & ->). reflexivity.
Qed.

Lemma lookup_severity_in : forall cfg c s,
  lookup_severity cfg c = Some s -> In (c, s) (cfg_severity cfg).
Proof.
  intros cfg c s. unfold lookup_severity.
  destruct (find (fun p => code_beq (fst p) c) (cfg_severity cfg)) as [p|] eqn:E; [|discriminate].
  intros H. injection H as H. apply find_some in E. destruct E as [Hin Hb].
  apply internal_code_dec_bl in Hb. destruct p as [c' s']. cbn [fst snd] in *. subst. exact Hin.
Qed.

(** a map has one binding per key *)
Definition functional (l : list (code * severity)) : Prop :=
  forall c s1 s2, In (c, s1) l -> In (c, s2) l -> s1 = s2.

Lemma lookup_severity_complete : forall cfg c s,
  functional (cfg_severity cfg) -> In (c, s) (cfg_severity cfg) -> lookup_severity cfg c = Some s.
Proof.
  intros cfg c s Hf Hin. destruct (lookup_severity cfg c) as [s'|] eqn:E.
  - f_equal. exact (Hf c s' s (lookup_severity_in _ _ _ E) Hin).
  - unfold lookup_severity in E.
    destruct (find (fun p => code_beq (fst p) c) (cfg_severity cfg)) eqn:F; [discriminate|].
    pose proof (find_none _ _ F (c, s) Hin) as Hn. cbn [fst] in Hn.
    rewrite (internal_code_dec_lb c c eq_refl) in Hn. discriminate.
Qed.

Lemma severity_configured : forall tr cfg f ks ds d s,
  functional (cfg_severity cfg) ->
  diagnose_file tr cfg f ks = Some ds -> In d ds ->
  In (d_code d, s) (cfg_severity cfg) -> d_severity d = Some s.
Proof.
  intros tr cfg f ks ds d s Hf H Hin Hs.
  rewrite (severity_override tr cfg f ks ds d H Hin).
  rewrite (lookup_severity_complete cfg (d_code d) s Hf Hs). reflexivity.
Qed.

Lemma check_name_expr_some : forall cfg o e,
  check_name_expr cfg o = Some e ->
  globals_match cfg (o_name o) = false /\
  e = {| e_code := C_UndefinedGlobal; e_range := o_range o; e_msg := ug_prefix ++ o_name o; e_data := None |}.
Proof.
  intros cfg o e. unfold check_name_expr, globals_match.
  destruct (o_is_ref o); [discriminate|].
  destruct (name_eqb (o_name o) underscore); [discriminate|].
  destruct (o_global_decl o); [discriminate|].
  destruct (name_mem (o_name o) (cfg_globals cfg)); [discriminate|].
  destruct (existsb _ (cfg_globals_regex cfg)); [discriminate|].
  destruct (name_eqb (o_name o) self_name && o_self_ok o); [discriminate|].
  intros H. injection H as H. split; [reflexivity|symmetry; exact H].
Qed.

Lemma globals_never_undefined : forall tr cfg f occs others ds d,
  (forall k e, In k others -> In e (k_body k cfg) -> e_code e <> C_UndefinedGlobal) ->
  diagnose_file tr cfg f (undefined_global_checker occs :: others) = Some ds -> In d ds ->
  d_code d = C_UndefinedGlobal ->
  exists o, In o occs /\ d_msg d = ug_prefix ++ o_name o /\ d_range d = tr (o_range o) /\
            globals_match cfg (o_name o) = false.
Proof.
  intros tr cfg f occs others ds d Hoth H Hin Hcode.
  destruct (reported_emitted _ _ _ _ _ _ H Hin) as (k & e & Hk & He & _ & Hd).
  destruct Hk as [<-|Hk].
  - cbn [undefined_global_checker k_body] in He. apply in_filter_map in He.
    destruct He as [o [Ho Hc]]. apply check_name_expr_some in Hc. destruct Hc as [Hg ->].
    exists o. subst d. cbn [mk_diag d_msg d_range e_msg e_range]. repeat (split; [first [assumption|reflexivity]|]). exact Hg.
  - exfalso. subst d. cbn [mk_diag d_code] in Hcode. exact (Hoth k e Hk He Hcode).
Qed.

Lemma globals_match_listed : forall cfg n, In n (cfg_globals cfg) -> globals_match cfg n = true.
Proof.
  intros cfg n Hin. unfold globals_match. apply orb_true_iff. left.
  unfold name_mem. apply existsb_exists. exists n. split; [exact Hin|].
  clear Hin. induction n as [|x r IH]; cbn [name_eqb]; [reflexivity|].
  rewrite N.eqb_refl. exact IH.
Qed.

Lemma globals_match_regex : forall cfg n p, In (Some p) (cfg_globals_regex cfg) -> p n = true -> globals_match cfg n = true.
Proof.
  intros cfg n p Hin Hp. unfold globals_match. apply orb_true_iff. right.
  apply existsb_exists. exists (Some p). split; [exact Hin|exact Hp].
Qed.

(** in today's table no other checker mentions the undefined-global code *)
Lemma only_ug_checker_emits_ug :
  forallb (fun k => negb (mem C_UndefinedGlobal (ck_emits k)) || String.eqb (ck_name k) "UndefinedGlobalChecker") checkers = true.
Proof. vm_compute. reflexivity. Qed.

Lemma library_std_silent : forall tr cfg f ks w,
  f_workspace f = Some w -> w <> main_workspace_id -> diagnose_file tr cfg f ks = None.
Proof.
  intros tr cfg f ks w Hw Hne. unfold diagnose_file. destruct (negb (cfg_enable cfg)); [reflexivity|].
  rewrite Hw. destruct (N.eqb_spec w main_workspace_id); [contradiction|reflexivity].
Qed.

Lemma meta_silent : forall tr cfg f ks ds,
  f_meta f = true -> diagnose_file tr cfg f ks = Some ds -> ds = [].
Proof.
  intros tr cfg f ks ds Hm H. destruct ds as [|d r]; [reflexivity|]. exfalso.
  pose proof (reported_enabled tr cfg f ks (d :: r) d H (or_introl eq_refl)) as Hon.
  rewrite chain_formula, Hm in Hon. discriminate.
Qed.

(** every spelling of the tag makes a file of a workspace a meta file *)
Lemma meta_tag_sets_flag : forall tag, tag <> NoMetaTag -> meta_flag_of_tag true tag = true.
Proof.
  intros [| |n] H; [contradiction|reflexivity|].
  unfold meta_flag_of_tag. destruct (existsb (String.eqb n) meta_special_names); reflexivity.
Qed.

Lemma meta_tag_silent : forall tr cfg f ks ds tag,
  tag <> NoMetaTag -> f_meta f = meta_flag_of_tag true tag ->
  diagnose_file tr cfg f ks = Some ds -> ds = [].
Proof.
  intros tr cfg f ks ds tag Ht Hf H. apply (meta_silent tr cfg f ks ds); [|exact H].
  rewrite Hf. apply meta_tag_sets_flag. exact Ht.
Qed.

Lemma enable_false_silent : forall tr cfg f ks, cfg_enable cfg = false -> diagnose_file tr cfg f ks = None.
Proof. intros tr cfg f ks H. unfold diagnose_file. rewrite H. reflexivity. Qed.

Lemma no_exact_duplicates : forall tr cfg f ks ds, diagnose_file tr cfg f ks = Some ds -> NoDup ds.
Proof.
  intros tr cfg f ks ds (_ & _ & ->)%diagnose_file_some. apply nodup_dedup_acc.
Qed.

(** default-off codes exist, so [enables_reported] is not vacuous *)
Lemma some_code_off_by_default : exists c, forall l, default_enable c l = false.
Proof. exists C_CodeStyleCheck. intros l. reflexivity. Qed.

Definition ex_cfg : config :=
  {| cfg_enable := true; ws_disabled := [C_Unused; C_UndefinedGlobal]; ws_enabled := [C_UnknownDocTag; C_Unused];
     cfg_severity := [(C_UnknownDocTag, HINT)]; cfg_globals := [[118; 105; 109]];
     cfg_globals_regex := [None; Some (fun n => match n with 103 :: _ => true | _ => false end)]; cfg_level := L_Lua54 |}.
Definition ex_file : file :=
  {| f_enabled := [C_UndefinedGlobal]; f_disabled := []; f_meta := false; f_workspace := Some 1;
     f_suppressed := fun _ _ => false |}.
Definition ex_tr : range -> lsp_range := fun r => ((0, fst r), (0, snd r)).
Definition ex_checkers : list checker :=
  [ undefined_global_checker
      [ {| o_name := [118; 105; 109]; o_range := (0, 3); o_is_ref := false; o_global_decl := false; o_self_ok := false |};
        {| o_name := [103; 49]; o_range := (4, 6); o_is_ref := false; o_global_decl := false; o_self_ok := false |};
        {| o_name := [120]; o_range := (7, 8); o_is_ref := false; o_global_decl := false; o_self_ok := false |} ];
    {| k_codes := [C_UndefinedDocParam; C_UnknownDocTag];
       k_body := fun _ => [ {| e_code := C_UnknownDocTag; e_range := (9, 12); e_msg := [63]; e_data := None |};
                            {| e_code := C_UnknownDocTag; e_range := (9, 12); e_msg := [63]; e_data := None |} ] |};
    {| k_codes := [C_Unused]; k_body := fun _ => [ {| e_code := C_Unused; e_range := (13, 14); e_msg := []; e_data := None |} ] |} ].

Lemma config_example :
  option_map (map (fun d => (d_code d, d_range d, d_severity d))) (diagnose_file ex_tr ex_cfg ex_file ex_checkers)
  = Some [ (C_UndefinedGlobal, ((0, 7), (0, 8)), Some ERROR); (C_UnknownDocTag, ((0, 9), (0, 12)), Some HINT) ]
  /\ diagnose_file ex_tr ex_cfg {| f_enabled := [C_UndefinedGlobal]; f_disabled := []; f_meta := true; f_workspace := Some 1;
                                  f_suppressed := fun _ _ => false |} ex_checkers = Some []
  /\ diagnose_file ex_tr ex_cfg {| f_enabled := [C_UndefinedGlobal]; f_disabled := []; f_meta := false; f_workspace := Some 3;
                                  f_suppressed := fun _ _ => false |} ex_checkers = None.
Proof. vm_compute. repeat split. Qed.
