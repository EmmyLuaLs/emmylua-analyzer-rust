(** C16/Props.v — property theorems only.  Each is closed by [exact] of a lemma.
    Model: EV.C16.Model (transcription of check_type_compact / union_type / is_sub_type_of on the
    generated grammar); notions: EV.C16.Spec ([fits], [known], [unfolds], [within]) and [reach] of EV.C16.SubProofs.

    [check_type G cf s c] is [check_type_compact(db, source = s (expected), compact = c (given))]
    started with a fresh [TypeCheckGuard]; [Ok] = accepted. *)
From Coq Require Import Relations String.
From EV Require Import C16.Model C16.Spec C16.SubProofs C16.UnionProofs C16.UnionLaw C16.LawProofs C16.Proofs.
Local Open Scope N_scope.

(** the tables regenerated from the source are the ones the model is written against *)
Theorem basic_order_matches_source : map basic_name all_basics = basic_kind_names.
Proof. exact Proofs.basic_order_matches_source. Qed.
Theorem gate_order_matches_source :
  general_gate_order = ["is_like_any"; "fast_eq_check"; "escape_type"; "intersection"; "dispatch_on_source"]%string.
Proof. exact Proofs.gate_order_matches_source. Qed.
Theorem base_names_match_source :
  base_type_names = ["boolean"; "function"; "global"; "integer"; "io"; "nil"; "number"; "self"; "string"; "table"; "thread"; "userdata"]%string.
Proof. exact Proofs.base_names_match_source. Qed.

(** LAW 1 (reflexivity).  Full statement: [forall G cf T, check_type G cf T T = Ok].  It is false of the
    faithful model ([check_refl_refuted]: 51 nested arrays exhaust MAX_TYPE_CHECK_LEVEL; replayed on the
    implementation); it holds for every type outside the decidable class [known]. *)
Theorem check_refl_outside_known : forall G cf T, known G T = false -> check_type G cf T T = Ok.
Proof. exact Proofs.check_refl_outside_known. Qed.

(** the same for any budget: a well-formed type of height [n] is accepted by itself at level 0 whenever
    [4 n + 2 <= MAX_TYPE_CHECK_LEVEL] *)
Theorem check_refl : forall G cf n T, fits G n T = true -> within 0 n n -> check_type G cf T T = Ok.
Proof. exact LawProofs.check_refl. Qed.

Theorem check_refl_refuted : exists T, check_type [] cfg_default T T = Err Recursion.
Proof. exact Proofs.check_refl_refuted. Qed.

(** LAW 2 (every member of a union is accepted where the union is expected) *)
Theorem union_member_accepted_outside_known : forall G cf p k ms m,
  known G (TUnion p k ms) = false -> In m ms -> check_type G cf (TUnion p k ms) m = Ok.
Proof. exact Proofs.union_member_accepted_outside_known. Qed.

Theorem union_member_accepted : forall G cf n p k ms m,
  fits G n (TUnion p k ms) = true -> In m ms -> within 0 n n ->
  check_type G cf (TUnion p k ms) m = Ok.
Proof. exact LawProofs.union_member_accepted. Qed.

(** two mutually unrelated recursive aliases in one union: the cross check recurses until the guard stops it *)
Theorem union_member_refuted :
  In (TArray (TRef 101)) (umembers mutual_union) /\
  check_type mutual_world cfg_default mutual_union (TArray (TRef 101)) = Err Recursion /\
  check_type mutual_world cfg_default mutual_union mutual_union = Err Recursion.
Proof. exact Proofs.union_member_refuted. Qed.

(** the common root of laws 1 and 2: a type accepts everything it unfolds to
    (members of unions, origins of aliases, transitively) *)
Theorem accepts_unfolding_outside_known : forall G cf s z,
  known G s = false -> known G z = false -> unfolds G s z -> check_type G cf s z = Ok.
Proof. exact Proofs.accepts_unfolding_outside_known. Qed.

(** LAW 3 (a class is accepted where any of its ancestors is expected), on ANY world — cyclic
    declarations included ([reach] follows the effective super edges, the ones [get_super_types_iter]
    yields) — and for chains of ANY length: [is_sub_type_of] is iterative, the guard is not involved. *)
Theorem ancestor_accepted : forall G cf A C dA dC,
  get_decl G A = Some dA -> is_alias dA = false ->
  get_decl G C = Some dC -> is_alias dC = false ->
  reach G C A ->
  check_type G cf (TRef A) (TRef C) = Ok.
Proof. exact LawProofs.ancestor_accepted. Qed.

(** LAW 4 (any / unknown accept everything).  The compact type's alias chain is peeled before the
    source is looked at, one guard level per alias: accepted when the chain is at most
    MAX_TYPE_CHECK_LEVEL long, and never refused otherwise — the only other answer is the guard's. *)
Theorem any_unknown_top : forall G cf top T,
  (top = TBasic BAny \/ top = TBasic BUnknown) ->
  escapes_within G (N.to_nat MAX_TYPE_CHECK_LEVEL) T = true ->
  check_type G cf top T = Ok.
Proof. exact LawProofs.any_unknown_top. Qed.

Theorem any_unknown_never_refuse : forall G cf top T,
  (top = TBasic BAny \/ top = TBasic BUnknown) ->
  check_type G cf top T = Ok \/ check_type G cf top T = Err Recursion.
Proof. exact Proofs.any_unknown_never_refuse. Qed.

Theorem any_unknown_top_refuted :
  check_type (alias_chain 1000 (N.to_nat MAX_TYPE_CHECK_LEVEL)) cfg_default TAny
             (TRef (1000 + MAX_TYPE_CHECK_LEVEL)) = Err Recursion.
Proof. exact Proofs.any_unknown_top_refuted. Qed.

(** LAW 5 (unioning a batch = unioning one at a time): the two results have the same members — every
    member of one is [==] to, has the hash key of, or is a member of the other ([mem_cover]); both are
    made of elements of the batch.  For ALL batches of the grammar: *)
Theorem union_all_eq_fold : forall G ts, mem_cover (union_type_all G ts) (union_fold G ts).
Proof. exact UnionLaw.union_all_eq_fold. Qed.

(** and outside the structural fast path ([can_use_structural_union]) the batch union IS the fold,
    literally — including the [Any] shortcut and the all-[Never] batch *)
Theorem union_all_is_fold_off_fast_path : forall G ts,
  can_use_structural_union (filter (fun t => negb (is_b BNever t)) ts) = false \/
  existsb (is_b BAny) ts = true \/ filter (fun t => negb (is_b BNever t)) ts = [] ->
  union_type_all G ts = union_fold G ts.
Proof. exact UnionProofs.union_all_eq_fold_slow. Qed.

Example union_example :
  union_type_all ex_world [TBasic BString; TStrConst true 1; TNever; TRef 100] = TUnion 0 UMulti [TBasic BString; TRef 100] /\
  union_type_all ex_world [TArray (TBasic BString); TNever; TIntConst true 4; TArray (TBasic BString)]
    = TUnion 0 UMulti [TArray (TBasic BString); TIntConst true 4].
Proof. exact Proofs.union_example. Qed.

(** non-vacuity *)
Example laws_example :
  known ex_world ex_type = false /\
  check_type ex_world cfg_default ex_type ex_type = Ok /\
  forallb (fun m => match check_type ex_world cfg_default ex_type m with Ok => true | _ => false end) (umembers ex_type) = true /\
  check_type ex_world cfg_default (TRef 100) (TRef 103) = Ok /\
  check_type ex_world cfg_default (TRef 103) (TBasic BInteger) = Err NotMatch /\
  known ex_world (TRef 111) = true /\
  check_type ex_world cfg_default (TArray (TRef 111)) (TArray (TRef 111)) = Ok.
Proof. exact Proofs.laws_example. Qed.

Example reach_example : reach ex_world 103 100.
Proof. exact Proofs.reach_example. Qed.
