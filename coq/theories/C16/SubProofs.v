(** The super-type graph walks of the model:
    [super_reaches] and [sub_loop] never run out of fuel on any world (cycles included), and
    [is_sub_type_of] is the reflexive-transitive closure of the effective edges. *)
From Coq Require Import Relations.
From EV Require Import C16.Model.
Local Open Scope N_scope.

Definition nmem (x : N) (l : list N) : bool := existsb (N.eqb x) l.

Lemma nmem_In : forall x l, nmem x l = true <-> In x l.
Proof.
  intros x l. unfold nmem. rewrite existsb_exists. split.
  - intros (y & Hy & E). apply N.eqb_eq in E. subst. exact Hy.
  - intros H. exists x. split; [exact H|apply N.eqb_refl].
Qed.

Lemma nmem_false : forall x l, nmem x l = false <-> ~ In x l.
Proof.
  intros x l. rewrite <- nmem_In. destruct (nmem x l); split; congruence.
Qed.

Lemma get_decl_In : forall G id d, get_decl G id = Some d -> In (id, d) G.
Proof.
  induction G as [|[k e] r IH]; intros id d H; cbn [get_decl] in H; [discriminate|].
  destruct (N.eqb_spec k id).
  - inversion H; subst. left; reflexivity.
  - right. apply IH; exact H.
Qed.

Lemma raw_supers_universe : forall G id l, raw_supers G id = Some l -> incl (id :: super_ids l) (universe G).
Proof.
  intros G id l H x Hx. unfold raw_supers in H. destruct (get_decl G id) as [d|] eqn:E; [|discriminate].
  apply in_flat_map. exists (id, d). split; [apply get_decl_In; exact E|].
  cbn [fst snd]. destruct (d_supers d); [discriminate|]. inversion H; subst l. exact Hx.
Qed.

Lemma super_ids_In : forall l i, In i (super_ids l) <-> In (TRef i) l.
Proof.
  induction l as [|t r IH]; intros i; [cbn; tauto|].
  destruct t; cbn [super_ids super_id In]; rewrite IH; intuition congruence.
Qed.

(** the termination measure of both walks: how many nodes of [U] are not yet visited *)

Definition rest (U visited : list N) : nat := length (filter (fun u => negb (nmem u visited)) U).

Lemma rest_le_length : forall U v, (rest U v <= length U)%nat.
Proof.
  intros U v. unfold rest. induction U as [|u r IH]; cbn [filter length]; [lia|].
  destruct (negb (nmem u v)); cbn [length]; lia.
Qed.

Lemma rest_antitone : forall U v w, (forall x, In x v -> In x w) -> (rest U w <= rest U v)%nat.
Proof.
  intros U v w H. unfold rest. induction U as [|u r IH]; cbn [filter]; [lia|].
  destruct (nmem u v) eqn:Ev.
  - apply nmem_In in Ev. apply H in Ev. apply nmem_In in Ev. rewrite Ev. cbn [negb]. exact IH.
  - destruct (nmem u w); cbn [negb length]; lia.
Qed.

Lemma rest_lt : forall U v w x, (forall y, In y v -> In y w) -> In x w -> ~ In x v -> In x U ->
  (rest U w < rest U v)%nat.
Proof.
  intros U v w x Hsub Hw Hv. apply nmem_In in Hw. apply nmem_false in Hv.
  induction U as [|u r IH]; intros Hx; [destruct Hx|].
  pose proof (rest_antitone r v w Hsub) as Hle. pose proof (rest_antitone [u] v w Hsub) as Hu. unfold rest in *. cbn [filter] in *.
  destruct Hx as [->|Hx]; [rewrite Hw, Hv; cbn [negb length]; lia|].
  specialize (IH Hx). destruct (nmem u v), (nmem u w); cbn [negb length] in *; lia.
Qed.

(** declared successors of a class (the ids [super_reaches] follows) *)
Definition succs (G : world) (x : N) : list N :=
  match raw_supers G x with Some l => super_ids l | None => [] end.

(** what a failed walk leaves behind: the nodes added to [visited] are not the target and all their
    declared successors have been visited *)
Definition closed_from (G : world) (tgt : N) (vis v' : list N) : Prop :=
  (forall x, In x vis -> In x v') /\
  (forall x, In x v' -> ~ In x vis -> x <> tgt /\ forall y, In y (succs G x) -> In y v').

Lemma closed_from_refl : forall G tgt v, closed_from G tgt v v.
Proof. intros G tgt v. split; [auto|]. intros x Hx Hn. contradiction. Qed.

Lemma closed_from_trans : forall G tgt a b c, closed_from G tgt a b -> closed_from G tgt b c -> closed_from G tgt a c.
Proof.
  intros G tgt a b c [S1 C1] [S2 C2]. split; [auto|].
  intros x Hx Hna. destruct (in_dec N.eq_dec x b) as [Hb|Hnb].
  - destruct (C1 x Hb Hna) as [Hne Hs]. split; [exact Hne|]. intros y Hy. apply S2, Hs, Hy.
  - apply C2; assumption.
Qed.

(** the loop over the successors inside [super_reaches] *)
Definition any_reaches (G : world) (f : nat) (tgt : N) : list N -> list N -> option (bool * list N) :=
  fix any (ids : list N) (visited : list N) : option (bool * list N) :=
    match ids with
    | [] => Some (false, visited)
    | i :: r =>
        match super_reaches G f i tgt visited with
        | None => None
        | Some (true, v) => Some (true, v)
        | Some (false, v) => any r v
        end
    end.

Lemma super_reaches_S : forall G f cur tgt visited,
  super_reaches G (S f) cur tgt visited =
  if cur =? tgt then Some (true, visited)
  else if nmem cur visited then Some (false, visited)
  else match raw_supers G cur with
       | None => Some (false, cur :: visited)
       | Some sups => any_reaches G f tgt (super_ids sups) (cur :: visited)
       end.
Proof. reflexivity. Qed.

(** [super_reaches] does not run out of fuel; a failed walk has visited everything that the start
    reaches through declared edges, and the target is not among it *)
Lemma super_reaches_spec : forall G tgt fuel cur vis,
  (rest (universe G) vis < fuel)%nat ->
  exists b v, super_reaches G fuel cur tgt vis = Some (b, v) /\
    (b = false -> closed_from G tgt vis v /\ In cur v).
Proof.
  intros G tgt fuel. induction fuel as [|f IH]; intros cur vis Hf; [lia|]. rewrite super_reaches_S.
  destruct (N.eqb_spec cur tgt) as [|Hne]; [exists true, vis; split; [reflexivity|discriminate]|].
  destruct (nmem cur vis) eqn:Ev.
  { apply nmem_In in Ev. exists false, vis. auto using closed_from_refl. }
  apply nmem_false in Ev.
  assert (Hstep : forall v, closed_from G tgt (cur :: vis) v -> incl (succs G cur) v ->
            closed_from G tgt vis v /\ In cur v).
  { intros v [S C] Hs. split; [|apply S; left; reflexivity].
    split; [intros x Hx; apply S; right; exact Hx|].
    intros x Hx Hn. destruct (N.eq_dec x cur) as [->|Hxc]; [auto|].
    apply C; [exact Hx|]. intros [E|Hin]; [congruence|contradiction]. }
  unfold succs in Hstep. destruct (raw_supers G cur) as [sups|] eqn:Er.
  2:{ exists false, (cur :: vis). split; [reflexivity|]. intros _.
      apply Hstep; [apply closed_from_refl|intros y []]. }
  assert (Hlt : (rest (universe G) (cur :: vis) < f)%nat).
  { pose proof (rest_lt (universe G) vis (cur :: vis) cur (fun y Hy => or_intror Hy) (or_introl eq_refl) Ev
                  (raw_supers_universe G cur sups Er cur (or_introl eq_refl))). lia. }
  (* the loop over the successors, by induction on the list; [IH] serves its calls of [super_reaches] *)
  assert (Hany : forall ids v0, (rest (universe G) v0 < f)%nat ->
            exists b v, any_reaches G f tgt ids v0 = Some (b, v) /\
              (b = false -> closed_from G tgt v0 v /\ incl ids v)).
  { induction ids as [|i r IHr]; intros v0 H0; cbn [any_reaches].
    - exists false, v0. split; [reflexivity|]. intros _. split; [apply closed_from_refl|intros y []].
    - destruct (IH i v0 H0) as ([|] & v & -> & Hi); [exists true, v; split; [reflexivity|discriminate]|].
      destruct (Hi eq_refl) as [Ci Hiv].
      destruct (IHr v) as (b & v' & -> & Hr); [pose proof (rest_antitone (universe G) v0 v (proj1 Ci)); lia|].
      exists b, v'. split; [reflexivity|]. intros ->. destruct (Hr eq_refl) as [Cr Hrv].
      split; [eapply closed_from_trans; eassumption|].
      intros y [<-|Hy]; [apply (proj1 Cr), Hiv|apply Hrv, Hy]. }
  destruct (Hany (super_ids sups) (cur :: vis) Hlt) as (b & v & -> & Hb).
  exists b, v. split; [reflexivity|]. intros ->. destruct (Hb eq_refl) as [C Hids]. apply Hstep; assumption.
Qed.

Lemma dfs_fuel_enough : forall G v, (rest (universe G) v < dfs_fuel G)%nat.
Proof. intros G v. unfold dfs_fuel. pose proof (rest_le_length (universe G) v). lia. Qed.

Lemma is_cyclic_super_edge_total : forall G id s, exists b, is_cyclic_super_edge G id s = Some b.
Proof.
  intros G id s. unfold is_cyclic_super_edge. destruct (super_id s) as [x|]; [|exists false; reflexivity].
  destruct (super_reaches_spec G id (dfs_fuel G) x [] (dfs_fuel_enough G [])) as (b & v & E & _).
  rewrite E. exists b. reflexivity.
Qed.

(** [get_super_types_iter] answers on every world; what it yields are the declared supers whose
    edge is not cyclic *)
Lemma eff_supers_total : forall G id,
  (raw_supers G id = None /\ eff_supers G id = Some None) \/
  (exists raw l, raw_supers G id = Some raw /\ eff_supers G id = Some (Some l) /\
     forall t, In t l -> In t raw /\ is_cyclic_super_edge G id t = Some false).
Proof.
  intros G id. unfold eff_supers. destruct (raw_supers G id) as [raw|]; [right|left; split; reflexivity].
  exists raw. induction raw as [|s r IH].
  - exists []. split; [reflexivity|]. split; [reflexivity|intros t []].
  - destruct IH as (l & _ & E & Hsub).
    destruct (is_cyclic_super_edge_total G id s) as (b & Eb).
    exists (if b then l else s :: l). split; [reflexivity|]. split; [rewrite Eb, E; reflexivity|].
    intros t Ht. destruct b; [|destruct Ht as [<-|Ht]; [split; [left; reflexivity|exact Eb]|]];
      (destruct (Hsub t Ht) as [H1 H2]; split; [right; exact H1|exact H2]).
Qed.

Lemma eff_supers_not_None : forall G id, eff_supers G id <> None.
Proof.
  intros G id. destruct (eff_supers_total G id) as [[_ E]|(raw & l & _ & E & _)]; rewrite E; discriminate.
Qed.

Lemma eff_supers_ids : forall G id l, eff_supers G id = Some (Some l) -> incl (super_ids l) (universe G).
Proof.
  intros G id l E i Hi. destruct (eff_supers_total G id) as [[_ E']|(raw & l' & Er & E' & Hsub)]; rewrite E' in E.
  - discriminate.
  - inversion E; subst l'. apply (raw_supers_universe G id raw Er). right.
    apply super_ids_In, Hsub, super_ids_In, Hi.
Qed.

(** the super entry [t] names [sup]: the class itself, or a primitive whose base type name is [sup]
    (the two ways [sub_scan] finds the target) *)
Definition hit (sup : N) (t : ty) : Prop :=
  t = TRef sup \/ (super_id t = None /\ base_type_name t = Some sup).

Definition hitb (sup : N) (t : ty) : bool :=
  match t with
  | TRef i => i =? sup
  | _ => match base_type_name t with Some n => n =? sup | None => false end
  end.

Lemma hitb_hit : forall sup t, hitb sup t = true <-> hit sup t.
Proof.
  intros sup t. unfold hit.
  destruct t; cbn [hitb super_id]; try (destruct (base_type_name _) as [n|]); rewrite ?N.eqb_eq;
    (split; [intros H; try discriminate H; subst; auto|intros [E|[E1 E]]; try discriminate E1; congruence]).
Qed.

Definition push (sv : list N * list N) (i : N) : list N * list N :=
  if nmem i (snd sv) then sv else (i :: fst sv, i :: snd sv).

Lemma sub_scan_eq : forall sup sups stack visited,
  sub_scan sup sups stack visited =
  if existsb (hitb sup) sups then inl tt else inr (fold_left push (super_ids sups) (stack, visited)).
Proof.
  intros sup sups. induction sups as [|t r IH]; intros stack visited; [reflexivity|].
  destruct t; cbn [sub_scan existsb hitb super_ids super_id fold_left];
    try (destruct (base_type_name _) as [n|]; [destruct (n =? sup)|]; try reflexivity; apply IH).
  destruct (id =? sup); [reflexivity|]. unfold push. cbn [fst snd orb]. fold (nmem id visited).
  destruct (nmem id visited); apply IH.
Qed.

Lemma hitb_found : forall sup l, existsb (hitb sup) l = true -> exists t, In t l /\ hit sup t.
Proof. intros sup l H. apply existsb_exists in H. destruct H as (t & Ht & Hh). apply hitb_hit in Hh. eauto. Qed.

Lemma hitb_none : forall sup l, existsb (hitb sup) l = false -> forall t, In t l -> ~ hit sup t.
Proof.
  intros sup l H t Ht Hh. apply hitb_hit in Hh. apply not_true_iff_false in H. apply H, existsb_exists. eauto.
Qed.

Lemma push_all : forall ids s v, exists new,
  fold_left push ids (s, v) = (new ++ s, new ++ v) /\ incl new ids /\ incl ids (new ++ v) /\
  forall U, incl ids U -> (length new + rest U (new ++ v) <= rest U v)%nat.
Proof.
  induction ids as [|i r IH]; intros s v; [exists []; repeat split; auto using incl_nil_l|].
  cbn [fold_left]. unfold push at 2. cbn [fst snd]. destruct (nmem i v) eqn:Ev.
  - destruct (IH s v) as (new & -> & Hn & Hv & Hm). exists new. repeat split; auto using incl_tl.
    + apply nmem_In in Ev. intros x [<-|Hx]; [apply in_or_app; right; exact Ev|apply Hv; exact Hx].
    + intros U HU. apply Hm. intros x Hx. apply HU. right; exact Hx.
  - destruct (IH (i :: s) (i :: v)) as (new & -> & Hn & Hv & Hm). exists (new ++ [i]).
    rewrite <- !app_assoc. cbn [app]. repeat split; auto.
    + intros x Hx. apply in_app_or in Hx. destruct Hx as [Hx|[<-|[]]]; [right; apply Hn; exact Hx|left; reflexivity].
    + intros x [<-|Hx]; [apply in_or_app; right; left; reflexivity|apply Hv; exact Hx].
    + intros U HU. specialize (Hm U (fun x Hx => HU x (or_intror Hx))). apply nmem_false in Ev.
      pose proof (rest_lt U v (i :: v) i (fun y Hy => or_intror Hy) (or_introl eq_refl) Ev (HU i (or_introl eq_refl))).
      rewrite app_length. cbn [length]. lia.
Qed.

Section Loop.
  Variable G : world.
  Variable sub sup : N.

  Definition edge (a b : N) : Prop := exists l, eff_supers G a = Some (Some l) /\ In (TRef b) l.
  Definition hits (a : N) : Prop := exists l t, eff_supers G a = Some (Some l) /\ In t l /\ hit sup t.
  Definition reach (x : N) : Prop := clos_refl_trans N edge sub x.

  Definition finished (visited : list N) (v : N) : Prop :=
    ~ hits v /\ forall w, edge v w -> In w visited.

  Lemma finished_mono : forall v1 v2 x, (forall y, In y v1 -> In y v2) -> finished v1 x -> finished v2 x.
  Proof. intros v1 v2 x H [Hn Hs]. split; [exact Hn|]. intros w Hw. apply H, Hs, Hw. Qed.

  (** the loop answers, and rightly, from every state in which the stack holds reachable classes and
      every visited class is on the stack or finished *)
  Lemma sub_loop_spec : forall fuel stack visited,
    (length stack + rest (universe G) visited < fuel)%nat ->
    In sub visited -> (forall x, In x stack -> reach x) ->
    (forall v, In v visited -> In v stack \/ finished visited v) ->
    exists b, sub_loop G fuel sup stack visited = Some b /\
      if b then exists m, reach m /\ hits m else forall m, reach m -> ~ hits m.
  Proof.
    induction fuel as [|f IH]; intros stack visited Hf Hsub Hst Hinv; [lia|].
    cbn [sub_loop]. destruct stack as [|cur stack].
    - (* every visited node is finished: the visited set is closed and hit-free *)
      exists false. split; [reflexivity|].
      assert (Hall : forall m, reach m -> In m visited).
      { apply clos_refl_trans_ind_left; [exact Hsub|]. intros y z _ Hy Hyz.
        destruct (Hinv y Hy) as [[]|[_ Hs]]. apply Hs, Hyz. }
      intros m Hm. destruct (Hinv m (Hall m Hm)) as [[]|[Hn _]]. exact Hn.
    - (* [cur] is finished after its scan; it hits nothing when it has no super list *)
      assert (Hcur : forall visited', (forall y, In y visited -> In y visited') ->
                (forall l, eff_supers G cur = Some (Some l) ->
                   (forall t, In t l -> ~ hit sup t) /\ incl (super_ids l) visited') ->
                forall v, In v visited -> In v stack \/ finished visited' v).
      { intros visited' Hmono Hl v Hv. destruct (Hinv v Hv) as [[<-|Hr]|Hfin]; [right|left; exact Hr|].
        - split.
          + intros (l & t & E & Ht & Hh). apply (proj1 (Hl l E) t Ht Hh).
          + intros w (l & E & Hw). apply (proj2 (Hl l E)), super_ids_In, Hw.
        - right. eapply finished_mono; eassumption. }
      pose proof (Hst cur (or_introl eq_refl)) as Hrc.
      assert (Hst' : forall x, In x stack -> reach x) by auto using in_cons.
      cbn [length] in Hf.
      destruct (eff_supers_total G cur) as [[_ E]|(raw & l & _ & E & _)]; rewrite E.
      { apply IH; [lia|exact Hsub|exact Hst'|]. apply Hcur; [auto|]. intros l' E'. rewrite E in E'. discriminate. }
      rewrite sub_scan_eq. destruct (existsb (hitb sup) l) eqn:Eh.
      + destruct (hitb_found sup l Eh) as (t & Ht & Hh).
        exists true. split; [reflexivity|]. exists cur. split; [exact Hrc|]. exists l, t. auto.
      + destruct (push_all (super_ids l) stack visited) as (new & -> & Hnew & Hvis & Hm).
        specialize (Hm (universe G) (eff_supers_ids G cur l E)).
        apply IH; [rewrite app_length; lia|apply in_or_app; right; exact Hsub| |].
        * intros x Hx. apply in_app_or in Hx. destruct Hx as [Hx|Hx]; [|apply Hst'; exact Hx].
          apply rt_trans with cur; [exact Hrc|].
          apply rt_step. exists l. split; [exact E|apply super_ids_In, Hnew, Hx].
        * intros v Hv. apply in_app_or in Hv. destruct Hv as [Hv|Hv]; [left; apply in_or_app; left; exact Hv|].
          destruct (Hcur (new ++ visited)) with (v := v) as [Hs|Hfin]; auto using in_or_app.
          intros l' E'. rewrite E in E'. inversion E'; subst l'. split; [exact (hitb_none sup l Eh)|exact Hvis].
  Qed.

  Lemma sub_loop_start : exists b, sub_loop G (S (dfs_fuel G)) sup [sub] [sub] = Some b /\
    if b then exists m, reach m /\ hits m else forall m, reach m -> ~ hits m.
  Proof.
    apply sub_loop_spec; [|left; reflexivity|intros x [<-|[]]; apply rt_refl|intros v Hv; left; exact Hv].
    pose proof (dfs_fuel_enough G [sub]). cbn [length]. lia.
  Qed.
End Loop.

Lemma is_sub_type_of_total : forall G sub sup, exists b, is_sub_type_of_opt G sub sup = Some b.
Proof.
  intros G sub sup. unfold is_sub_type_of_opt. destruct (N.eqb sub sup); [exists true; reflexivity|].
  destruct (sub_loop_start G sub sup) as (b & E & _). exists b. exact E.
Qed.

Lemma is_sub_type_of_spec : forall G sub sup,
  is_sub_type_of_opt G sub sup = Some true <->
  (sub = sup \/ exists m, reach G sub m /\ hits G sup m).
Proof.
  intros G sub sup. unfold is_sub_type_of_opt. destruct (N.eqb_spec sub sup) as [->|Hne].
  - split; [left; reflexivity|reflexivity].
  - destruct (sub_loop_start G sub sup) as ([|] & -> & Hb).
    + split; [right; exact Hb|reflexivity].
    + split; [discriminate|]. intros [E|(m & Hm & Hh)]; [contradiction|]. destruct (Hb m Hm Hh).
Qed.

Lemma is_sub_type_of_true : forall G sub sup,
  is_sub_type_of G sub sup = true <-> (sub = sup \/ exists m, reach G sub m /\ hits G sup m).
Proof.
  intros G sub sup. rewrite <- is_sub_type_of_spec. unfold is_sub_type_of.
  destruct (is_sub_type_of_total G sub sup) as (b & ->). destruct b; split; congruence.
Qed.

Lemma reach_is_sub : forall G a b, reach G a b -> is_sub_type_of G a b = true.
Proof.
  intros G a b H. apply is_sub_type_of_true. unfold reach in H. apply clos_rt_rtn1 in H.
  destruct H as [|y z Hyz Hy]; [left; reflexivity|right].
  exists y. split; [apply clos_rtn1_rt; exact Hy|].
  destruct Hyz as (l & E & Hin). exists l, (TRef z). split; [exact E|]. split; [exact Hin|left; reflexivity].
Qed.

Definition raw_edge (G : world) (a b : N) : Prop := In b (succs G a).

Lemma super_reaches_complete : forall G cur tgt v',
  super_reaches G (dfs_fuel G) cur tgt [] = Some (false, v') ->
  ~ clos_refl_trans N (raw_edge G) cur tgt.
Proof.
  intros G cur tgt v' H Hreach.
  destruct (super_reaches_spec G tgt (dfs_fuel G) cur [] (dfs_fuel_enough G [])) as (b & v & E & Hc).
  rewrite E in H. inversion H; subst b v. destruct (Hc eq_refl) as [[_ C] Hcur].
  assert (Hall : forall x, clos_refl_trans N (raw_edge G) cur x -> In x v').
  { apply clos_refl_trans_ind_left; [exact Hcur|]. intros y z _ Hy Hyz.
    destruct (C y Hy) as [_ Hs]; [intros []|]. apply Hs, Hyz. }
  destruct (C tgt (Hall tgt Hreach)) as [Hne _]; [intros []|]. apply Hne. reflexivity.
Qed.

Lemma eff_edge_kept : forall G a b, edge G a b ->
  raw_edge G a b /\ is_cyclic_super_edge G a (TRef b) = Some false.
Proof.
  intros G a b (l & E & Hin).
  destruct (eff_supers_total G a) as [[_ E']|(raw & l' & Er & E' & Hkept)]; rewrite E' in E; [discriminate|].
  inversion E; subst l'. destruct (Hkept _ Hin) as [Hraw Hc].
  split; [|exact Hc]. unfold raw_edge, succs. rewrite Er. apply super_ids_In. exact Hraw.
Qed.

(** the graph [get_super_types_iter] yields is acyclic *)
Lemma effective_supers_acyclic : forall G a, ~ clos_trans N (edge G) a a.
Proof.
  intros G a H. apply clos_trans_t1n in H.
  assert (Hraw : forall x y, clos_trans_1n N (edge G) x y -> clos_refl_trans N (raw_edge G) x y).
  { intros x y Hxy. induction Hxy as [x y Hxy|x y z Hxy _ IH].
    - apply rt_step. apply eff_edge_kept. exact Hxy.
    - eapply rt_trans; [apply rt_step; apply eff_edge_kept; exact Hxy|exact IH]. }
  assert (Hsplit : exists b, edge G a b /\ clos_refl_trans N (raw_edge G) b a).
  { inversion H as [y Hay|y z Hay Hya]; subst.
    - exists a. split; [exact Hay|apply rt_refl].
    - exists y. split; [exact Hay|apply Hraw; exact Hya]. }
  destruct Hsplit as (b & Hab & Hba).
  destruct (eff_edge_kept G a b Hab) as [_ Hc]. unfold is_cyclic_super_edge in Hc. cbn [super_id] in Hc.
  destruct (super_reaches G (dfs_fuel G) b a []) as [[r v]|] eqn:Es; [|discriminate].
  inversion Hc; subst r. eapply super_reaches_complete; eassumption.
Qed.
