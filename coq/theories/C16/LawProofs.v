(** A type accepts everything it unfolds to (members of unions, origins of aliases,
    itself): the common root of reflexivity and of union-member acceptance. *)
From Coq Require Import Relations.
From EV Require Import C16.Model C16.Spec C16.SubProofs C16.UnionProofs C16.CheckProofs.
Local Open Scope N_scope.

Lemma unfolds_inv : forall G s z, unfolds G s z -> z = s \/ exists m, unf G s m /\ unfolds G m z.
Proof.
  intros G s z H. apply clos_rt_rt1n in H. destruct H as [|m z Hsm Hmz]; [left; reflexivity|right].
  exists m. split; [exact Hsm|apply clos_rt1n_rt; exact Hmz].
Qed.

Lemma unfolds_leaf : forall G s z, unfolds G s z -> (forall m, ~ unf G s m) -> z = s.
Proof. intros G s z H Hn. destruct (unfolds_inv _ _ _ H) as [E|(m & Hm & _)]; [exact E|]. exfalso. apply (Hn m Hm). Qed.

Lemma unfolds_union_inv : forall G p k ms z, unfolds G (TUnion p k ms) z ->
  z = TUnion p k ms \/ exists m, In m ms /\ unfolds G m z.
Proof.
  intros G p k ms z H. destruct (unfolds_inv _ _ _ H) as [E|(m & Hm & Hz)]; [left; exact E|right].
  inversion Hm; subst. exists m. split; assumption.
Qed.

Lemma unfolds_ref_inv : forall G id z, unfolds G (TRef id) z ->
  z = TRef id \/ exists o, escape_type G (TRef id) = Some o /\ unfolds G o z.
Proof.
  intros G id z H. destruct (unfolds_inv _ _ _ H) as [E|(m & Hm & Hz)]; [left; exact E|right].
  inversion Hm; subst. exists m. split; assumption.
Qed.

Lemma unfolds_step_r : forall G s z y, unfolds G s z -> unf G z y -> unfolds G s y.
Proof. intros G s z y H Hy. eapply rt_trans; [exact H|apply rt_step; exact Hy]. Qed.

(** a union also accepts a union all of whose members are among its own *)
Definition covers_u (s z : ty) : Prop :=
  is_union s = true /\ is_union z = true /\ incl (umembers z) (umembers s).

Definition rel (G : world) (s z : ty) : Prop := unfolds G s z \/ covers_u s z.

(** the calls that are to be answered [Ok] *)
Definition accepts (G : world) (c : call) : Prop :=
  match c with
  | CGen s z => rel G s z
  | CRef id z => unfolds G (TRef id) z
  | _ => False
  end.

Lemma refl_rel : forall G s, rel G s s.
Proof. intros G s. left. apply rt_refl. Qed.

Lemma rel_array_base : forall G cf a b, fits G a b = true ->
  rel G (if strict_array_index cf then from_vec [b; TNil] else b) b.
Proof.
  intros G cf a b H. destruct (strict_array_index cf); [|apply refl_rel].
  destruct (fits_members G a b H) as (Hn & Hl & _).
  destruct (from_vec_opt b Hn Hl) as [[-> ->]|(k & ms & -> & Hsub & _)]; [apply refl_rel|].
  destruct (is_union b) eqn:Eu.
  - right. destruct b; try discriminate. repeat split. exact Hsub.
  - left. apply rt_step. constructor. apply Hsub. destruct b; try discriminate; left; reflexivity.
Qed.

Section Accept.
  Variable G : world.
  Variable cf : cfg.
  Variable k : nat -> call -> res.
  Variable lvl : N.
  Variable n : nat.
  Hypothesis Hk : forall d c a b, (d = 1 \/ d = 2)%nat -> cfits G a b c -> (a + b < n)%nat -> good (k d c).
  Hypothesis HkA : forall d c a b, (d = 1 \/ d = 2)%nat -> cfits G a b c -> accepts G c -> (a + b < n)%nat -> k d c = Ok.
  Hypothesis Hg : guard_ok lvl 2 = true.

  Lemma ref_check_accepts : forall id z a b, fits G a (TRef id) = true -> fits G b z = true ->
    unfolds G (TRef id) z -> (a + b <= n)%nat -> ref_check G k lvl id z = Ok.
  Proof.
    intros id z a b Ha Hb Hu Hle.
    destruct (fits_ref_inv _ _ _ Ha) as (d & Ed & [Hcl|(a' & o & -> & Hali & Eo & Ho)]).
    - (* a class unfolds to nothing but itself *)
      unfold ref_check. rewrite Ed, Hcl. assert (z = TRef id).
      { apply (unfolds_leaf G _ _ Hu). intros m Hm. inversion Hm; subst.
        cbn [escape_type] in H0. rewrite Ed in H0. unfold alias_origin in H0. rewrite Hcl in H0. discriminate. }
      subst z. unfold ref_class. rewrite N.eqb_refl. reflexivity.
    - assert (Hesc : escape_type G (TRef id) = Some o).
      { cbn [escape_type]. rewrite Ed. unfold alias_origin. rewrite Hali. exact Eo. }
      destruct (is_union z) eqn:Eu.
      + (* every member of the compact union against the alias *)
        destruct z; try discriminate. unfold ref_check. rewrite Ed, Hali. destruct (fits_union_inv _ _ _ _ _ Hb) as (b' & -> & Hzs & _).
        apply (all_ok_pred (fun r => r = Ok) eq_refl). intros m Hm. apply (HkA 1%nat _ (S a') b'); [auto|split; auto| |lia].
        eapply unfolds_step_r; [exact Hu|constructor; exact Hm].
      + destruct (ref_check_alias G k lvl id d o z Ed Hali Eo Eu (guard_ok_1 lvl Hg)) as [-> | ->]; [reflexivity|].
        destruct (unfolds_ref_inv _ _ _ Hu) as [-> |(o' & Eo' & Hoz)].
        * (* the alias itself: the nominal retry accepts it *)
          destruct (k 1%nat (CGen o (TRef id))) as [|e|]; try reflexivity;
            unfold ref_class; rewrite N.eqb_refl; reflexivity.
        * rewrite Hesc in Eo'. inversion Eo'; subst o'.
          rewrite (HkA 1%nat (CGen o z) a' b); [reflexivity|auto|split; assumption|left; exact Hoz|lia].
  Qed.

  Lemma func_params_refl : forall ps a b first,
    (forall p t, In p ps -> snd p = Some t -> fits G a t = true) ->
    (forall p t, In p ps -> snd p = Some t -> fits G b t = true) -> dots_last ps = true ->
    (a + b < n)%nat -> func_params k lvl first ps ps = Ok.
  Proof.
    induction ps as [|p r IH]; intros a b first Hps Hps' Hd Hle; [reflexivity|].
    cbn [func_params].
    assert (Hrec : forall f, func_params k lvl f r r = Ok).
    { intros f. apply (IH a b f); eauto using in_cons.
      destruct r; [reflexivity|]. cbn [dots_last] in Hd. apply andb_true_iff in Hd. apply Hd. }
    assert (Hself : forall d t, (d = 1 \/ d = 2)%nat -> snd p = Some t -> k d (CGen t t) = Ok).
    { intros d t Hd' Et. apply (HkA d _ a b); [exact Hd'| |apply refl_rel|lia].
      split; [apply (Hps p t)|apply (Hps' p t)]; auto using in_eq. }
    destruct (fst p =? pn_dots) eqn:Edots.
    - (* the variadic parameter is the last one *)
      assert (r = []).
      { destruct r; [reflexivity|]. cbn [dots_last] in Hd. rewrite Edots in Hd. discriminate. }
      subst r. unfold func_varargs. rewrite (guard_ok_1 lvl Hg). cbn [negb].
      destruct (snd p) as [v|] eqn:Ev; [|reflexivity].
      cbn [all_ok]. rewrite Ev, (Hself 2%nat v); auto.
    - destruct (snd p) as [t|] eqn:Et; [|apply Hrec]. rewrite (Hself 1%nat t); auto.
  Qed.

  Lemma tuple_members_refl : forall ts a b, (forall t, In t ts -> fits G a t = true) ->
    (forall t, In t ts -> fits G b t = true) -> (a + b < n)%nat ->
    tuple_members k ts ts = Ok.
  Proof.
    induction ts as [|t r IH]; intros a b Hts Hts' Hle; [reflexivity|].
    cbn [tuple_members]. rewrite (HkA 2%nat (CGen t t) a b); [|auto|split; auto using in_eq|apply refl_rel|exact Hle].
    apply (IH a b); auto using in_cons.
  Qed.

  Lemma general_accepts : forall s z a b, fits G a s = true -> fits G b z = true -> rel G s z -> (a + b <= n)%nat ->
    general G cf k lvl s z = Ok.
  Proof.
    intros s z a b Ha Hb Hr Hle. unfold general.
    destruct (is_like_any z) eqn:Ela; [reflexivity|].
    destruct (fast_eq s z) eqn:Efe; [reflexivity|].
    destruct (escape_type G z) as [o|] eqn:Ee.
    { (* the compact type is an alias: continue with its origin *)
      destruct z as [| | | |zid| | | |]; try discriminate. destruct (escape_fits _ _ _ _ Hb Ee) as (b' & -> & Ho).
      apply (HkA 1%nat (CGen s o) a b'); [auto|split; assumption| |lia].
      destruct Hr as [Hu|(_ & Ez & _)]; [|discriminate].
      left. eapply unfolds_step_r; [exact Hu|constructor; exact Ee]. }
    (* a source that is neither a union nor a named type unfolds to nothing but itself *)
    assert (Hleaf : is_union s = false -> (forall id, s <> TRef id) -> z = s).
    { intros Hnu Hnr. destruct Hr as [Hu|(Es & _)]; [|congruence]. apply (unfolds_leaf G _ _ Hu).
      intros m Hm. inversion Hm; subst; [discriminate|eapply Hnr; reflexivity]. }
    destruct s as [b0|d v|d x|d i|id|sb0|ts|colon ps ret|p uk ms];
      try (rewrite (Hleaf eq_refl ltac:(discriminate)) in *).
    - (* TBasic *) rewrite fits_basic in Ha. destruct b0; try discriminate; reflexivity.
    - (* TBoolConst *) unfold simple. destruct d; [rewrite Bool.eqb_reflx|]; reflexivity.
    - (* TStrConst *) unfold simple. destruct d; [rewrite N.eqb_refl|]; reflexivity.
    - (* TIntConst *) unfold simple. destruct d; [rewrite Z.eqb_refl|]; reflexivity.
    - (* TRef *) destruct Hr as [Hu|(Es & _)]; [|discriminate].
      eapply ref_check_accepts; eassumption.
    - (* TArray *) destruct (fits_array_inv _ _ _ Ha) as (a0 & -> & Ha0). destruct (fits_array_inv _ _ _ Hb) as (b0 & -> & Hb0).
      unfold complex, array_check.
      rewrite (HkA 1%nat _ (S a0) b0); [reflexivity|auto| | |lia].
      + split; [apply fits_array_base; exact Ha0|exact Hb0].
      + eapply rel_array_base; exact Ha0.
    - (* TTuple *) destruct (fits_tuple_inv _ _ _ Ha) as (a0 & -> & Ha0). destruct (fits_tuple_inv _ _ _ Hb) as (b0 & -> & Hb0).
      unfold complex, tuple_check. rewrite (guard_ok_1 lvl Hg), (tuple_members_refl ts a0 b0); auto. lia.
    - (* TFunc *) destruct (fits_func_inv _ _ _ _ _ Ha) as (a0 & -> & Hps & Hd & ->).
      destruct (fits_func_inv _ _ _ _ _ Hb) as (b0 & -> & Hps' & _).
      apply (func_params_refl ps a0 b0 true); auto. lia.
    - (* TUnion *) destruct (fits_union_inv _ _ _ _ _ Ha) as (a0 & -> & Hms & _).
      unfold complex.
      destruct z as [| | | | | | | |p' uk' zs].
      9:{ (* union against union: every member of the compact union *)
        rewrite (guard_ok_1 lvl Hg). destruct (fits_union_inv _ _ _ _ _ Hb) as (b0 & -> & Hzs & _).
        apply (all_ok_pred (fun r => r = Ok) eq_refl). intros y Hy. apply (HkA 2%nat (CGen _ y) (S a0) b0); [auto|split; auto| |lia].
        left. destruct Hr as [Hu|(_ & _ & Hinc)].
        - eapply unfolds_step_r; [exact Hu|constructor; exact Hy].
        - apply rt_step. constructor. apply Hinc. exact Hy. }
      (* a union against anything else: the member that unfolds to [z] is accepted, the ones before it answer *)
      all: destruct Hr as [Hu|(_ & Ez & _)]; [|discriminate];
        destruct (unfolds_union_inv _ _ _ _ _ Hu) as [E|(m & Hm & Hmz)]; [discriminate|];
        (apply first_ok_ok with (x := m); [exact Hm| |]);
        [ apply (HkA 1%nat (CGen m _) a0 b); [auto|split; auto|left; exact Hmz|lia]
        | intros y Hy; apply (Hk 1%nat _ a0 b); [auto|split; auto|lia] ].
  Qed.

  Lemma step_accepts : forall c a b, cfits G a b c -> accepts G c -> (a + b <= n)%nat -> step G cf k lvl c = Ok.
  Proof.
    intros [s z|s z|id z|colon ps z|s z] a b [Ha Hb] Hr Hle; cbn [accepts step] in *; try contradiction.
    - eapply general_accepts; eassumption.
    - eapply ref_check_accepts; eassumption.
  Qed.
End Accept.

Lemma check_outcome : forall G cf rem lvl c a b,
  MAX_TYPE_CHECK_LEVEL <= N.of_nat rem + lvl -> cfits G a b c -> within lvl a b ->
  good (check G cf rem lvl c) /\ (accepts G c -> check G cf rem lvl c = Ok).
Proof.
  intros G cf rem lvl c a b Hrem. revert a b.
  apply (check_ind G cf (fun lvl c r => forall a b, cfits G a b c -> within lvl a b -> good r /\ (accepts G c -> r = Ok)));
    [clear|exact Hrem].
  intros k lvl c _ Hdeep a b Hc Hw. unfold within in Hw.
  assert (Hk : forall d c' a' b', (d = 1 \/ d = 2)%nat -> cfits G a' b' c' -> (a' + b' < a + b)%nat ->
            good (k d c') /\ (accepts G c' -> k d c' = Ok)).
  { intros d c' a' b' Hd Hc' Hlt. assert (N.of_nat d <= 2) by (destruct Hd as [-> | ->]; cbn; lia).
    apply (Hdeep d c' Hd) with (a := a') (b := b'); [lia|exact Hc'|unfold within; lia]. }
  assert (Hg : guard_ok lvl 2 = true) by (apply N.leb_le; lia).
  split; [|intros Ha].
  - apply (step_good G cf k lvl (a + b)) with (a := a) (b := b); auto; [|lia]. intros; eapply Hk; eassumption.
  - apply (step_accepts G cf k lvl (a + b)) with (a := a) (b := b); auto; intros; eapply Hk; eassumption.
Qed.

Lemma check_type_unfolds : forall G cf n s z,
  fits G n s = true -> fits G n z = true -> unfolds G s z -> within 0 n n ->
  check_type G cf s z = Ok.
Proof.
  intros G cf n s z Hs Hz Hu Hw.
  apply (check_outcome G cf _ 0 (CGen s z) n n); [lia|split; assumption|exact Hw|left; exact Hu].
Qed.

Lemma check_refl : forall G cf n T, fits G n T = true -> within 0 n n -> check_type G cf T T = Ok.
Proof. intros G cf n T H Hw. apply (check_type_unfolds G cf n); auto. apply rt_refl. Qed.

Lemma union_member_accepted : forall G cf n p k ms m,
  fits G n (TUnion p k ms) = true -> In m ms -> within 0 n n ->
  check_type G cf (TUnion p k ms) m = Ok.
Proof.
  intros G cf n p k ms m H Hm Hw. apply (check_type_unfolds G cf n); auto.
  - apply (fits_members G n _ H). exact Hm.
  - apply rt_step. constructor. exact Hm.
Qed.

Lemma alias_origin_accepted : forall G cf n id o,
  fits G n (TRef id) = true -> escape_type G (TRef id) = Some o -> within 0 n n ->
  check_type G cf (TRef id) o = Ok.
Proof.
  intros G cf n id o H He Hw. apply (check_type_unfolds G cf n); auto.
  - destruct (escape_fits _ _ _ _ H He) as (n' & -> & Ho). apply (fits_mono G n'); [lia|exact Ho].
  - apply rt_step. constructor. exact He.
Qed.

(** no level budget here: [is_sub_type_of] is iterative, so the length of the chain does not matter *)
Lemma ancestor_accepted : forall G cf A C dA dC,
  get_decl G A = Some dA -> is_alias dA = false ->
  get_decl G C = Some dC -> is_alias dC = false ->
  reach G C A ->
  check_type G cf (TRef A) (TRef C) = Ok.
Proof.
  intros G cf A C dA dC EA HA EC HC Hr. unfold check_type. rewrite check_unfold. cbn [step]. unfold general.
  cbn [is_like_any is_b orb fast_eq].
  destruct (N.eqb_spec A C) as [->|Hne]; [reflexivity|].
  cbn [escape_type]. rewrite EC. unfold alias_origin. rewrite HC.
  unfold ref_check. rewrite EA, HA. unfold ref_class.
  destruct (A =? C); [reflexivity|]. rewrite (reach_is_sub G C A Hr). reflexivity.
Qed.

(** [any] and [unknown] accept everything, once the alias chain of the compact type is peeled, one
    level each *)
Lemma general_top : forall G cf k lvl top T, (top = TBasic BAny \/ top = TBasic BUnknown) ->
  general G cf k lvl top T = Ok \/
  exists o, escape_type G T = Some o /\ general G cf k lvl top T = k 1%nat (CGen top o).
Proof.
  intros G cf k lvl top T Htop. unfold general.
  destruct (is_like_any T); [left; reflexivity|]. destruct (fast_eq top T); [left; reflexivity|].
  destruct (escape_type G T) as [o|]; [right; eauto|]. left. destruct Htop as [-> | ->]; reflexivity.
Qed.

(** ... so the only other answer is the guard's, given when the alias chain of the compact type is
    longer than the levels that are left *)
Lemma top_accepts : forall G cf top rem lvl T,
  (top = TBasic BAny \/ top = TBasic BUnknown) ->
  MAX_TYPE_CHECK_LEVEL <= N.of_nat rem + lvl ->
  check G cf rem lvl (CGen top T) = Ok \/
  check G cf rem lvl (CGen top T) = Err Recursion /\
    forall n, lvl + N.of_nat n <= MAX_TYPE_CHECK_LEVEL -> escapes_within G n T = false.
Proof.
  intros G cf top rem lvl T Htop Hrem.
  refine (check_ind G cf (fun lvl c r => forall T, c = CGen top T -> r = Ok \/ r = Err Recursion /\
            forall n, lvl + N.of_nat n <= MAX_TYPE_CHECK_LEVEL -> escapes_within G n T = false) _ rem lvl _ Hrem T eq_refl).
  clear - Htop. intros k lvl c Hover Hdeep T ->. cbn [step].
  destruct (general_top G cf k lvl top T Htop) as [E|(o & Eo & E)]; rewrite E; [left; reflexivity|].
  destruct (N.lt_ge_cases MAX_TYPE_CHECK_LEVEL (lvl + N.of_nat 1)) as [H|H].
  - right. split; [apply Hover; auto|].
    intros [|n] Hn; [cbn [escapes_within]; rewrite Eo; reflexivity|lia].
  - destruct (Hdeep 1%nat (CGen top o) (or_introl eq_refl) H o eq_refl) as [E'|[E' Hesc]]; [left; exact E'|right].
    split; [exact E'|]. intros [|n] Hn; cbn [escapes_within]; rewrite Eo; [reflexivity|apply Hesc; lia].
Qed.

Lemma any_unknown_top : forall G cf top T,
  (top = TBasic BAny \/ top = TBasic BUnknown) ->
  escapes_within G (N.to_nat MAX_TYPE_CHECK_LEVEL) T = true ->
  check_type G cf top T = Ok.
Proof.
  intros G cf top T Htop He. unfold check_type.
  destruct (top_accepts G cf top (N.to_nat MAX_TYPE_CHECK_LEVEL) 0 T Htop) as [E|[_ Hesc]]; [lia|exact E|].
  rewrite Hesc in He; [discriminate|lia].
Qed.
