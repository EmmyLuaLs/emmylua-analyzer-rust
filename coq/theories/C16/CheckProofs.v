(** The model's assignability check never outruns its level guard ([check_nd]: no [Diverge] once the fuel
    covers the levels that are left), and on well-formed types within the level budget it accepts or refuses. *)
From EV Require Import C16.Model C16.Spec C16.UnionProofs.
Local Open Scope N_scope.

(** the continuation [check] hands to [step]: the guard's refusal, or a check one or two levels deeper *)
Definition kont (G : world) (cf : cfg) (rem : nat) (lvl : N) (d : nat) (c' : call) : res :=
  if MAX_TYPE_CHECK_LEVEL <? lvl + N.of_nat d then Err Recursion
  else match d, rem with
       | 1%nat, S r1 => check G cf r1 (lvl + 1) c'
       | 2%nat, S (S r2) => check G cf r2 (lvl + 2) c'
       | _, _ => Diverge
       end.

Lemma check_unfold : forall G cf rem lvl c, check G cf rem lvl c = step G cf (kont G cf rem lvl) lvl c.
Proof. intros. destruct rem; reflexivity. Qed.

(** [P] holds of every answer of [check] with enough fuel if [step] establishes it for every
    continuation that refuses beyond the guard's limit and satisfies [P] below it *)
Lemma check_ind : forall G cf (P : N -> call -> res -> Prop),
  (forall k lvl c,
     (forall d c', (d = 1 \/ d = 2)%nat -> MAX_TYPE_CHECK_LEVEL < lvl + N.of_nat d -> k d c' = Err Recursion) ->
     (forall d c', (d = 1 \/ d = 2)%nat -> lvl + N.of_nat d <= MAX_TYPE_CHECK_LEVEL -> P (lvl + N.of_nat d) c' (k d c')) ->
     P lvl c (step G cf k lvl c)) ->
  forall rem lvl c, MAX_TYPE_CHECK_LEVEL <= N.of_nat rem + lvl -> P lvl c (check G cf rem lvl c).
Proof.
  intros G cf P Hstep rem. induction rem as [rem IH] using lt_wf_ind. intros lvl c Hb.
  rewrite check_unfold. apply Hstep; intros d c' Hd Hlvl; unfold kont.
  - rewrite (proj2 (N.ltb_lt _ _) Hlvl). reflexivity.
  - rewrite (proj2 (N.ltb_ge _ _) Hlvl).
    destruct Hd as [-> | ->]; [destruct rem as [|r1]|destruct rem as [|[|r2]]]; cbn [N.of_nat] in *; try lia; apply IH; lia.
Qed.

Definition nd (r : res) : Prop := r <> Diverge.

Lemma nd_ok : nd Ok. Proof. discriminate. Qed.
Lemma nd_err : forall e, nd (Err e). Proof. discriminate. Qed.

Lemma all_ok_pred : forall (Q : res -> Prop), Q Ok ->
  forall A (f : A -> res) xs, (forall x, In x xs -> Q (f x)) -> Q (all_ok f xs).
Proof.
  intros Q HQ A f xs H. apply Forall_forall in H. induction H as [|x r Hx _ IH]; cbn [all_ok]; [exact HQ|].
  destruct (f x); assumption.
Qed.

Lemma first_ok_pred : forall (Q : res -> Prop), Q (Err NotMatch) ->
  forall A (f : A -> res) xs, (forall x, In x xs -> Q (f x)) -> Q (first_ok f xs).
Proof.
  intros Q HQ A f xs H. apply Forall_forall in H. induction H as [|x r Hx _ IH]; cbn [first_ok]; [exact HQ|].
  destruct (f x) as [|[| |]|]; assumption.
Qed.

Ltac nd_step :=
  match goal with
  | |- nd Ok => apply nd_ok
  | |- nd (Err _) => apply nd_err
  | H : forall d c, (d = 1 \/ d = 2)%nat -> nd (?k d c) |- nd (?k _ _) => apply H; auto
  | Hk : forall d c, (d = 1 \/ d = 2)%nat -> nd (?k d c), H : ?k ?d ?c = Diverge |- _ =>
      exfalso; apply (Hk d c); [auto|exact H]
  | H : nd Diverge |- _ => exfalso; exact (H eq_refl)
  | |- nd (all_ok _ _) => apply (all_ok_pred nd nd_ok); intros
  | |- nd (first_ok _ _) => apply (first_ok_pred nd (nd_err _)); intros
  | |- nd (match ?x with _ => _ end) => destruct x eqn:?
  | |- nd (if ?b then _ else _) => destruct b eqn:?
  end.

Section NoDiverge.
  Variable G : world.
  Variable cf : cfg.
  Variable k : nat -> call -> res.
  Variable lvl : N.
  Hypothesis Hk : forall d c, (d = 1 \/ d = 2)%nat -> nd (k d c).

  Lemma base_for_ref_nd : forall s c, nd (base_for_ref G lvl s c).
  Proof. intros. unfold base_for_ref. repeat nd_step. Qed.

  Lemma simple_tail_nd : forall s c, nd (simple_tail k s c).
  Proof. intros. unfold simple_tail. repeat nd_step. Qed.

  Lemma ref_or_tail_nd : forall s c, nd (ref_or_tail G k lvl s c).
  Proof.
    intros. unfold ref_or_tail. pose proof (base_for_ref_nd s c).
    repeat (first [ apply simple_tail_nd | nd_step ]).
  Qed.

  Lemma simple_nd : forall s c, nd (simple G cf k lvl s c).
  Proof. intros s c. unfold simple. repeat (first [ apply simple_tail_nd | apply ref_or_tail_nd | nd_step ]). Qed.

  Lemma ref_class_nd : forall id c, nd (ref_class G k lvl id c).
  Proof. intros. unfold ref_class. repeat nd_step. Qed.

  Lemma ref_check_nd : forall id c, nd (ref_check G k lvl id c).
  Proof.
    intros. unfold ref_check.
    repeat (first [ apply ref_class_nd | nd_step ]).
  Qed.

  Lemma func_varargs_nd : forall vt cps, nd (func_varargs k lvl vt cps).
  Proof. intros. unfold func_varargs. repeat nd_step. Qed.

  Lemma func_params_nd : forall sps cps first, nd (func_params k lvl first sps cps).
  Proof.
    induction sps as [|sp sps' IH]; intros [|cp cps'] first; cbn [func_params]; try apply nd_ok.
    pose proof (func_varargs_nd (snd sp) (cp :: cps')).
    destruct (fst sp =? pn_dots); repeat (first [ apply IH | nd_step ]).
  Qed.

  Lemma func_check_nd : forall colon sps c, nd (func_check k lvl colon sps c).
  Proof. intros. unfold func_check. repeat (first [ apply func_params_nd | nd_step ]). Qed.

  Lemma array_check_nd : forall sb c, nd (array_check cf k lvl sb c).
  Proof. intros. unfold array_check. repeat nd_step. Qed.

  Lemma tuple_members_nd : forall ss cs, nd (tuple_members k ss cs).
  Proof.
    induction ss as [|s ss' IH]; intros cs; cbn [tuple_members]; repeat (first [ apply IH | nd_step ]).
  Qed.

  Lemma tuple_check_nd : forall ss c, nd (tuple_check k lvl ss c).
  Proof. intros. unfold tuple_check. repeat (first [ apply tuple_members_nd | nd_step ]). Qed.

  Lemma complex_tail_nd : forall s c, nd (complex_tail k s c).
  Proof. intros. unfold complex_tail. repeat nd_step. Qed.

  Lemma complex_nd : forall s c, nd (complex cf k lvl s c).
  Proof.
    intros s c. unfold complex.
    destruct s; try apply complex_tail_nd; [pose proof (array_check_nd s c)|pose proof (tuple_check_nd ts c)|];
      repeat (first [ apply complex_tail_nd | nd_step ]).
  Qed.

  Lemma general_nd : forall s c, nd (general G cf k lvl s c).
  Proof.
    intros s c. unfold general.
    repeat (first [ apply simple_nd | apply ref_check_nd | apply func_check_nd | apply complex_nd | nd_step ]).
  Qed.

  Lemma step_nd : forall c, nd (step G cf k lvl c).
  Proof.
    intros [s c|s c|id c|colon ps c|s c]; cbn [step];
      [apply general_nd|apply simple_nd|apply ref_check_nd|apply func_check_nd|apply complex_nd].
  Qed.
End NoDiverge.

Lemma check_nd : forall G cf rem lvl c,
  MAX_TYPE_CHECK_LEVEL <= N.of_nat rem + lvl -> nd (check G cf rem lvl c).
Proof.
  intros G cf. apply (check_ind G cf (fun _ _ r => nd r)). intros k lvl c Hover Hdeep. apply step_nd.
  intros d c' Hd. destruct (N.lt_ge_cases MAX_TYPE_CHECK_LEVEL (lvl + N.of_nat d)) as [H|H];
    [rewrite (Hover d c' Hd H); apply nd_err|apply (Hdeep d c' Hd H)].
Qed.

Lemma fits_basic : forall G n b, fits G n (TBasic b) = negb (basic_eqb b BSelfInfer).
Proof. destruct n; reflexivity. Qed.

Lemma fits_func_ret : forall G a c ps r r', fits G a (TFunc c ps r) = fits G a (TFunc c ps r').
Proof. destruct a; reflexivity. Qed.

Lemma fits_mono : forall G n m t, (n <= m)%nat -> fits G n t = true -> fits G m t = true.
Proof.
  intros G n. induction n as [|n IH]; intros [|m] t Hle H; try lia; destruct t; cbn [fits] in *;
    try discriminate; try exact H; try (apply IH; [lia|exact H]).
  - destruct (get_decl G id) as [d|]; [|discriminate]. destruct (is_alias d); [|reflexivity].
    destruct (d_origin d); discriminate.
  - destruct (get_decl G id) as [d|]; [|discriminate]. destruct (is_alias d); [|reflexivity].
    destruct (d_origin d); [|discriminate]. apply IH; [lia|exact H].
  - rewrite forallb_forall in *. intros x Hx. apply IH; [lia|auto].
  - rewrite !andb_true_iff, forallb_forall in *. destruct H as [[H0 H1] H2]. repeat split; auto.
    intros x Hx. specialize (H1 x Hx). destruct (snd x); [apply IH; [lia|exact H1]|reflexivity].
  - rewrite !andb_true_iff, forallb_forall in *. destruct H as [[H1 H2] H3]. repeat split; auto.
    intros x Hx. apply IH; [lia|auto].
Qed.

Lemma fits_union_inv : forall G b p k ms, fits G b (TUnion p k ms) = true ->
  exists b', b = S b' /\ (forall m, In m ms -> fits G b' m = true) /\ (hnodup ms = true /\ (2 <= length ms)%nat).
Proof.
  intros G [|b'] p k ms H; [discriminate|]. cbn [fits] in H.
  rewrite !andb_true_iff, forallb_forall, N.leb_le in H. destruct H as [[H1 H2] H3].
  exists b'. repeat split; auto. lia.
Qed.

Lemma fits_union_intro : forall G b p k ms,
  (forall m, In m ms -> fits G b m = true) -> hnodup ms = true -> (2 <= length ms)%nat ->
  fits G (S b) (TUnion p k ms) = true.
Proof.
  intros G b p k ms H1 H2 H3. cbn [fits]. rewrite !andb_true_iff, forallb_forall, N.leb_le.
  repeat split; auto. lia.
Qed.

Lemma fits_array_inv : forall G b x, fits G b (TArray x) = true -> exists b', b = S b' /\ fits G b' x = true.
Proof. intros G [|b'] x H; [discriminate|]. eauto. Qed.

Lemma fits_tuple_inv : forall G b ts, fits G b (TTuple ts) = true ->
  exists b', b = S b' /\ (forall t, In t ts -> fits G b' t = true).
Proof. intros G [|b'] ts H; [discriminate|]. cbn [fits] in H. rewrite forallb_forall in H. eauto. Qed.

Lemma fits_func_inv : forall G b colon ps r, fits G b (TFunc colon ps r) = true ->
  exists b', b = S b' /\ (forall p t, In p ps -> snd p = Some t -> fits G b' t = true) /\ (dots_last ps = true /\ colon = false).
Proof.
  intros G [|b'] colon ps r H; [discriminate|]. cbn [fits] in H.
  rewrite !andb_true_iff, forallb_forall, negb_true_iff in H. destruct H as [[H0 H1] H2].
  exists b'. repeat split; auto. intros p t Hp Ht. specialize (H1 p Hp). rewrite Ht in H1. exact H1.
Qed.

Lemma fits_ref_inv : forall G b id, fits G b (TRef id) = true ->
  exists d, get_decl G id = Some d /\
    (is_alias d = false \/ exists b' o, b = S b' /\ is_alias d = true /\ d_origin d = Some o /\ fits G b' o = true).
Proof.
  intros G b id H. assert (E : fits G b (TRef id) = match get_decl G id with
      | None => false
      | Some d => if is_alias d then match d_origin d, b with Some o, S b' => fits G b' o | _, _ => false end else true
      end) by (destruct b; reflexivity).
  rewrite E in H. destruct (get_decl G id) as [d|]; [|discriminate].
  exists d. split; [reflexivity|]. destruct (is_alias d); [right|left; reflexivity].
  destruct (d_origin d) as [o|]; [|discriminate]. destruct b as [|b']; [discriminate|].
  exists b', o. auto.
Qed.

Lemma escape_fits : forall G b id o, fits G b (TRef id) = true -> escape_type G (TRef id) = Some o ->
  exists b', b = S b' /\ fits G b' o = true.
Proof.
  intros G b id o H E. destruct (fits_ref_inv _ _ _ H) as (d & Ed & [Ha|(b' & o' & -> & Ha & Eo & Ho)]);
    cbn [escape_type] in E; rewrite Ed in E; unfold alias_origin in E; rewrite Ha in E.
  - discriminate.
  - rewrite Eo in E. inversion E; subst. eauto.
Qed.

Lemma fits_members : forall G a b, fits G a b = true ->
  hnodup (members b) = true /\ (is_union b = true -> (2 <= length (members b))%nat) /\
  forall m, In m (members b) -> fits G a m = true.
Proof.
  intros G a b H. destruct b as [| | | | | | | |p uk ms]; try (repeat split; [discriminate|intros m [<-|[]]; exact H]).
  destruct (fits_union_inv _ _ _ _ _ H) as (a' & -> & Hms & Hn & Hl). repeat split; auto.
  intros m Hm. apply (fits_mono G a'); auto.
Qed.

(** the element type an array is checked with: [base | nil] under strict.arrayIndex *)
Lemma fits_array_base : forall G cf a b, fits G a b = true ->
  fits G (S a) (if strict_array_index cf then from_vec [b; TNil] else b) = true.
Proof.
  intros G cf a b H. destruct (strict_array_index cf); [|apply (fits_mono G a); auto].
  destruct (fits_members G a b H) as (Hn & Hl & Hms).
  destruct (from_vec_opt b Hn Hl) as [[_ ->]|(k & ms & -> & _ & Hsub & Hn' & Hl')]; [reflexivity|].
  apply fits_union_intro; auto. intros m Hm. destruct (Hsub m Hm) as [Hin| ->]; [auto|apply fits_basic].
Qed.

Lemma alias_real_fits : forall G m b c, fits G b c = true -> (b <= m)%nat ->
  exists c', alias_real G m c = inl c'.
Proof.
  intros G m. induction m as [|m IH]; intros b c H Hle; (destruct c; try (eexists; reflexivity)); cbn [alias_real];
    destruct (fits_ref_inv _ _ _ H) as (d & -> & [Ha|(b' & o & -> & Ha & -> & Ho)]); rewrite Ha; try (eexists; reflexivity).
  - lia.
  - apply (IH b' o Ho). lia.
Qed.

Definition good (r : res) : Prop := r = Ok \/ r = Err NotMatch.
Lemma good_ok : good Ok. Proof. left; reflexivity. Qed.
Lemma good_nm : good (Err NotMatch). Proof. right; reflexivity. Qed.

(** [match r with Err DonotCheck => x | r => r end]; the branches are written out because over a
    variable [r] the catch-all branch would not be the model's term *)
Lemma good_pass : forall r x, good r ->
  good (match r with
        | Err DonotCheck => x | Ok => Ok | Err NotMatch => Err NotMatch | Err Recursion => Err Recursion | Diverge => Diverge
        end).
Proof. intros r x [-> | ->]; [apply good_ok|apply good_nm]. Qed.

Lemma first_ok_ok : forall A (f : A -> res) xs x,
  In x xs -> f x = Ok -> (forall y, In y xs -> good (f y)) -> first_ok f xs = Ok.
Proof.
  intros A f xs x. induction xs as [|y r IH]; intros Hin Hx Hg; [destruct Hin|].
  cbn [first_ok]. destruct (Hg y (or_introl eq_refl)) as [E|E]; rewrite E; [reflexivity|].
  destruct Hin as [->|Hin]; [congruence|]. apply IH; auto using in_cons.
Qed.

Definition cfits (G : world) (a b : nat) (c : call) : Prop :=
  match c with
  | CGen s c | CSimple s c | CComplex s c => fits G a s = true /\ fits G b c = true
  | CRef id c => fits G a (TRef id) = true /\ fits G b c = true
  | CFunc colon ps c => fits G a (TFunc colon ps TNil) = true /\ fits G b c = true
  end.

Lemma guard_ok_1 : forall lvl, guard_ok lvl 2 = true -> guard_ok lvl 1 = true.
Proof. unfold guard_ok. intros lvl H. apply N.leb_le in H. apply N.leb_le. lia. Qed.

(** [check_ref_type_compact] of an alias against a compact type that is not a union: accepted when
    the origin contains the compact type, else the check of the origin against it, with the nominal
    retry for a named compact type *)
Lemma ref_check_alias : forall G k lvl id d o c,
  get_decl G id = Some d -> is_alias d = true -> d_origin d = Some o -> is_union c = false ->
  guard_ok lvl 1 = true ->
  ref_check G k lvl id c = Ok \/
  ref_check G k lvl id c = if negb (is_ok (k 1%nat (CGen o c))) && match c with TRef _ => true | _ => false end
                           then ref_class G k lvl id c else k 1%nat (CGen o c).
Proof.
  intros G k lvl id d o c Ed Ha Eo Hc Hg. unfold ref_check. rewrite Ed, Ha.
  destruct c; try discriminate Hc; rewrite Eo, Hg; cbn [negb];
    (destruct (match o with TUnion _ _ oms => existsb _ oms | _ => req o _ end); [left|right]; reflexivity).
Qed.

Ltac good_step :=
  match goal with
  | |- good Ok => apply good_ok
  | |- good (Err NotMatch) => apply good_nm
  | |- good (all_ok _ _) => apply (all_ok_pred good good_ok); intros
  | |- good (first_ok _ _) => apply (first_ok_pred good good_nm); intros
  | |- good (match ?x with _ => _ end) => destruct x eqn:?
  | |- good (if ?b then _ else _) => destruct b eqn:?
  end.

Section Good.
  Variable G : world.
  Variable cf : cfg.
  Variable k : nat -> call -> res.
  Variable lvl : N.
  Variable n : nat.
  Hypothesis Hk : forall d c a b, (d = 1 \/ d = 2)%nat -> cfits G a b c -> (a + b < n)%nat -> good (k d c).
  Hypothesis Hg : guard_ok lvl 2 = true.
  Hypothesis Hal : (n <= N.to_nat (MAX_TYPE_CHECK_LEVEL - (lvl + 1)))%nat.

  Lemma members_good : forall (f : ty -> call) p uk ms a b,
    fits G b (TUnion p uk ms) = true -> (forall m b', fits G b' m = true -> cfits G a b' (f m)) ->
    (a + b <= n)%nat -> good (all_ok (fun m => k 1%nat (f m)) ms).
  Proof.
    intros f p uk ms a b Hb Hf Hle. destruct (fits_union_inv _ _ _ _ _ Hb) as (b' & -> & Hms & _).
    apply (all_ok_pred good good_ok). intros m Hm. apply (Hk 1%nat _ a b'); [auto|apply Hf, Hms, Hm|lia].
  Qed.

  Lemma base_for_ref_good : forall s c b, fits G b c = true -> (b <= n)%nat -> good (base_for_ref G lvl s c).
  Proof.
    intros s c b Hb Hle. unfold base_for_ref. rewrite (guard_ok_1 lvl Hg). cbn [negb].
    destruct (alias_real_fits G (N.to_nat (MAX_TYPE_CHECK_LEVEL - (lvl + 1))) b c Hb) as (c' & ->); [lia|].
    repeat good_step.
  Qed.

  Lemma simple_tail_good : forall s c a b, fits G a s = true -> fits G b c = true -> (a + b <= n)%nat ->
    good (simple_tail k s c).
  Proof.
    intros s c a b Ha Hb Hle. unfold simple_tail. destruct c; try apply good_nm.
    apply (members_good (CSimple s) _ _ _ a b Hb); [split; assumption|exact Hle].
  Qed.

  Lemma ref_or_tail_good : forall s c a b, fits G a s = true -> fits G b c = true -> (a + b <= n)%nat ->
    good (ref_or_tail G k lvl s c).
  Proof.
    intros s c a b Ha Hb Hle. unfold ref_or_tail.
    destruct (base_for_ref_good s c b Hb) as [E|E]; [lia| |]; rewrite E; [apply good_ok|].
    eapply simple_tail_good; eauto.
  Qed.

  Lemma simple_good : forall s c a b, fits G a s = true -> fits G b c = true -> (a + b <= n)%nat ->
    good (simple G cf k lvl s c).
  Proof.
    intros s c a b Ha Hb Hle. unfold simple.
    repeat (first [ eapply simple_tail_good; eassumption
                  | eapply ref_or_tail_good; eassumption
                  | good_step ]).
  Qed.

  Lemma ref_class_good : forall id c a b, fits G a (TRef id) = true -> fits G b c = true -> (a + b <= n)%nat ->
    good (ref_class G k lvl id c).
  Proof.
    intros id c a b Ha Hb Hle. unfold ref_class. rewrite (guard_ok_1 lvl Hg).
    destruct c; try (repeat good_step; fail).
    apply (members_good (CGen (TRef id)) _ _ _ a b Hb); [split; assumption|exact Hle].
  Qed.

  Lemma ref_check_good : forall id c a b, fits G a (TRef id) = true -> fits G b c = true -> (a + b <= n)%nat ->
    good (ref_check G k lvl id c).
  Proof.
    intros id c a b Ha Hb Hle.
    destruct (fits_ref_inv _ _ _ Ha) as (d & Ed & [Hcl|(a' & o & -> & Hali & Eo & Ho)]).
    - unfold ref_check. rewrite Ed, Hcl. eapply ref_class_good; eauto.
    - destruct (is_union c) eqn:Eu.
      + destruct c; try discriminate. unfold ref_check. rewrite Ed, Hali.
        apply (members_good (CRef id) _ _ _ (S a') b Hb); [split; assumption|exact Hle].
      + destruct (ref_check_alias G k lvl id d o c Ed Hali Eo Eu (guard_ok_1 lvl Hg)) as [-> | ->]; [apply good_ok|].
        destruct (Hk 1%nat (CGen o c) a' b) as [E|E]; [auto|split; assumption|lia| |];
          rewrite E; cbn [is_ok negb andb]; [apply good_ok|].
        destruct c; try apply good_nm. eapply ref_class_good; eauto.
  Qed.

  Lemma func_varargs_good : forall vt cps a b,
    (forall v, vt = Some v -> fits G a v = true) ->
    (forall p t, In p cps -> snd p = Some t -> fits G b t = true) ->
    (a + b < n)%nat -> good (func_varargs k lvl vt cps).
  Proof.
    intros vt cps a b Hv Hc Hle. unfold func_varargs. rewrite (guard_ok_1 lvl Hg). cbn [negb].
    destruct vt as [v|]; [|apply good_ok].
    apply (all_ok_pred good good_ok). intros cp Hcp. destruct (snd cp) as [ct|] eqn:Ect; [|apply good_ok].
    apply (Hk 2%nat _ b a); [auto| |lia]. split; [eapply Hc; eauto|apply Hv; reflexivity].
  Qed.

  Lemma func_params_good : forall sps cps first a b,
    (forall p t, In p sps -> snd p = Some t -> fits G a t = true) ->
    (forall p t, In p cps -> snd p = Some t -> fits G b t = true) ->
    (a + b < n)%nat -> good (func_params k lvl first sps cps).
  Proof.
    induction sps as [|sp sps' IH]; intros [|cp cps'] first a b Hs Hc Hle; cbn [func_params]; try apply good_ok.
    assert (Hva : good (if fst sp =? pn_dots then func_varargs k lvl (snd sp) (cp :: cps') else Ok)).
    { destruct (fst sp =? pn_dots); [|apply good_ok].
      apply (func_varargs_good _ _ a b); auto.
      intros v Ev. apply (Hs sp v); [left; reflexivity|exact Ev]. }
    destruct Hva as [E|E]; rewrite E; [|apply good_nm].
    assert (Hrec : forall f, good (func_params k lvl f sps' cps')).
    { intros f. apply (IH cps' f a b); eauto using in_cons. }
    destruct (fst cp =? pn_dots); [apply good_ok|].
    destruct (snd sp) as [st|] eqn:Est; [|apply Hrec].
    destruct (snd cp) as [ct|] eqn:Ect; [|apply Hrec].
    assert (Hr : good (k 1%nat (CGen ct st))).
    { apply (Hk 1%nat _ b a); [auto| |lia]. split.
      - apply (Hc cp ct); [left; reflexivity|exact Ect].
      - apply (Hs sp st); [left; reflexivity|exact Est]. }
    destruct Hr as [E'|E']; rewrite E'; [apply Hrec|].
    destruct (first && is_b BSelfInfer st && (fst cp =? pn_self))%bool; [apply Hrec|apply good_nm].
  Qed.

  Lemma func_check_good : forall colon sps c a b, fits G a (TFunc colon sps TNil) = true -> fits G b c = true ->
    (a + b <= n)%nat -> good (func_check k lvl colon sps c).
  Proof.
    intros colon sps c a b Ha Hb Hle. unfold func_check.
    destruct (fits_func_inv _ _ _ _ _ Ha) as (a' & -> & Hsp & _).
    destruct c; try apply good_nm.
    - (* TBasic *) destruct b0; try apply good_nm. apply good_ok.
    - (* TFunc *) destruct (fits_func_inv _ _ _ _ _ Hb) as (b' & -> & Hcp & _).
      apply (func_params_good _ _ _ a' b'); auto; [|lia].
      intros p t Hp Ht. destruct colon0; [|eapply Hcp; eauto].
      destruct Hp as [<-|Hp]; [discriminate|eapply Hcp; eauto].
    - (* TUnion *) apply (members_good (CFunc colon sps) _ _ _ (S a') b Hb); [split; assumption|exact Hle].
  Qed.

  Lemma tuple_members_good : forall ss cs a b,
    (forall t, In t ss -> fits G a t = true) -> (forall t, In t cs -> fits G b t = true) ->
    (a + b < n)%nat -> good (tuple_members k ss cs).
  Proof.
    induction ss as [|s ss' IH]; intros cs a b Hs Hc Hle; cbn [tuple_members]; [apply good_ok|].
    destruct cs as [|c cs'].
    - destruct (is_optional s); [|apply good_nm]. apply (IH [] a b); auto using in_cons.
    - assert (Hr : good (k 2%nat (CGen s c))).
      { apply (Hk 2%nat _ a b); [auto| |exact Hle]. split; [apply Hs|apply Hc]; left; reflexivity. }
      destruct Hr as [E|E]; rewrite E; [|apply good_nm].
      apply (IH cs' a b); auto using in_cons.
  Qed.

  Lemma complex_tail_good : forall s c a b, fits G a s = true -> fits G b c = true -> (a + b <= n)%nat ->
    good (complex_tail k s c).
  Proof.
    intros s c a b Ha Hb Hle. unfold complex_tail. destruct c; try apply good_nm.
    apply (members_good (CComplex s) _ _ _ a b Hb); [split; assumption|exact Hle].
  Qed.

  Lemma complex_good : forall s c a b, fits G a s = true -> fits G b c = true -> (a + b <= n)%nat ->
    good (complex cf k lvl s c).
  Proof.
    intros s c a b Ha Hb Hle. unfold complex.
    destruct s as [| | | | |sb0|ss| |p uk ms]; try (eapply complex_tail_good; eassumption).
    - (* TArray *) unfold array_check. destruct (fits_array_inv _ _ _ Ha) as (a0 & -> & Ha0).
      pose proof (fits_array_base G cf a0 sb0 Ha0) as Hsb. rewrite (guard_ok_1 lvl Hg).
      destruct c as [b0| | | | |cb|ts| |]; try (eapply complex_tail_good; eassumption).
      + (* TBasic *) destruct b0; try (eapply complex_tail_good; eassumption); apply good_ok.
      + (* TRef *) apply good_nm.
      + (* TArray *) apply good_pass. destruct (fits_array_inv _ _ _ Hb) as (b' & -> & Hb').
        apply (Hk 1%nat _ (S a0) b'); [auto|split; assumption|lia].
      + (* TTuple *) apply good_pass. destruct (fits_tuple_inv _ _ _ Hb) as (b' & -> & Hb').
        apply (all_ok_pred good good_ok). intros t Ht. apply (Hk 1%nat _ (S a0) b'); [auto|split; auto|lia].
    - (* TTuple *) unfold tuple_check. rewrite (guard_ok_1 lvl Hg). destruct (fits_tuple_inv _ _ _ Ha) as (a' & -> & Ha').
      destruct c as [b0| | | | |cb|ts| |]; try (eapply complex_tail_good; eassumption).
      + (* TBasic *) destruct b0; try (eapply complex_tail_good; eassumption); apply good_ok.
      + (* TArray *) apply good_pass. destruct (fits_array_inv _ _ _ Hb) as (b' & -> & Hb').
        apply (all_ok_pred good good_ok). intros t Ht. apply (Hk 1%nat _ b' a'); [auto|split; auto|lia].
      + (* TTuple *) apply good_pass. destruct (fits_tuple_inv _ _ _ Hb) as (b' & -> & Hb').
        apply (tuple_members_good _ _ a' b'); auto. lia.
    - (* TUnion *) destruct (fits_union_inv _ _ _ _ _ Ha) as (a' & Ea & Hms & _).
      assert (Hother : good (first_ok (fun sub => k 1%nat (CGen sub c)) ms)).
      { apply (first_ok_pred good good_nm). intros m Hm. apply (Hk 1%nat _ a' b); [auto|split; auto|lia]. }
      destruct c; try exact Hother.
      rewrite (guard_ok_1 lvl Hg). destruct (fits_union_inv _ _ _ _ _ Hb) as (b' & -> & Hcs & _).
      apply (all_ok_pred good good_ok). intros m Hm. apply (Hk 2%nat _ a b'); [auto|split; auto|lia].
  Qed.

  Lemma general_good : forall s c a b, fits G a s = true -> fits G b c = true -> (a + b <= n)%nat ->
    good (general G cf k lvl s c).
  Proof.
    intros s c a b Ha Hb Hle. unfold general.
    destruct (is_like_any c); [apply good_ok|].
    destruct (fast_eq s c); [apply good_ok|].
    destruct (escape_type G c) as [o|] eqn:Ee.
    - destruct c; try discriminate. destruct (escape_fits _ _ _ _ Hb Ee) as (b' & -> & Ho).
      apply (Hk 1%nat _ a b'); [auto| |lia]. split; assumption.
    - destruct s as [b0| | | | | | |colon ps ret|];
        try (eapply simple_good; eassumption); try (eapply complex_good; eassumption).
      + (* TBasic *) destruct b0; try (eapply simple_good; eassumption); try apply good_ok; try apply good_nm.
        destruct (is_b BNever c); [apply good_ok|apply good_nm].
      + eapply ref_check_good; eassumption.
      + eapply func_check_good; [rewrite (fits_func_ret G a colon ps TNil ret); exact Ha|eassumption|eassumption].
  Qed.

  Lemma step_good : forall c a b, cfits G a b c -> (a + b <= n)%nat -> good (step G cf k lvl c).
  Proof.
    intros [s c|s c|id c|colon ps c|s c] a b [Ha Hb] Hle; cbn [step].
    - eapply general_good; eassumption.
    - eapply simple_good; eassumption.
    - eapply ref_check_good; eassumption.
    - eapply func_check_good; eassumption.
    - eapply complex_good; eassumption.
  Qed.
End Good.
