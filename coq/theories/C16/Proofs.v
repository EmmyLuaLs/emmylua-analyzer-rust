(** The laws for types outside the class [known], the tables, and the concrete witnesses. *)
From Coq Require Import Relations String.
From EV Require Import C16.Model C16.Spec C16.SubProofs C16.UnionProofs C16.CheckProofs C16.LawProofs.
Local Open Scope N_scope.

Definition basic_name (b : basic) : string :=
  match b with
  | BUnknown => "Unknown" | BAny => "Any" | BNil => "Nil" | BTable => "Table" | BUserdata => "Userdata"
  | BFunction => "Function" | BThread => "Thread" | BBoolean => "Boolean" | BString => "String"
  | BInteger => "Integer" | BNumber => "Number" | BIo => "Io" | BSelfInfer => "SelfInfer"
  | BGlobal => "Global" | BNever => "Never"
  end%string.

Lemma basic_order_matches_source : map basic_name all_basics = basic_kind_names.
Proof. reflexivity. Qed.

Lemma gate_order_matches_source :
  general_gate_order = ["is_like_any"; "fast_eq_check"; "escape_type"; "intersection"; "dispatch_on_source"]%string.
Proof. reflexivity. Qed.

Lemma base_names_match_source :
  base_type_names = ["boolean"; "function"; "global"; "integer"; "io"; "nil"; "number"; "self"; "string"; "table"; "thread"; "userdata"]%string.
Proof. reflexivity. Qed.

Lemma max_level_at_least_2 : 2 <= MAX_TYPE_CHECK_LEVEL.
Proof. vm_compute. discriminate. Qed.

Lemma within_guard_height : within 0 guard_height guard_height.
Proof.
  unfold within, guard_height. pose proof max_level_at_least_2 as H.
  pose proof (N.mul_div_le (MAX_TYPE_CHECK_LEVEL - 2) 4) as H4.
  rewrite Nat2N.inj_add, N2Nat.id. lia.
Qed.

Lemma known_fits : forall G t, known G t = false -> fits G guard_height t = true.
Proof. intros G t. apply negb_false_iff. Qed.

Lemma check_refl_outside_known : forall G cf T, known G T = false -> check_type G cf T T = Ok.
Proof. intros G cf T H. apply (check_refl G cf guard_height); [apply known_fits; exact H|apply within_guard_height]. Qed.

Lemma union_member_accepted_outside_known : forall G cf p k ms m,
  known G (TUnion p k ms) = false -> In m ms -> check_type G cf (TUnion p k ms) m = Ok.
Proof.
  intros G cf p k ms m H Hm.
  apply (union_member_accepted G cf guard_height); [apply known_fits; exact H|exact Hm|apply within_guard_height].
Qed.

Lemma accepts_unfolding_outside_known : forall G cf s z,
  known G s = false -> known G z = false -> unfolds G s z -> check_type G cf s z = Ok.
Proof.
  intros G cf s z Hs Hz Hu.
  apply (check_type_unfolds G cf guard_height); auto using known_fits, within_guard_height.
Qed.

Lemma any_unknown_never_refuse : forall G cf top T,
  (top = TBasic BAny \/ top = TBasic BUnknown) ->
  check_type G cf top T = Ok \/ check_type G cf top T = Err Recursion.
Proof.
  intros G cf top T H. unfold check_type.
  destruct (top_accepts G cf top (N.to_nat MAX_TYPE_CHECK_LEVEL) 0 T H) as [E|[E _]]; [lia|auto|auto].
Qed.

Lemma check_refl_refuted :
  exists T, check_type [] cfg_default T T = Err Recursion.
Proof. exists (nest (S (N.to_nat MAX_TYPE_CHECK_LEVEL / 2)) (TBasic BString)). vm_compute. reflexivity. Qed.

Definition mutual_world : world :=
  [(100, alias_decl (TUnion 1 UMulti [TArray (TRef 100); TBasic BString]));
   (101, alias_decl (TUnion 2 UMulti [TArray (TRef 101); TBasic BInteger]))].
Definition mutual_union : ty := TUnion 3 UMulti [TArray (TRef 100); TArray (TRef 101)].

Lemma union_member_refuted :
  In (TArray (TRef 101)) (umembers mutual_union) /\
  check_type mutual_world cfg_default mutual_union (TArray (TRef 101)) = Err Recursion /\
  check_type mutual_world cfg_default mutual_union mutual_union = Err Recursion.
Proof. vm_compute. split; [right; left; reflexivity|split; reflexivity]. Qed.

Lemma any_unknown_top_refuted :
  check_type (alias_chain 1000 (N.to_nat MAX_TYPE_CHECK_LEVEL)) cfg_default TAny
             (TRef (1000 + MAX_TYPE_CHECK_LEVEL)) = Err Recursion.
Proof. vm_compute. reflexivity. Qed.

(** non-vacuity: a world with a diamond, an alias of a union, a recursive alias; well-formed types of
    every constructor are outside the known class and the laws apply to them *)
Definition ex_world : world :=
  [(100, class_decl []); (101, class_decl [TRef 100]); (102, class_decl [TRef 100]);
   (103, class_decl [TRef 101; TRef 102; TBasic BString]);
   (110, alias_decl (TUnion 7 UMulti [TRef 103; TBasic BInteger; TStrConst true 5]));
   (111, alias_decl (TUnion 8 UMulti [TArray (TRef 111); TBasic BString]))].
Definition ex_type : ty :=
  TUnion 9 UMulti
    [TArray (TUnion 10 UNullable [TRef 110; TNil]);
     TTuple [TRef 103; TUnion 11 UBasic [TBasic BNil; TBasic BString]];
     TFunc false [(2, Some (TRef 110)); (3, None); (pn_dots, Some (TBasic BInteger))] (TBasic BBoolean);
     TIntConst true 3; TBasic BNever].

Lemma laws_example :
  known ex_world ex_type = false /\
  check_type ex_world cfg_default ex_type ex_type = Ok /\
  forallb (fun m => match check_type ex_world cfg_default ex_type m with Ok => true | _ => false end) (umembers ex_type) = true /\
  check_type ex_world cfg_default (TRef 100) (TRef 103) = Ok /\
  check_type ex_world cfg_default (TRef 103) (TBasic BInteger) = Err NotMatch /\
  known ex_world (TRef 111) = true /\
  check_type ex_world cfg_default (TArray (TRef 111)) (TArray (TRef 111)) = Ok.
Proof. vm_compute. repeat split; reflexivity. Qed.

Lemma reach_example : reach ex_world 103 100.
Proof.
  apply rt_trans with 101; apply rt_step.
  - exists [TRef 101; TRef 102; TBasic BString]. split; [vm_compute; reflexivity|left; reflexivity].
  - exists [TRef 100]. split; [vm_compute; reflexivity|left; reflexivity].
Qed.

Lemma union_example :
  union_type_all ex_world [TBasic BString; TStrConst true 1; TNever; TRef 100] = TUnion 0 UMulti [TBasic BString; TRef 100] /\
  union_type_all ex_world [TArray (TBasic BString); TNever; TIntConst true 4; TArray (TBasic BString)]
    = TUnion 0 UMulti [TArray (TBasic BString); TIntConst true 4].
Proof. vm_compute. split; reflexivity. Qed.
