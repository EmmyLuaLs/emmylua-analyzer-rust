(** Law 5 on the structural fast path: [from_vec] of a batch that
    [can_use_structural_union] accepts has the same members as the one-at-a-time union. *)
From EV Require Import C16.Model C16.Spec C16.UnionProofs.
Local Open Scope N_scope.

(** the members [can_use_structural_union] lets through *)
Definition plain (t : ty) : bool :=
  match t with TUnion _ _ _ | TRef _ | TFunc _ _ _ => false | _ => true end.

(** what the flags hold once [x] has been recorded *)
Definition marks (f : sflags) (x : ty) : Prop :=
  match x with
  | TBasic BNumber => f_number f = true
  | TBasic BInteger => f_integer f = true /\ f_number_variant f = true
  | TIntConst _ _ => f_integer_const f = true /\ f_number_variant f = true
  | TBasic BString => f_string f = true
  | TStrConst _ _ => f_string_const f = true
  | TBasic BBoolean => f_boolean f = true
  | TBoolConst _ _ => 1 <= f_boolean_consts f
  | _ => True
  end.

Lemma step_plain : forall f x f', sflags_step f x = Some f' -> plain x = true.
Proof. intros f x f' H. destruct x; try reflexivity; discriminate. Qed.

Lemma step_marks_self : forall f x f', sflags_step f x = Some f' -> marks f' x.
Proof. intros f x f' H. destruct x as [[]| | | | | | | |]; inversion H; subst; cbn; auto; lia. Qed.

Lemma step_marks_mono : forall f x f' y, sflags_step f x = Some f' -> marks f y -> marks f' y.
Proof.
  intros f x f' y H Hy.
  destruct x as [b| | | | | | | |]; try discriminate; cbn [sflags_step] in H;
    try (destruct b); inversion H; subst; clear H;
    destruct y as [c| | | | | | | |]; try exact I; try (destruct c); cbn [marks] in *; cbn; try tauto; try lia.
Qed.

Lemma step_boolconst_count : forall f d v f', sflags_step f (TBoolConst d v) = Some f' ->
  f_boolean_consts f' = f_boolean_consts f + 1.
Proof. intros f d v f' H. cbn [sflags_step] in H. inversion H; subst. reflexivity. Qed.

(** the pairwise rules of [union_type_impl] that rewrite a pair of different plain types *)
Definition absorbs (x y : ty) : bool :=
  (is_b BInteger x && is_int_const y) || (is_int_const x && is_b BInteger y)
  || (is_b BNumber x && is_number y && negb (is_b BNumber y))
  || (is_b BNumber y && is_number x && negb (is_b BNumber x))
  || (is_b BString x && is_str_const y) || (is_str_const x && is_b BString y)
  || (is_b BBoolean x && is_boolean y && negb (is_b BBoolean y))
  || (is_b BBoolean y && is_boolean x && negb (is_b BBoolean x))
  || (match x, y with TBoolConst _ _, TBoolConst _ _ => true | _, _ => false end).

Lemma bad_absorbs : forall f x y, marks f x -> marks f y -> sflags_bad f = false ->
  (forall d1 v1 d2 v2, x = TBoolConst d1 v1 -> y = TBoolConst d2 v2 -> 2 <= f_boolean_consts f) ->
  absorbs x y = false.
Proof.
  intros f x y Hx Hy Hb Hbb. unfold sflags_bad in Hb.
  rewrite !orb_false_iff, !andb_false_iff, !N.ltb_ge in Hb.
  destruct x as [b| | | | | | | |]; try (destruct b);
    destruct y as [c| | | | | | | |]; try (destruct c); try reflexivity; cbn [marks] in Hx, Hy;
    exfalso; try (specialize (Hbb _ _ _ _ eq_refl eq_refl)); intuition (congruence || lia).
Qed.

(** no element of [l] absorbs with one of [seen] or with an earlier element of [l] *)
Fixpoint apart (seen l : list ty) : Prop :=
  match l with
  | [] => True
  | y :: r => (forall e, In e seen -> absorbs e y = false) /\ apart (y :: seen) r
  end.

Lemma structural_apart : forall l f E, can_use_structural_from f l = true ->
  (forall e, In e E -> marks f e) ->
  (forall x, In x l -> plain x = true) /\ apart E l.
Proof.
  induction l as [|y r IH]; intros f E H HE; [split; [intros x []|exact I]|].
  cbn [can_use_structural_from] in H. destruct (sflags_step f y) as [f'|] eqn:Es; [|discriminate].
  destruct (sflags_bad f') eqn:Eb; [discriminate|].
  assert (HE' : forall e, In e (y :: E) -> marks f' e).
  { intros e [<-|He]; [eapply step_marks_self; exact Es|eapply step_marks_mono; [exact Es|apply HE; exact He]]. }
  destruct (IH f' (y :: E) H HE') as (Hp & Hap).
  split; [intros x [<-|Hx]; [eapply step_plain; exact Es|apply Hp; exact Hx]|]. split; [|exact Hap].
  intros e He. apply (bad_absorbs f'); auto using in_eq, in_cons.
  intros d1 v1 d2 v2 -> ->. rewrite (step_boolconst_count _ _ _ _ Es).
  pose proof (HE _ He) as Hm. cbn [marks] in Hm. lia.
Qed.

Lemma impl_plain_pair : forall a t, plain a = true -> plain t = true -> absorbs a t = false ->
  is_b BAny a = false -> is_b BNever a = false -> is_b BAny t = false -> is_b BNever t = false ->
  union_type_impl a a t = if req a t then a else from_vec [a; t].
Proof.
  intros a t Pa Pt Hab Ha1 Ha2 Ht1 Ht2.
  destruct a as [b| | | | | | | |]; try discriminate; try (destruct b; try discriminate);
    destruct t as [c| | | | | | | |]; try discriminate; try (destruct c; try discriminate);
    try reflexivity; try (cbn in Hab; discriminate).
Qed.

Lemma sim_refl : forall a, sim a a.
Proof. intros a. right; right; right; right; reflexivity. Qed.

Lemma plain_not_union : forall t, plain t = true -> is_union t = false.
Proof. destruct t; try reflexivity; discriminate. Qed.

Lemma plain_nonref : forall t, plain t = true -> super_id t = None.
Proof. destruct t; try reflexivity; discriminate. Qed.

Lemma plain_members : forall a, plain a = true -> members a = [a].
Proof. destruct a; try reflexivity; discriminate. Qed.

Lemma plain_not_func : forall ms, (forall x, In x ms -> plain x = true) -> existsb is_func ms = false.
Proof.
  intros ms H. apply not_true_iff_false. intros E. apply existsb_exists in E. destruct E as (x & Hx & Hf).
  specialize (H x Hx). destruct x; discriminate.
Qed.

Lemma flat_members_plain : forall l, (forall x, In x l -> plain x = true) -> flat_map members l = l.
Proof.
  induction l as [|t r IH]; intros H; [reflexivity|]. cbn [flat_map].
  rewrite (plain_members t), IH; auto using in_eq, in_cons.
Qed.

Lemma canon_nonunion : forall a, is_union a = false -> canonicalize_callable_union a = a.
Proof. destruct a; try reflexivity; discriminate. Qed.

Lemma hdedup_acc_sub : forall l seen x, In x (hdedup_acc l seen) -> In x l.
Proof.
  induction l as [|t r IH]; intros seen x H; [destruct H|]. cbn [hdedup_acc] in H.
  destruct (hmem t seen); [right; eapply IH; exact H|].
  destruct H as [<-|H]; [left; reflexivity|right; eapply IH; exact H].
Qed.

Lemma hdedup_acc_cover : forall l seen x, In x l ->
  hmem x seen = true \/ exists y, In y (hdedup_acc l seen) /\ hkey_eqb y x = true.
Proof.
  induction l as [|t r IH]; intros seen x H; [destruct H|]. cbn [hdedup_acc].
  destruct H as [<-|H].
  - destruct (hmem t seen) eqn:E; [left; reflexivity|right]. exists t. split; [left; reflexivity|apply hkey_refl].
  - destruct (hmem t seen) eqn:E.
    + destruct (IH seen x H) as [Hs|(y & Hy & Hk)]; [left; exact Hs|right; exists y; split; assumption].
    + destruct (IH (t :: seen) x H) as [Hs|(y & Hy & Hk)].
      * rewrite hmem_cons in Hs. apply orb_true_iff in Hs. destruct Hs as [Hs|Hs]; [|left; exact Hs].
        right. exists t. split; [left; reflexivity|exact Hs].
      * right. exists y. split; [right; exact Hy|exact Hk].
Qed.

Lemma hdedup_acc_hnodup : forall l seen,
  hnodup (hdedup_acc l seen) = true /\ forall x, In x (hdedup_acc l seen) -> hmem x seen = false.
Proof.
  induction l as [|t r IH]; intros seen; [split; [reflexivity|intros x []]|].
  cbn [hdedup_acc]. destruct (hmem t seen) eqn:E; [apply IH|].
  destruct (IH (t :: seen)) as [Hn Ha]. split.
  - rewrite hnodup_cons. apply andb_true_iff. split; [|exact Hn].
    apply negb_true_iff. apply not_true_iff_false. intros Hex. apply existsb_exists in Hex.
    destruct Hex as (y & Hy & Hk). specialize (Ha y Hy). rewrite hmem_cons in Ha. rewrite Hk in Ha. discriminate.
  - intros x [<-|Hx]; [exact E|]. specialize (Ha x Hx). rewrite hmem_cons in Ha. apply orb_false_iff in Ha. apply Ha.
Qed.

Lemma hdedup_spec : forall l, hnodup (hdedup l) = true /\ incl (hdedup l) l /\
  forall x, In x l -> exists y, In y (hdedup l) /\ hkey_eqb y x = true.
Proof.
  intros l. split; [apply hdedup_acc_hnodup|]. split; [intros x; apply hdedup_acc_sub|].
  intros x Hx. destruct (hdedup_acc_cover l [] x Hx) as [H|H]; [discriminate|exact H].
Qed.

Lemma from_vec_plain : forall l, l <> [] -> (forall x, In x l -> plain x = true) ->
  (forall x, In x (members (from_vec l)) -> In x l) /\
  (forall x, In x l -> exists y, In y (members (from_vec l)) /\ hkey_eqb y x = true).
Proof.
  intros l Hne Hp. destruct l as [|a [|b r]]; [congruence| |].
  - cbn [from_vec]. rewrite (plain_members a) by auto using in_eq.
    split; [auto|]. intros x [<-|[]]. exists a. split; [left; reflexivity|apply hkey_refl].
  - set (l := a :: b :: r) in *. rewrite from_vec_long by (cbn; lia). rewrite (flat_members_plain l Hp).
    destruct (hdedup_spec l) as (Hn & Hsub & Hcov). destruct (hdedup l) as [|y1 [|y2 r']] eqn:Ed.
    + destruct (Hcov a (or_introl eq_refl)) as (y & [] & _).
    + cbn [pick]. rewrite (plain_members y1) by auto using in_eq. split; [exact Hsub|exact Hcov].
    + destruct (mk_union_spec _ Hn) as (k & ms & E & Hin & _); [cbn [length]; lia|]. cbn [pick]. rewrite E. cbn [members].
      split; [intros x Hx; apply Hsub, Hin, Hx|].
      intros x Hx. destruct (Hcov x Hx) as (y & Hy & Hk). exists y. split; [apply Hin; exact Hy|exact Hk].
Qed.

Lemma canon_plain_union : forall p k ms, (forall x, In x ms -> plain x = true) -> hnodup ms = true -> (2 <= length ms)%nat ->
  exists k' ms', canonicalize_callable_union (TUnion p k ms) = TUnion 0 k' ms' /\
    (forall x, In x ms' <-> In x ms) /\ hnodup ms' = true /\ (2 <= length ms')%nat.
Proof.
  intros p k ms Hp Hn Hl. cbn [canonicalize_callable_union]. rewrite (plain_not_func ms Hp).
  rewrite (from_vec_long ms Hl), (flat_members_plain ms Hp), (hdedup_id ms Hn), (pick_long ms Hl).
  apply mk_union_spec; assumption.
Qed.

Lemma union_type_plain_plain : forall G a t, plain a = true -> plain t = true -> absorbs a t = false ->
  is_b BAny a = false -> is_b BNever a = false -> is_b BAny t = false -> is_b BNever t = false ->
  (union_type G a t = a /\ (req a t = true \/ hkey_eqb a t = true)) \/
  (exists k ms, union_type G a t = TUnion 0 k ms /\ (forall x, In x ms <-> x = a \/ x = t) /\
                hnodup ms = true /\ (2 <= length ms)%nat).
Proof.
  intros G a t Pa Pt Hab Ha1 Ha2 Ht1 Ht2. rewrite union_type_nonref by (apply plain_nonref, Pa).
  rewrite (impl_plain_pair a t Pa Pt Hab Ha1 Ha2 Ht1 Ht2).
  pose proof (canon_nonunion a (plain_not_union a Pa)) as Ea.
  destruct (req a t) eqn:Er; [left; auto|].
  assert (Hp : forall x, In x [a; t] -> plain x = true) by (intros x [<-|[<-|[]]]; assumption).
  rewrite from_vec_long, (flat_members_plain _ Hp) by (cbn [length]; lia).
  change [a; t] with ([a] ++ [t]). rewrite (hdedup_snoc [a] t eq_refl), hmem_cons, orb_false_r.
  destruct (hkey_eqb a t) eqn:Ek; [left; auto|right]. cbn [app pick].
  destruct (mk_union_spec [a; t]) as (k & ms & -> & Hin & Hn & Hl);
    [cbn [hnodup existsb]; rewrite Ek; reflexivity|cbn [length]; lia|].
  destruct (canon_plain_union 0 k ms) as (k' & ms' & -> & Hin' & Hn' & Hl'); auto.
  { intros x Hx. apply Hp, Hin, Hx. }
  exists k', ms'. repeat split; auto; rewrite Hin', Hin; cbn [In]; intuition auto.
Qed.

Lemma impl_union_plain : forall p k ms t, plain t = true -> is_b BAny t = false -> is_b BNever t = false ->
  union_type_impl (TUnion p k ms) (TUnion p k ms) t =
  if rmem t ms then TUnion p k ms else mk_union (ms ++ [t]).
Proof.
  intros p k ms t Pt H1 H2.
  destruct t as [c| | | | | | | |]; try discriminate; try (destruct c; try discriminate); reflexivity.
Qed.

Lemma union_type_union_plain : forall G p k ms t,
  (forall x, In x ms -> plain x = true) -> hnodup ms = true -> (2 <= length ms)%nat ->
  plain t = true -> is_b BAny t = false -> is_b BNever t = false ->
  exists k' ms', union_type G (TUnion p k ms) t = TUnion 0 k' ms' /\
    incl ms ms' /\ (forall x, In x ms' -> In x ms \/ x = t) /\
    hnodup ms' = true /\ (2 <= length ms')%nat /\ covers ms' t.
Proof.
  intros G p k ms t Hp Hn Hl Pt Ht1 Ht2. rewrite union_type_nonref by reflexivity.
  rewrite (impl_union_plain p k ms t Pt Ht1 Ht2).
  destruct (rmem t ms) eqn:Er.
  - destruct (canon_plain_union p k ms Hp Hn Hl) as (k' & ms' & -> & Hin & Hn' & Hl').
    exists k', ms'. repeat split; auto; try (intros x Hx; apply Hin in Hx; auto).
    apply existsb_exists in Er. destruct Er as (e & He & Hr).
    exists e. split; [apply Hin; exact He|left; exact Hr].
  - (* the stored members [m1] of the new union are de-duplicated once more *)
    unfold mk_union. pose proof (from_vec_u_In (ms ++ [t])) as Hin1. pose proof (from_vec_u_shape (ms ++ [t])) as Hs.
    destruct (from_vec_u (ms ++ [t])) as [k1 m1]. cbn [snd] in Hin1, Hs.
    assert (Hp1 : forall x, In x m1 -> plain x = true).
    { intros x Hx. apply Hin1, in_app_or in Hx. destruct Hx as [Hx|[<-|[]]]; auto. }
    assert (Hl1 : (2 <= length m1)%nat).
    { apply (two_of_hnodup ms m1 Hn Hl). intros x Hx. apply Hin1, in_or_app. left; exact Hx. }
    cbn [canonicalize_callable_union]. rewrite (plain_not_func m1 Hp1), (from_vec_long m1 Hl1), (flat_members_plain m1 Hp1).
    destruct (hdedup_spec m1) as (Hnr & Hd & Hcov).
    assert (Hsub : incl ms (hdedup m1)).
    { destruct Hs as [-> |Hs]; [rewrite (hdedup_snoc ms t Hn); apply incl_appl, incl_refl|].
      rewrite (hdedup_id m1 Hs). intros x Hx. apply Hin1, in_or_app. left; exact Hx. }
    assert (Hsup : forall x, In x (hdedup m1) -> In x ms \/ x = t).
    { intros x Hx. apply Hd, Hin1, in_app_or in Hx. destruct Hx as [Hx|[<-|[]]]; auto. }
    destruct (Hcov t) as (y & Hy & Hk); [apply Hin1, in_or_app; right; left; reflexivity|].
    assert (Hlr : (2 <= length (hdedup m1))%nat) by (apply (two_of_hnodup ms _ Hn Hl Hsub)).
    rewrite (pick_long _ Hlr). destruct (mk_union_spec _ Hnr Hlr) as (k' & ms' & -> & Hin & Hn' & Hl').
    exists k', ms'. repeat split; auto; try (intros x Hx; apply Hin; auto).
    + intros x Hx. apply Hsup, Hin, Hx.
    + exists y. split; [apply Hin; exact Hy|right; right; left; exact Hk].
Qed.

Definition nn (t : ty) : bool := negb (is_b BNever t).

(** what the accumulator looks like after the non-[never] elements [seen]: [never] when there are none,
    one of them that is [sim] to all, or a union of some of them whose members cover all *)
Definition inv (acc : ty) (seen : list ty) : Prop :=
  (seen = [] /\ acc = TNever) \/
  (plain acc = true /\ is_b BAny acc = false /\ is_b BNever acc = false /\ In acc seen /\
     forall t, In t seen -> sim acc t) \/
  (exists p k ms, acc = TUnion p k ms /\ (forall x, In x ms -> In x seen) /\ hnodup ms = true /\
     (2 <= length ms)%nat /\ forall t, In t seen -> covers ms t).

Lemma impl_never_r : forall a, is_b BAny a = false -> is_b BNever a = false -> union_type_impl a a TNever = a.
Proof. intros a H1 H2. unfold union_type_impl. rewrite H1, H2. reflexivity. Qed.

Lemma impl_never_l : forall t, is_b BAny t = false -> union_type_impl TNever TNever t = t.
Proof. intros t H. unfold union_type_impl. cbn [is_b TNever]. rewrite H. reflexivity. Qed.

Lemma union_never_r : forall G acc seen, (forall x, In x seen -> plain x = true) ->
  inv acc seen -> inv (union_type G acc TNever) seen.
Proof.
  intros G acc seen Hps [[-> ->]|[(Pa & Ha1 & Ha2 & Hin & Hsim)|(p & k & ms & -> & Hsub & Hn & Hl & Hcov)]].
  - left. rewrite union_type_nonref by reflexivity. auto.
  - right; left. rewrite union_type_nonref by (apply plain_nonref, Pa).
    rewrite (impl_never_r acc Ha1 Ha2), (canon_nonunion acc (plain_not_union acc Pa)). auto.
  - right; right. rewrite union_type_nonref by reflexivity.
    change (union_type_impl (TUnion p k ms) (TUnion p k ms) TNever) with (TUnion p k ms).
    destruct (canon_plain_union p k ms) as (k' & ms' & -> & Hin & Hn' & Hl'); auto.
    exists 0, k', ms'. repeat split; auto; [intros x Hx; apply Hsub, Hin, Hx|].
    intros t Ht. destruct (Hcov t Ht) as (y & Hy & Hs). exists y. split; [apply Hin; exact Hy|exact Hs].
Qed.

Lemma union_step : forall G acc seen t,
  (forall x, In x seen -> plain x = true) -> plain t = true -> is_b BAny t = false -> is_b BNever t = false ->
  (forall x, In x seen -> absorbs x t = false) ->
  inv acc seen -> inv (union_type G acc t) (t :: seen).
Proof.
  intros G acc seen t Hps Pt Ht1 Ht2 Hab [[-> ->]|[(Pa & Ha1 & Ha2 & Hin & Hsim)|(p & k & ms & -> & Hsub & Hn & Hl & Hcov)]].
  - right; left. rewrite union_type_nonref by reflexivity.
    rewrite (impl_never_l t Ht1), (canon_nonunion t (plain_not_union t Pt)). repeat split; auto using in_eq.
    intros x [<-|[]]. apply sim_refl.
  - destruct (union_type_plain_plain G acc t Pa Pt (Hab acc Hin) Ha1 Ha2 Ht1 Ht2) as [[-> Hs]|(k & ms & -> & Hm & Hn & Hl)].
    + right; left. repeat split; auto using in_cons.
      intros x [<-|Hx]; [|apply Hsim; exact Hx].
      destruct Hs as [Hs|Hs]; [left; exact Hs|right; right; left; exact Hs].
    + right; right. exists 0, k, ms. repeat split; auto.
      * intros x Hx. apply Hm in Hx. destruct Hx as [->| ->]; [right; exact Hin|left; reflexivity].
      * intros x [<-|Hx].
        -- exists t. split; [apply Hm; right; reflexivity|apply sim_refl].
        -- exists acc. split; [apply Hm; left; reflexivity|apply Hsim; exact Hx].
  - destruct (union_type_union_plain G p k ms t) as (k' & ms' & -> & Hkeep & Hnew & Hn' & Hl' & Hct); auto.
    right; right. exists 0, k', ms'. repeat split; auto.
    + intros x Hx. destruct (Hnew x Hx) as [H| ->]; [right; apply Hsub; exact H|left; reflexivity].
    + intros x [<-|Hx]; [exact Hct|].
      destruct (Hcov x Hx) as (y & Hy & Hs). exists y. split; [apply Hkeep; exact Hy|exact Hs].
Qed.

Lemma fold_inv : forall G ts seen acc, existsb (is_b BAny) ts = false ->
  (forall x, In x seen -> plain x = true) -> (forall x, In x (filter nn ts) -> plain x = true) ->
  apart seen (filter nn ts) -> inv acc seen ->
  inv (fold_left (union_type G) ts acc) (rev (filter nn ts) ++ seen).
Proof.
  intros G. induction ts as [|t r IH]; intros seen acc Ha Hps Hp Hap Hi; [exact Hi|].
  cbn [existsb] in Ha. apply orb_false_iff in Ha. destruct Ha as [Ht1 Har].
  cbn [fold_left filter] in *. destruct (nn t) eqn:En; unfold nn in En.
  - apply negb_true_iff in En. destruct Hap as [Hab Hap]. cbn [rev]. rewrite <- app_assoc. apply IH; auto using in_cons.
    + intros x [<-|Hx]; auto using in_eq.
    + apply union_step; auto using in_eq.
  - apply negb_false_iff, is_b_eq in En. subst t. apply IH; auto. apply union_never_r; assumption.
Qed.

(** LAW 5 on the fast path *)
Lemma union_all_structural : forall G ts,
  existsb (is_b BAny) ts = false -> filter nn ts <> [] -> can_use_structural_union (filter nn ts) = true ->
  mem_cover (from_vec (filter nn ts)) (union_fold G ts).
Proof.
  intros G ts Ha Hne Hst. set (S := filter nn ts) in *.
  destruct (structural_apart S sflags0 [] Hst) as (Hp & Hap); [intros e []|].
  assert (Hinv : inv (union_fold G ts) (rev S)).
  { rewrite <- (app_nil_r (rev S)). apply fold_inv; auto. left; auto. }
  destruct (from_vec_plain S Hne Hp) as [HA1 HA2].
  unfold mem_cover.
  destruct Hinv as [[E _]|[(Pa & _ & _ & Hin & Hsim)|(p & k & ms & -> & Hsub & _ & _ & Hcov)]].
  - destruct S; [contradiction|]. cbn [rev] in E. destruct (rev S); discriminate.
  - rewrite (plain_members _ Pa). apply in_rev in Hin. split.
    + intros x Hx. eexists. split; [left; reflexivity|]. apply Hsim. apply -> in_rev. apply HA1, Hx.
    + intros x [<-|[]]. destruct (HA2 _ Hin) as (y & Hy & Hk). exists y. split; [exact Hy|right; right; left; exact Hk].
  - cbn [members]. split.
    + intros x Hx. apply Hcov. apply -> in_rev. apply HA1, Hx.
    + intros x Hx. destruct (HA2 x (proj2 (in_rev S x) (Hsub x Hx))) as (y & Hy & Hk).
      exists y. split; [exact Hy|right; right; left; exact Hk].
Qed.

Lemma mem_cover_refl : forall a, mem_cover a a.
Proof. intros a. split; intros x Hx; exists x; (split; [exact Hx|apply sim_refl]). Qed.

(** LAW 5 in full *)
Lemma union_all_eq_fold : forall G ts, mem_cover (union_type_all G ts) (union_fold G ts).
Proof.
  intros G ts.
  destruct (existsb (is_b BAny) ts) eqn:Ea.
  { rewrite union_all_eq_fold_slow by (right; left; exact Ea). apply mem_cover_refl. }
  destruct (filter nn ts) as [|x r] eqn:Ef.
  { rewrite union_all_eq_fold_slow by (right; right; exact Ef). apply mem_cover_refl. }
  destruct (can_use_structural_union (filter nn ts)) eqn:Es.
  - assert (E : union_type_all G ts = from_vec (filter nn ts)).
    { unfold union_type_all. rewrite Ea. fold nn. rewrite Ef in *. rewrite Es. reflexivity. }
    rewrite E. apply union_all_structural; auto. rewrite Ef. discriminate.
  - rewrite union_all_eq_fold_slow by (left; exact Es). apply mem_cover_refl.
Qed.
