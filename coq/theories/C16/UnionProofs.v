(** Facts about [LuaType::from_vec] / [LuaUnionType::from_vec] of the model:
    de-duplication by hash key, the stored form of a new union, and the batch union off the
    structural fast path. *)
From EV Require Import C16.Model C16.Spec.
Local Open Scope N_scope.

Lemma basic_eqb_eq : forall a b, basic_eqb a b = true <-> a = b.
Proof.
  intros a b. split; [|intros ->; apply N.eqb_refl].
  unfold basic_eqb. intros H. apply N.eqb_eq in H. destruct a, b; cbn in H; try reflexivity; discriminate.
Qed.

Lemma is_b_eq : forall b t, is_b b t = true <-> t = TBasic b.
Proof.
  intros b t. destruct t; cbn [is_b]; try (split; discriminate).
  rewrite basic_eqb_eq. split; [intros ->; reflexivity|intros H; inversion H; reflexivity].
Qed.

Lemma hkey_nil_r : forall t, hkey_eqb t TNil = is_nil t.
Proof. intros t. destruct t; try reflexivity. apply N.eqb_sym. Qed.

Lemma hkey_refl : forall t, hkey_eqb t t = true.
Proof.
  fix IH 1. intros [b|d v|d s|d i|id|b|ts|c ps r|p k ms]; cbn [hkey_eqb];
    rewrite ?Bool.eqb_reflx, ?N.eqb_refl, ?Z.eqb_refl, ?IH; try reflexivity.
  - apply N.eqb_refl.
  - induction ts as [|x ts' IHts]; [reflexivity|]. rewrite IH. exact IHts.
  - induction ps as [|[n [x|]] ps' IHps]; [reflexivity| |]; rewrite N.eqb_refl, ?IH; exact IHps.
Qed.

Lemma hnodup_cons : forall x r, hnodup (x :: r) = (negb (existsb (hkey_eqb x) r) && hnodup r)%bool.
Proof. reflexivity. Qed.

Lemma hmem_cons : forall t a seen, hmem t (a :: seen) = (hkey_eqb a t || hmem t seen)%bool.
Proof. reflexivity. Qed.

Lemma hmem_rev : forall t l, hmem t (rev l) = hmem t l.
Proof.
  intros t l. unfold hmem. induction l as [|a r IH]; [reflexivity|].
  cbn [rev existsb]. rewrite existsb_app, IH. cbn [existsb]. rewrite orb_false_r. apply orb_comm.
Qed.

Lemma hnodup_app_one : forall l x, hnodup l = true -> hmem x l = false -> hnodup (l ++ [x]) = true.
Proof.
  induction l as [|a r IH]; intros x Hl Hx; [reflexivity|]. cbn [app].
  rewrite hnodup_cons in *. apply andb_true_iff in Hl. destruct Hl as [Ha Hr].
  rewrite hmem_cons in Hx. apply orb_false_iff in Hx. destruct Hx as [Hax Hrx].
  rewrite existsb_app, (IH x Hr Hrx). cbn [existsb]. rewrite Hax, !orb_false_r, andb_true_r. exact Ha.
Qed.

Lemma existsb_map_filter : forall A (f : A -> ty) q P l,
  existsb q (map f (filter P l)) = true -> existsb q (map f l) = true.
Proof.
  intros A f q P l. induction l as [|x r IH]; [auto|]. cbn [filter map existsb].
  destruct (P x); cbn [map existsb]; intros H; apply orb_true_iff;
    [apply orb_true_iff in H; destruct H|]; auto.
Qed.

Lemma hnodup_map_filter : forall A (f : A -> ty) P l,
  hnodup (map f l) = true -> hnodup (map f (filter P l)) = true.
Proof.
  intros A f P l. induction l as [|x r IH]; [auto|]. cbn [filter map]. rewrite hnodup_cons.
  intros H. apply andb_true_iff in H. destruct H as [Hx Hr].
  destruct (P x); [|exact (IH Hr)]. cbn [map]. rewrite hnodup_cons, (IH Hr), andb_true_r.
  destruct (existsb (hkey_eqb (f x)) (map f (filter P r))) eqn:E; [|reflexivity].
  rewrite (existsb_map_filter _ _ _ _ _ E) in Hx. discriminate.
Qed.

Lemma two_of_hnodup : forall (ms l : list ty), hnodup ms = true -> (2 <= length ms)%nat ->
  incl ms l -> (2 <= length l)%nat.
Proof.
  intros [|x1 [|x2 r]] l Hn Hl Hsub; cbn [length] in Hl; try lia.
  assert (Hne : x1 <> x2).
  { intros ->. rewrite hnodup_cons in Hn. cbn [existsb] in Hn. rewrite hkey_refl in Hn. discriminate. }
  pose proof (Hsub x1 (or_introl eq_refl)) as H1. pose proof (Hsub x2 (or_intror (or_introl eq_refl))) as H2.
  destruct l as [|y1 [|y2 l']]; cbn [length]; try lia; [destruct H1|].
  destruct H1 as [<-|[]], H2 as [<-|[]]. congruence.
Qed.

Fixpoint avoids (l seen : list ty) : bool :=
  match l with
  | [] => true
  | x :: r => negb (hmem x seen) && avoids r seen
  end.

Lemma avoids_nil : forall ms, avoids ms [] = true.
Proof. induction ms as [|m r IH]; [reflexivity|exact IH]. Qed.

Lemma avoids_seen_cons : forall m r seen,
  existsb (hkey_eqb m) r = false -> avoids r seen = true -> avoids r (m :: seen) = true.
Proof.
  intros m r seen. induction r as [|x r IH]; [reflexivity|]. cbn [existsb avoids]. rewrite hmem_cons.
  intros Hm Ha. apply orb_false_iff in Hm. apply andb_true_iff in Ha.
  destruct Hm as [-> Hm], Ha as [Hx Ha]. cbn [orb]. rewrite Hx. apply IH; assumption.
Qed.

Lemma hdedup_acc_app : forall l m seen, hnodup l = true -> avoids l seen = true ->
  hdedup_acc (l ++ m) seen = l ++ hdedup_acc m (rev l ++ seen).
Proof.
  induction l as [|a r IH]; intros m seen Hn Ha; [reflexivity|].
  rewrite hnodup_cons in Hn. apply andb_true_iff in Hn. destruct Hn as [Hr Hn]. apply negb_true_iff in Hr.
  cbn [avoids] in Ha. apply andb_true_iff in Ha. destruct Ha as [Hs Ha]. apply negb_true_iff in Hs.
  cbn [app hdedup_acc rev]. rewrite Hs, <- app_assoc. f_equal.
  apply IH; [exact Hn|apply avoids_seen_cons; assumption].
Qed.

Lemma hdedup_id : forall l, hnodup l = true -> hdedup l = l.
Proof.
  intros l Hn. pose proof (hdedup_acc_app l [] [] Hn (avoids_nil l)) as H.
  rewrite !app_nil_r in H. exact H.
Qed.

Lemma hdedup_snoc : forall l t, hnodup l = true ->
  hdedup (l ++ [t]) = l ++ (if hmem t l then [] else [t]).
Proof.
  intros l t Hn. unfold hdedup. rewrite (hdedup_acc_app l [t] [] Hn (avoids_nil l)).
  cbn [hdedup_acc]. rewrite app_nil_r, hmem_rev. reflexivity.
Qed.

Lemma flat_dedup_members : forall l seen, flat_dedup l seen = hdedup_acc (flat_map members l) seen.
Proof.
  induction l as [|t r IH]; intros seen; [reflexivity|].
  destruct t; cbn [flat_dedup flat_map members app hdedup_acc]; try (destruct (hmem _ seen); rewrite IH; reflexivity).
  revert seen. induction ms as [|m ms' IHm]; intros seen; [apply IH|].
  cbn [app hdedup_acc]. destruct (hmem m seen); rewrite IHm; reflexivity.
Qed.

Lemma from_vec_u_In : forall r x, In x (snd (from_vec_u r)) <-> In x r.
Proof.
  intros r x. unfold from_vec_u.
  destruct (forallb is_basic r) eqn:Eb.
  - cbn [snd]. rewrite in_map_iff. split.
    + intros (b & <- & Hb). apply filter_In in Hb. destruct Hb as [_ Hb].
      apply existsb_exists in Hb. destruct Hb as (t & Ht & Hbt). apply is_b_eq in Hbt. subst t. exact Ht.
    + intros Hx. rewrite forallb_forall in Eb. pose proof (Eb x Hx) as Hb. destruct x as [b| | | | | | | |]; try discriminate.
      exists b. split; [reflexivity|]. apply filter_In. split; [destruct b; cbn; tauto|].
      apply existsb_exists. exists (TBasic b). split; [exact Hx|apply is_b_eq; reflexivity].
  - destruct ((N.of_nat (length r) =? 2) && existsb is_nil r)%bool eqn:E2; [|cbn [snd]; tauto].
    apply andb_true_iff in E2. destruct E2 as [El En]. apply N.eqb_eq in El.
    destruct r as [|x1 [|x2 [|x3 r']]]; cbn [length] in El; try lia. cbn [find existsb] in *.
    destruct (is_nil x1) eqn:E1, (is_nil x2) eqn:E2'; try discriminate En; cbn [negb snd In];
      try (apply is_b_eq in E1; subst x1); try (apply is_b_eq in E2'; subst x2); tauto.
Qed.

Lemma from_vec_u_shape : forall r, snd (from_vec_u r) = r \/ hnodup (snd (from_vec_u r)) = true.
Proof.
  intros r. unfold from_vec_u.
  destruct (forallb is_basic r); [right; apply hnodup_map_filter; reflexivity|].
  destruct ((N.of_nat (length r) =? 2) && existsb is_nil r)%bool; [|left; reflexivity].
  destruct (find (fun t => negb (is_nil t)) r) as [t|] eqn:Ef; [|left; reflexivity].
  right. apply find_some in Ef. destruct Ef as [_ Hn]. cbn [snd hnodup existsb].
  destruct t; try reflexivity. rewrite hkey_nil_r, orb_false_r, Hn. reflexivity.
Qed.

Lemma mk_union_spec : forall r, hnodup r = true -> (2 <= length r)%nat ->
  exists k ms, mk_union r = TUnion 0 k ms /\ (forall x, In x ms <-> In x r) /\ hnodup ms = true /\ (2 <= length ms)%nat.
Proof.
  intros r Hn Hl. unfold mk_union. pose proof (from_vec_u_In r) as Hin. pose proof (from_vec_u_shape r) as Hs.
  destruct (from_vec_u r) as [k ms]. cbn [snd] in *. exists k, ms.
  assert (Hn' : hnodup ms = true) by (destruct Hs as [-> |Hs]; assumption).
  repeat split; try apply Hin; auto.
  apply (two_of_hnodup r ms Hn Hl). intros x. apply Hin.
Qed.

(** what [from_vec] makes of the de-duplicated members *)
Definition pick (r : list ty) : ty :=
  match r with [] => TNil | [t] => t | a :: b :: r' => mk_union (a :: b :: r') end.

Lemma from_vec_long : forall l, (2 <= length l)%nat -> from_vec l = pick (hdedup (flat_map members l)).
Proof.
  intros l H. unfold hdedup. rewrite <- flat_dedup_members.
  destruct l as [|a [|b r]]; cbn [length] in H; try lia. reflexivity.
Qed.

Lemma pick_long : forall r, (2 <= length r)%nat -> pick r = mk_union r.
Proof. intros [|a [|b r]] H; cbn [length] in H; try lia. reflexivity. Qed.

(** the element type of a strict array: [from_vec [b; nil]] adds [nil] to the members of [b] *)
Lemma from_vec_opt : forall b, hnodup (members b) = true -> (is_union b = true -> (2 <= length (members b))%nat) ->
  (b = TNil /\ from_vec [b; TNil] = TNil) \/
  (exists k ms, from_vec [b; TNil] = TUnion 0 k ms /\ incl (members b) ms /\
     (forall x, In x ms -> In x (members b) \/ x = TNil) /\ hnodup ms = true /\ (2 <= length ms)%nat).
Proof.
  intros b Hn Hl. rewrite from_vec_long by (cbn [length]; lia).
  change (flat_map members [b; TNil]) with (members b ++ [TNil]). rewrite (hdedup_snoc _ _ Hn).
  assert (Hu : forall r, hnodup r = true -> (2 <= length r)%nat -> incl (members b) r ->
                (forall x, In x r -> In x (members b) \/ x = TNil) ->
                exists k ms, pick r = TUnion 0 k ms /\ incl (members b) ms /\
                  (forall x, In x ms -> In x (members b) \/ x = TNil) /\ hnodup ms = true /\ (2 <= length ms)%nat).
  { intros r Hr Hr2 Hsub Hsup. rewrite (pick_long r Hr2).
    destruct (mk_union_spec r Hr Hr2) as (k & ms & -> & Hin & Hn' & Hl'). exists k, ms.
    repeat split; auto; intros x Hx; [apply Hin, Hsub, Hx|apply Hsup, Hin, Hx]. }
  destruct (hmem TNil (members b)) eqn:Em.
  - rewrite app_nil_r. destruct (is_union b) eqn:Eu.
    + right. apply Hu; auto using incl_refl.
    + left. assert (members b = [b]) as E by (destruct b; try reflexivity; discriminate).
      rewrite E in *. rewrite hmem_cons, orb_false_r, hkey_nil_r in Em. apply is_b_eq in Em. auto.
  - right. apply Hu.
    + apply hnodup_app_one; assumption.
    + rewrite app_length. destruct b; cbn [members length]; try lia. specialize (Hl eq_refl). cbn [members] in Hl. lia.
    + apply incl_appl, incl_refl.
    + intros x Hx. apply in_app_or in Hx. destruct Hx as [Hx|[<-|[]]]; auto.
Qed.

Lemma union_type_nonref : forall G a t, super_id a = None ->
  union_type G a t = canonicalize_callable_union (union_type_impl a a t).
Proof.
  intros G a t H. unfold union_type, get_real_type.
  destruct (N.to_nat REAL_TYPE_MAX_DEPTH); [reflexivity|]. destruct a; try reflexivity. discriminate.
Qed.

Lemma union_type_any_r : forall G a, union_type G a TAny = TAny.
Proof.
  intros G a. unfold union_type, union_type_impl.
  destruct (is_b BAny (match get_real_type G a with Some r => r | None => a end)); reflexivity.
Qed.

Lemma fold_from_any : forall G ts, fold_left (union_type G) ts TAny = TAny.
Proof.
  intros G ts. induction ts as [|t r IH]; [reflexivity|]. cbn [fold_left].
  rewrite union_type_nonref by reflexivity. exact IH.
Qed.

Lemma fold_with_any : forall G ts acc, existsb (is_b BAny) ts = true -> fold_left (union_type G) ts acc = TAny.
Proof.
  intros G ts. induction ts as [|t r IH]; intros acc H; [discriminate|].
  cbn [existsb] in H. cbn [fold_left]. destruct (is_b BAny t) eqn:Et.
  - apply is_b_eq in Et. subst t. rewrite union_type_any_r. apply fold_from_any.
  - apply IH. exact H.
Qed.

Lemma fold_all_never : forall G ts, filter (fun t => negb (is_b BNever t)) ts = [] ->
  fold_left (union_type G) ts TNever = TNever.
Proof.
  intros G ts. induction ts as [|t r IH]; intros H; [reflexivity|].
  cbn [filter] in H. destruct (is_b BNever t) eqn:Et; cbn [negb] in H; [|discriminate].
  apply is_b_eq in Et. subst t. cbn [fold_left]. rewrite union_type_nonref by reflexivity. apply IH. exact H.
Qed.

(** outside the structural fast path the batch union IS the fold *)
Lemma union_all_eq_fold_slow : forall G ts,
  can_use_structural_union (filter (fun t => negb (is_b BNever t)) ts) = false \/
  existsb (is_b BAny) ts = true \/ filter (fun t => negb (is_b BNever t)) ts = [] ->
  union_type_all G ts = union_fold G ts.
Proof.
  intros G ts H. unfold union_type_all, union_fold.
  destruct (existsb (is_b BAny) ts) eqn:Ea; [symmetry; apply fold_with_any; exact Ea|].
  destruct (filter (fun t => negb (is_b BNever t)) ts) as [|x r] eqn:Ef.
  - symmetry. apply fold_all_never. exact Ef.
  - destruct H as [H|[H|H]]; try discriminate. rewrite H. reflexivity.
Qed.
