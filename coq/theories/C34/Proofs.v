(** C34/Proofs.v — every spelling of a path component in a URI is an [enc_bytes] encoding of its UTF-8
    bytes; [parse_path] rewrites it into the clean spelling (ASCII, nothing of PATH literal), which a second
    parse leaves alone and [pct_decode] takes back to the bytes. *)
From EV Require Import Base.TextFacts Base.Utf8Facts C34.Model C34.Spec.
From Coq Require Import ZArith.
Local Open Scope N_scope.

Lemma text_eqb_eq : forall a b, text_eqb a b = true <-> a = b.
Proof.
  induction a as [|x a IH]; intros [|y b]; cbn [text_eqb]; split; intros H; try reflexivity; try discriminate.
  - apply andb_true_iff in H. destruct H as [H1 H2]. apply N.eqb_eq in H1. apply IH in H2. subst. reflexivity.
  - injection H as -> ->. rewrite N.eqb_refl. cbn [andb]. apply IH. reflexivity.
Qed.

Lemma texts_eqb_eq : forall a b, texts_eqb a b = true <-> a = b.
Proof.
  induction a as [|x a IH]; intros [|y b]; cbn [texts_eqb]; split; intros H; try reflexivity; try discriminate.
  - apply andb_true_iff in H. destruct H as [H1 H2]. apply text_eqb_eq in H1. apply IH in H2. subst. reflexivity.
  - injection H as -> ->. rewrite (proj2 (text_eqb_eq y y) eq_refl). cbn [andb]. apply IH. reflexivity.
Qed.

Lemma path_eqb_iff : forall a b, path_eqb a b = true <-> path_components a = path_components b.
Proof.
  intros a b. unfold path_eqb.
  destruct (path_components a) as [ra ca]. destruct (path_components b) as [rb cb].
  rewrite andb_true_iff, Bool.eqb_true_iff, texts_eqb_eq. split; [intros [-> ->]; reflexivity|].
  intros H. injection H. auto.
Qed.

Lemma path_eqb_refl : forall a, path_eqb a a = true.
Proof. intros a. apply path_eqb_iff. reflexivity. Qed.

(** a plain character: the path parser just collects it into the current segment *)
Definition plain_char (c : cp) : Prop := 32 < c /\ is_special c = false.

(** a kept character: plain, ASCII and not in PATH, so that re-encoding leaves it as it is *)
Definition kept (c : cp) : bool := (32 <? c) && negb (is_special c) && (c <? 128) && negb (inb c path_set).

Definition reenc (s : text) : text := utf8_pct_encode path_set s.

Lemma kept_spec : forall c, kept c = true -> plain_char c /\ c < 128 /\ inb c path_set = false.
Proof.
  intros c H. unfold kept in H. rewrite !andb_true_iff, !negb_true_iff, !N.ltb_lt in H.
  destruct H as [[[A B] C] D]. repeat split; assumption.
Qed.

Lemma lit_ok_plain : forall c, lit_ok c = true -> plain_char c /\ c <> PERCENT.
Proof.
  intros c. unfold lit_ok, plain_char.
  rewrite andb_true_iff, negb_true_iff, orb_false_iff, N.ltb_lt, N.eqb_neq. tauto.
Qed.

Lemma high_plain : forall c, 128 <= c -> plain_char c.
Proof.
  intros c H. split; [lia|]. unfold is_special, is_sl, SLASH, BACKSLASH, QUESTION, HASH.
  rewrite !(proj2 (N.eqb_neq c _)) by lia. reflexivity.
Qed.

(** what stays literal after the parser has re-read a segment *)
Definition lit_clean (b : cp) : bool := lit_ok b && negb (inb b path_set).

Lemma lit_clean_ok : forall b, lit_clean b = true -> lit_ok b = true.
Proof. intros b H. unfold lit_clean in H. apply andb_true_iff in H. tauto. Qed.

Lemma lit_clean_kept : forall b, b < 128 -> lit_clean b = true -> kept b = true.
Proof.
  intros b Hb H. unfold lit_clean in H. apply andb_true_iff in H. destruct H as [H1 H2].
  apply lit_ok_plain in H1. destruct H1 as [[A B] _].
  unfold kept. rewrite (ltb_lt 32 b), (ltb_lt b 128), B, H2 by assumption. reflexivity.
Qed.

Lemma forallb_below : forall (P : N -> bool) n,
  forallb P (map N.of_nat (seq 0 n)) = true -> forall b, b < N.of_nat n -> P b = true.
Proof.
  intros P n T b H. rewrite forallb_forall in T. apply T.
  apply in_map_iff. exists (N.to_nat b). split; [lia|]. apply in_seq. lia.
Qed.

Definition ascii_bytes : list N := map N.of_nat (seq 0 128).

(** [%] and the hex digits are kept: the parser leaves existing escapes alone *)
Lemma table_hex_kept :
  forallb (fun h => match hex_val h with Some _ => kept h | None => true end) ascii_bytes = true.
Proof. vm_compute. reflexivity. Qed.

Lemma percent_kept : kept PERCENT = true.
Proof. vm_compute. reflexivity. Qed.

(** every ASCII byte that [Url::from_file_path] leaves unescaped may stand for itself;
    [%] is always escaped *)
Lemma table_sps_literals :
  forallb (fun b => inb b special_path_segment_set || lit_ok b) ascii_bytes = true.
Proof. vm_compute. reflexivity. Qed.

Lemma table_sps_percent : inb PERCENT special_path_segment_set = true.
Proof. vm_compute. reflexivity. Qed.

Lemma table_hex_upper :
  forallb (fun d => match hex_val (hex_upper d) with Some x => x =? d | None => false end)
          (map N.of_nat (seq 0 16)) = true.
Proof. vm_compute. reflexivity. Qed.

Lemma sps_literal : forall b, b < 128 -> inb b special_path_segment_set = false -> lit_ok b = true.
Proof. intros b H Hn. pose proof (forallb_below _ 128 table_sps_literals b H) as T. cbv beta in T. rewrite Hn in T. exact T. Qed.

Lemma hex_val_ascii : forall h x, hex_val h = Some x -> h < 128.
Proof.
  intros h x H. destruct (N.lt_ge_cases h 128) as [A|A]; [exact A|]. unfold hex_val in H.
  rewrite (proj2 (N.leb_gt h 57)), (proj2 (N.leb_gt h 70)), (proj2 (N.leb_gt h 102)), !andb_false_r in H by lia.
  discriminate.
Qed.

Lemma hex_kept : forall h x, hex_val h = Some x -> kept h = true.
Proof.
  intros h x H. pose proof (forallb_below _ 128 table_hex_kept h (hex_val_ascii h x H)) as T.
  cbv beta in T. rewrite H in T. exact T.
Qed.

Lemma hex_val_upper : forall d, d < 16 -> hex_val (hex_upper d) = Some d.
Proof.
  intros d H. pose proof (forallb_below _ 16 table_hex_upper d H) as T. cbv beta in T.
  destruct (hex_val (hex_upper d)) as [x|]; [|discriminate]. apply N.eqb_eq in T. subst. reflexivity.
Qed.

Section Arith.
Ltac Zify.zify_post_hook ::= Z.to_euclidean_division_equations.

Lemma nibbles : forall b, b < 256 -> b / 16 < 16 /\ b mod 16 < 16 /\ (b / 16) * 16 + b mod 16 = b.
Proof. intros b H. lia. Qed.

End Arith.

Lemma flat_map_cons_map : forall (A : Type) (f : A -> text) (l : list A),
  flat_map (fun c => SLASH :: f c) l = flat_map (cons SLASH) (map f l).
Proof.
  intros A f l. induction l as [|x l IH]; cbn [flat_map map]; [reflexivity|]. rewrite IH. reflexivity.
Qed.

Lemma filter_all : forall (A : Type) (f : A -> bool) (l : list A), forallb f l = true -> filter f l = l.
Proof.
  intros A f l. induction l as [|x l IH]; intros H; [reflexivity|]. cbn [forallb] in H.
  apply andb_true_iff in H. destruct H as [H1 H2]. cbn [filter]. rewrite H1, (IH H2). reflexivity.
Qed.

Lemma Forall2_map_r : forall (A B C : Type) (R : A -> C -> Prop) (f : B -> C) (l : list A) (m : list B),
  Forall2 (fun a b => R a (f b)) l m -> Forall2 R l (map f m).
Proof. intros A B C R f l m H. induction H; cbn [map]; constructor; assumption. Qed.

Lemma Forall2_impl : forall (A B : Type) (R S : A -> B -> Prop) l m,
  (forall a b, R a b -> S a b) -> Forall2 R l m -> Forall2 S l m.
Proof. intros A B R S l m I H. induction H; constructor; auto. Qed.

Lemma Forall2_impl_in : forall (A B : Type) (P : A -> Prop) (R S : A -> B -> Prop) l m,
  (forall a b, P a -> R a b -> S a b) -> Forall P l -> Forall2 R l m -> Forall2 S l m.
Proof.
  intros A B P R S l m I HP H. induction H; constructor.
  - inversion HP; subst. auto.
  - apply IHForall2. inversion HP; subst. assumption.
Qed.

Lemma pct_encode_app : forall set a b, pct_encode set (a ++ b) = pct_encode set a ++ pct_encode set b.
Proof.
  intros set a b. induction a as [|x a IH]; cbn [app pct_encode]; [reflexivity|].
  rewrite IH, app_assoc. reflexivity.
Qed.

Lemma enc_weaken : forall (L L' : cp -> bool) (U U' : bool) bs s,
  (forall b, b < 128 -> L b = true -> L' b = true) -> (U = true -> U' = true) ->
  enc_bytes L U bs s -> enc_bytes L' U' bs s.
Proof.
  intros L L' U U' bs s HL HU H. induction H.
  - constructor.
  - apply enc_lit; auto.
  - apply enc_uni; auto.
  - eapply enc_esc; eauto.
Qed.

(** every character of an encoding is a literal, a non-ASCII character, [%] or a hex digit *)
Lemma enc_chars : forall (P : cp -> Prop) L U bs s,
  (forall b, b < 128 -> L b = true -> P b) -> (U = true -> forall c, 128 <= c -> P c) ->
  P PERCENT -> (forall h x, hex_val h = Some x -> P h) ->
  enc_bytes L U bs s -> Forall P s.
Proof. intros P L U bs s HL HU HP HH H. induction H; repeat constructor; eauto. Qed.

Lemma enc_plain : forall L U bs s, (forall b, L b = true -> plain_char b) ->
  enc_bytes L U bs s -> Forall plain_char s.
Proof.
  intros L U bs s HL. apply enc_chars; [auto|intros _; exact high_plain|apply kept_spec, percent_kept|].
  intros h x H. apply kept_spec, (hex_kept h x H).
Qed.

Lemma clean_kept : forall bs s, enc_bytes lit_clean false bs s -> Forall (fun c => kept c = true) s.
Proof.
  intros bs s. apply enc_chars; [exact lit_clean_kept|intros X; discriminate X|exact percent_kept|exact hex_kept].
Qed.

Lemma enc_decode : forall L bs s, (forall b, L b = true -> b <> PERCENT) ->
  enc_bytes L false bs s -> forall rest, pct_decode (s ++ rest) = bs ++ pct_decode rest.
Proof.
  intros L bs s HL H. induction H as [|b bs s Hb Hl H IH|c bs s HU _ _ _ _|b h l bs s Hb Hh Hl H IH]; intros rest.
  - reflexivity.
  - cbn [app pct_decode]. destruct (N.eqb_spec b PERCENT) as [E|_]; [exfalso; exact (HL b Hl E)|].
    rewrite IH. reflexivity.
  - discriminate.
  - cbn [app pct_decode]. rewrite N.eqb_refl, Hh, Hl, IH.
    destruct (nibbles b Hb) as [_ [_ E]]. rewrite E. reflexivity.
Qed.

Lemma enc_nonempty : forall L U bs s, enc_bytes L U bs s -> bs <> [] -> s <> [].
Proof. intros L U bs s H Hn. destruct H; [contradiction|discriminate|discriminate|discriminate]. Qed.

Lemma pct_byte_enc : forall L U b bs s, b < 256 -> enc_bytes L U bs s -> enc_bytes L U (b :: bs) (pct_byte b ++ s).
Proof.
  intros L U b bs s Hb H. unfold pct_byte. cbn [app].
  destruct (nibbles b Hb) as [H1 [H2 _]].
  apply enc_esc; [exact Hb|apply hex_val_upper; exact H1|apply hex_val_upper; exact H2|exact H].
Qed.

Lemma pct_high_enc : forall L U set hs bs s, Forall (fun b => 128 <= b < 256) hs ->
  enc_bytes L U bs s -> enc_bytes L U (hs ++ bs) (pct_encode set hs ++ s).
Proof.
  intros L U set hs bs s Hh H. induction Hh as [|b hs [Hb1 Hb2] _ IH]; [exact H|].
  cbn [app pct_encode]. unfold should_encode. rewrite (leb_le 128 b) by exact Hb1. cbn [orb].
  rewrite <- app_assoc. apply pct_byte_enc; assumption.
Qed.

Lemma reenc_ascii : forall b s, b < 128 ->
  reenc (b :: s) = (if inb b path_set then pct_byte b else [b]) ++ reenc s.
Proof.
  intros b s H. unfold reenc, utf8_pct_encode. cbn [utf8_encode].
  rewrite utf8_encode_cp_ascii by exact H. cbn [app pct_encode].
  unfold should_encode. rewrite (proj2 (N.leb_gt 128 b)) by exact H. reflexivity.
Qed.

Lemma reenc_kept : forall c s, kept c = true -> reenc (c :: s) = c :: reenc s.
Proof.
  intros c s H. destruct (kept_spec c H) as [_ [A B]]. rewrite reenc_ascii, B by exact A. reflexivity.
Qed.

Lemma reenc_fix : forall s, Forall (fun c => kept c = true) s -> reenc s = s.
Proof. intros s H. induction H as [|c s Hc _ IH]; [reflexivity|]. rewrite reenc_kept, IH by exact Hc. reflexivity. Qed.

(** what [parse_path] does to a segment: same bytes, now in the clean form (ASCII only, nothing from PATH literal) *)
Lemma enc_reencode : forall bs s, enc_bytes lit_ok true bs s -> enc_bytes lit_clean false bs (reenc s).
Proof.
  intros bs s H. induction H as [|b bs s Hb Hl H IH|c bs s HU Hc Hs H IH|b h l bs s Hb Hh Hl H IH].
  - constructor.
  - rewrite reenc_ascii by exact Hb. destruct (inb b path_set) eqn:E.
    + apply pct_byte_enc; [lia|exact IH].
    + apply enc_lit; [exact Hb| |exact IH]. unfold lit_clean. rewrite Hl, E. reflexivity.
  - unfold reenc, utf8_pct_encode. cbn [utf8_encode]. rewrite pct_encode_app. apply pct_high_enc; [|exact IH].
    apply utf8_encode_cp_high. split; [exact Hc|apply is_scalar_lt; exact Hs].
  - rewrite (reenc_kept _ _ percent_kept), (reenc_kept _ _ (hex_kept _ _ Hh)), (reenc_kept _ _ (hex_kept _ _ Hl)).
    eapply enc_esc; eauto.
Qed.

Lemma enc_canonical : forall set bs, Forall (fun b => b < 256) bs ->
  enc_bytes (fun b => negb (inb b set)) false bs (pct_encode set bs).
Proof.
  intros set bs H. induction H as [|b bs Hb _ IH]; [constructor|].
  cbn [pct_encode]. unfold should_encode.
  destruct (N.leb_spec 128 b) as [Hh|Hh]; cbn [orb].
  - apply pct_byte_enc; assumption.
  - destruct (inb b set) eqn:E.
    + apply pct_byte_enc; assumption.
    + cbn [app]. apply enc_lit; [exact Hh|rewrite E; reflexivity|exact IH].
Qed.

Lemma percent_roundtrip : forall set bs, inb PERCENT set = true -> Forall (fun b => b < 256) bs ->
  pct_decode (pct_encode set bs) = bs.
Proof.
  intros set bs Hp H. pose proof (enc_canonical set bs H) as E.
  assert (HL : forall b, negb (inb b set) = true -> b <> PERCENT).
  { intros b Hb Eq. subst b. rewrite Hp in Hb. discriminate. }
  pose proof (enc_decode _ _ _ HL E []) as D.
  rewrite !app_nil_r in D. exact D.
Qed.

Lemma utf8_bytes_lt256 : forall t, scalar_text t = true -> Forall (fun b => b < 256) (utf8_encode t).
Proof.
  induction t as [|c t IH]; intros H; [constructor|].
  cbn [scalar_text forallb] in H. apply andb_true_iff in H. destruct H as [Hc Ht].
  cbn [utf8_encode]. apply Forall_app. split; [apply utf8_encode_cp_bytes; exact Hc|apply IH; exact Ht].
Qed.

(** the encoding chosen by [Url::from_file_path] *)
Lemma enc_from_file_path : forall c, scalar_text c = true ->
  enc_bytes lit_ok true (utf8_encode c) (pct_encode special_path_segment_set (utf8_encode c)).
Proof.
  intros c H. eapply enc_weaken; [| |apply enc_canonical, utf8_bytes_lt256, H].
  - intros b Hb Hn. apply sps_literal; [exact Hb|]. apply negb_true_iff. exact Hn.
  - intros X. discriminate X.
Qed.

Lemma lit_clean_not_percent : forall b, lit_clean b = true -> b <> PERCENT.
Proof. intros b H. apply lit_clean_ok in H. apply lit_ok_plain in H. tauto. Qed.

(** a segment that decodes to the bytes of [c] is one of the spellings [l] of [d] only if [c = d] *)
Lemma dot_spelling : forall l d c e, Forall (fun x => pct_decode x = utf8_encode d) l ->
  scalar_text d = true -> scalar_text c = true -> pct_decode e = utf8_encode c ->
  existsb (text_eqb e) l = true -> c = d.
Proof.
  intros l d c e Hl Hd Hc D H. apply existsb_exists in H. destruct H as [x [Hin Heq]].
  apply text_eqb_eq in Heq. subst x. rewrite Forall_forall in Hl.
  apply utf8_encode_inj; [exact Hc|exact Hd|]. rewrite <- D. apply Hl. exact Hin.
Qed.

Lemma not_dot : forall c e, good_comp c = true -> scalar_text c = true ->
  enc_bytes lit_clean false (utf8_encode c) e -> is_double_dot e = false /\ is_single_dot e = false.
Proof.
  intros c e Hg Hs He.
  pose proof (enc_decode _ _ _ lit_clean_not_percent He []) as D. rewrite !app_nil_r in D.
  unfold good_comp in Hg. apply andb_true_iff in Hg. destruct Hg as [Hg H2].
  apply andb_true_iff in Hg. destruct Hg as [_ H1].
  split.
  - destruct (is_double_dot e) eqn:E; [|reflexivity].
    apply (dot_spelling double_dots [DOT; DOT] c e) in E; [subst c; discriminate| |reflexivity|exact Hs|exact D].
    repeat constructor.
  - destruct (is_single_dot e) eqn:E; [|reflexivity].
    apply (dot_spelling single_dots [DOT] c e) in E; [subst c; discriminate| |reflexivity|exact Hs|exact D].
    repeat constructor.
Qed.

Lemma plain_branches : forall c, plain_char c -> is_sl c = false /\ ((c =? QUESTION) || (c =? HASH)) = false.
Proof.
  intros c [_ H]. unfold is_special in H. apply orb_false_iff in H. destruct H as [H H3].
  apply orb_false_iff in H. destruct H as [H1 H2]. rewrite H2, H3. tauto.
Qed.

Lemma loop_plain : forall s ser cur r, Forall plain_char s ->
  parse_path_loop ser cur (s ++ r) = parse_path_loop ser (cur ++ s) r.
Proof.
  induction s as [|c s IH]; intros ser cur r H.
  - rewrite app_nil_r. reflexivity.
  - inversion H as [|? ? Hc Hs]; subst. destruct (plain_branches c Hc) as [B1 B2].
    cbn [app parse_path_loop]. rewrite B1, B2. rewrite IH by exact Hs. rewrite <- app_assoc. reflexivity.
Qed.

(** a segment the loop passes through unchanged (apart from the re-encoding) *)
Definition seg_fine (s : text) : Prop :=
  Forall plain_char s /\ is_double_dot (reenc s) = false /\ is_single_dot (reenc s) = false.

Lemma finish_fine : forall ser s slash, (2 <= length ser)%nat -> seg_fine s ->
  finish_segment ser s slash = ser ++ reenc s ++ (if slash then [SLASH] else []).
Proof.
  intros ser s slash Hl [_ [H1 H2]]. unfold finish_segment. fold (reenc s). rewrite H1, H2.
  destruct (Nat.eqb_spec (length ser) 1) as [E|_]; [lia|]. reflexivity.
Qed.

Definition join1 (s1 : text) (rest : list text) : text := s1 ++ flat_map (cons SLASH) rest.

Lemma loop_segs : forall rest s1 ser, (2 <= length ser)%nat -> Forall seg_fine (s1 :: rest) ->
  parse_path_loop ser [] (join1 s1 rest) = ser ++ join1 (reenc s1) (map reenc rest).
Proof.
  induction rest as [|s2 rest IH]; intros s1 ser Hl HF; inversion HF as [|? ? H1 HR]; subst;
    unfold join1; cbn [flat_map map]; rewrite loop_plain by (destruct H1; assumption);
    cbn [app parse_path_loop].
  - rewrite finish_fine by assumption. reflexivity.
  - replace (is_sl SLASH) with true by reflexivity. rewrite finish_fine by assumption.
    fold (join1 s2 rest). rewrite IH; [|rewrite !app_length; cbn [length]; lia|exact HR].
    unfold join1. rewrite <- !app_assoc. reflexivity.
Qed.

Definition visible (c : cp) : Prop := 32 < c.

Lemma visible_not_c0 : forall c, visible c -> c0_or_space c = false.
Proof. intros c H. apply N.leb_gt. exact H. Qed.

Lemma trim_start_visible : forall s, Forall visible s -> trim_start s = s.
Proof.
  intros s H. destruct H as [|c s Hc _]; [reflexivity|]. cbn [trim_start].
  rewrite (visible_not_c0 c Hc). reflexivity.
Qed.

Lemma trim_end_visible : forall s, Forall visible s -> trim_end s = s.
Proof.
  intros s H. induction H as [|c s Hc _ IH]; [reflexivity|]. cbn [trim_end]. rewrite IH.
  destruct s; [|reflexivity]. rewrite (visible_not_c0 c Hc). reflexivity.
Qed.

Lemma trim_visible : forall s, Forall visible s -> trim s = s.
Proof. intros s H. unfold trim. rewrite trim_start_visible by exact H. apply trim_end_visible. exact H. Qed.

Lemma no_tab_visible : forall s, Forall visible s -> existsb tab_or_nl s = false.
Proof.
  intros s H. induction H as [|c s Hc _ IH]; [reflexivity|]. cbn [existsb]. rewrite IH.
  unfold tab_or_nl, visible in *. rewrite !(proj2 (N.eqb_neq c _)) by lia. reflexivity.
Qed.

Lemma plain_visible : forall s, Forall plain_char s -> Forall visible s.
Proof. intros s H. eapply Forall_impl; [|exact H]. intros c [Hc _]. exact Hc. Qed.

Lemma flat_visible : forall segs, Forall seg_fine segs -> Forall visible (flat_map (cons SLASH) segs).
Proof.
  intros segs H. induction H as [|s segs [Hs _] _ IH]; [constructor|].
  cbn [flat_map app]. constructor; [unfold visible, SLASH; lia|].
  apply Forall_app. split; [apply plain_visible; exact Hs|exact IH].
Qed.

Lemma url_path_prefix : forall x, Forall visible (SLASH :: x) ->
  url_path (FILE_PREFIX ++ SLASH :: x) = UOk (parse_path [SLASH] (SLASH :: x)).
Proof.
  intros x H. unfold url_path.
  assert (V : Forall visible (FILE_PREFIX ++ SLASH :: x)).
  { apply Forall_app. split; [|exact H]. repeat constructor. }
  rewrite trim_visible by exact V. rewrite no_tab_visible by exact V. reflexivity.
Qed.

Lemma trim_slashes_plain : forall c s, plain_char c -> trim_slashes (c :: s) = c :: s.
Proof.
  intros c s [_ H]. cbn [trim_slashes]. unfold is_special, is_sl in H.
  destruct (N.eqb_spec c SLASH); [discriminate|reflexivity].
Qed.

(** the first segment must come out non-empty: [trim_slashes] removes every leading slash of the
    serialisation, so an empty first segment would take the following separator with it *)
Lemma url_path_segs : forall s1 rest, Forall seg_fine (s1 :: rest) ->
  (exists c t, reenc s1 = c :: t /\ plain_char c) ->
  url_path (FILE_PREFIX ++ flat_map (cons SLASH) (s1 :: rest)) =
  UOk (flat_map (cons SLASH) (map reenc (s1 :: rest))).
Proof.
  intros s1 rest HF [c [t [Hc Hp]]]. cbn [flat_map map app].
  rewrite url_path_prefix by exact (flat_visible _ HF).
  unfold parse_path. cbn [parse_path_loop]. replace (is_sl SLASH) with true by reflexivity.
  replace (finish_segment [SLASH] [] true) with [SLASH; SLASH] by reflexivity.
  fold (join1 s1 rest). rewrite loop_segs; [|cbn [length]; lia|exact HF].
  unfold join1. cbn [app trim_slashes]. replace (SLASH =? SLASH) with true by reflexivity.
  rewrite Hc. cbn [app]. rewrite trim_slashes_plain by exact Hp. reflexivity.
Qed.

Definition enc_comps (L : cp -> bool) (U : bool) (comps segs : list text) : Prop :=
  Forall2 (fun c s => enc_bytes L U (utf8_encode c) s) comps segs.

Definition good_comps (comps : list text) : Prop :=
  Forall (fun c => good_comp c = true /\ scalar_text c = true) comps.

Lemma good_nonempty_bytes : forall c, good_comp c = true -> utf8_encode c <> [].
Proof.
  intros c H. destruct c as [|x c]; [discriminate|]. cbn [utf8_encode]. intros E.
  apply app_eq_nil in E. destruct E as [E _]. exact (utf8_encode_cp_nonempty x E).
Qed.

Lemma enc_segs_fine : forall comps segs, good_comps comps -> enc_comps lit_ok true comps segs ->
  Forall seg_fine segs.
Proof.
  intros comps segs Hg He. induction He as [|c s comps segs Hcs _ IH]; [constructor|].
  inversion Hg as [|? ? [Hgc Hsc] Hg']; subst. constructor; [|exact (IH Hg')].
  split; [exact (enc_plain _ _ _ _ (fun b H => proj1 (lit_ok_plain b H)) Hcs)|].
  apply (not_dot c); [exact Hgc|exact Hsc|]. apply enc_reencode. exact Hcs.
Qed.

Lemma url_path_enc : forall comps segs, comps <> [] -> good_comps comps -> enc_comps lit_ok true comps segs ->
  url_path (FILE_PREFIX ++ flat_map (cons SLASH) segs) = UOk (flat_map (cons SLASH) (map reenc segs)) /\
  enc_comps lit_clean false comps (map reenc segs).
Proof.
  intros comps segs Hne Hg He. split.
  - pose proof (enc_segs_fine comps segs Hg He) as HF.
    destruct He as [|c s comps segs Hcs He]; [contradiction|].
    inversion Hg as [|? ? [Hgc _] _]; subst.
    apply url_path_segs; [exact HF|].
    pose proof (enc_reencode _ _ Hcs) as R.
    pose proof (enc_nonempty _ _ _ _ R (good_nonempty_bytes c Hgc)) as N.
    pose proof (clean_kept _ _ R) as P.
    destruct (reenc s) as [|x t]; [contradiction|].
    exists x, t. split; [reflexivity|]. inversion P; subst. apply kept_spec. assumption.
  - apply Forall2_map_r. eapply Forall2_impl; [|exact He]. intros c s H. apply enc_reencode. exact H.
Qed.

Lemma map_reenc_clean : forall comps segs, enc_comps lit_clean false comps segs -> map reenc segs = segs.
Proof.
  intros comps segs H. induction H as [|c s comps segs Hcs _ IH]; [reflexivity|].
  cbn [map]. rewrite IH, (reenc_fix s (clean_kept _ _ Hcs)). reflexivity.
Qed.

Lemma clean_is_enc : forall comps segs, enc_comps lit_clean false comps segs -> enc_comps lit_ok true comps segs.
Proof.
  intros comps segs H. eapply Forall2_impl; [|exact H]. intros c s E.
  eapply enc_weaken; [intros b _; apply lit_clean_ok|intros _; reflexivity|exact E].
Qed.

Lemma clean_all_ascii : forall comps segs, enc_comps lit_clean false comps segs ->
  all_ascii (flat_map (cons SLASH) segs) = true.
Proof.
  intros comps segs H. induction H as [|c s comps segs Hcs _ IH]; [reflexivity|].
  cbn [flat_map]. rewrite all_ascii_app, IH, andb_true_r. apply forallb_forall. intros x [<-|Hx]; [reflexivity|].
  pose proof (clean_kept _ _ Hcs) as K. rewrite Forall_forall in K. apply N.ltb_lt, (kept_spec x (K x Hx)).
Qed.

Lemma clean_decode : forall comps segs, enc_comps lit_clean false comps segs ->
  pct_decode (flat_map (cons SLASH) segs) = utf8_encode (flat_map (cons SLASH) comps).
Proof.
  intros comps segs H. induction H as [|c s comps segs Hcs _ IH]; [reflexivity|].
  cbn [flat_map app]. cbn [pct_decode]. replace (SLASH =? PERCENT) with false by reflexivity.
  rewrite (enc_decode _ _ _ lit_clean_not_percent Hcs). rewrite IH.
  cbn [utf8_encode]. rewrite utf8_encode_app. reflexivity.
Qed.

Lemma scalar_join : forall l,
  scalar_text (flat_map (cons SLASH) l) = true <-> Forall (fun c => scalar_text c = true) l.
Proof.
  induction l as [|c l IH]; [split; constructor|].
  change (flat_map (cons SLASH) (c :: l)) with ([SLASH] ++ c ++ flat_map (cons SLASH) l).
  rewrite !scalar_text_app, !andb_true_iff, IH, Forall_cons_iff. cbn. tauto.
Qed.

Lemma uri_path_clean : forall comps segs, comps <> [] -> good_comps comps -> enc_comps lit_clean false comps segs ->
  uri_path_to_file_path (flat_map (cons SLASH) segs) = UOk (Some (flat_map (cons SLASH) comps)).
Proof.
  intros comps segs Hne Hg He. unfold uri_path_to_file_path.
  destruct (url_path_enc comps segs Hne Hg (clean_is_enc _ _ He)) as [E _].
  rewrite E. rewrite (map_reenc_clean _ _ He). unfold decode_path.
  rewrite (utf8_encode_ascii _ (clean_all_ascii _ _ He)). rewrite (clean_decode _ _ He).
  rewrite utf8_decode_encode; [reflexivity|].
  apply scalar_join. eapply Forall_impl; [|exact Hg]. intros c [_ Hs]. exact Hs.
Qed.

Lemma uri_enc_decodes : forall comps segs, comps <> [] -> good_comps comps -> enc_comps lit_ok true comps segs ->
  uri_to_file_path (FILE_PREFIX ++ flat_map (cons SLASH) segs) = UOk (Some (flat_map (cons SLASH) comps)).
Proof.
  intros comps segs Hne Hg He. unfold uri_to_file_path.
  destruct (url_path_enc comps segs Hne Hg He) as [E C]. rewrite E.
  apply uri_path_clean; assumption.
Qed.

Lemma split_on_nonnil : forall sep s, split_on sep s <> [].
Proof.
  intros sep s. induction s as [|c s IH]; cbn [split_on]; [discriminate|].
  destruct (c =? sep); [discriminate|]. destruct (split_on sep s); [contradiction|discriminate].
Qed.

Lemma join_split : forall r, SLASH :: r = flat_map (cons SLASH) (split_on SLASH r).
Proof.
  induction r as [|c r IH]; [reflexivity|]. cbn [split_on].
  destruct (N.eqb_spec c SLASH) as [E|E].
  - subst c. cbn [flat_map app]. rewrite <- IH. reflexivity.
  - pose proof (split_on_nonnil SLASH r) as N. destruct (split_on SLASH r) as [|x xs]; [contradiction|].
    cbn [flat_map app] in *. injection IH as IH. rewrite IH. reflexivity.
Qed.

(** a normalised absolute path is "/" or the join of its good components *)
Lemma normalized_shape : forall p, normalized_abs p = true -> scalar_text p = true ->
  p = [SLASH] /\ comps_of p = [] \/
  comps_of p <> [] /\ good_comps (comps_of p) /\ p = flat_map (cons SLASH) (comps_of p) /\
  path_components p = (true, comps_of p).
Proof.
  intros p H Hs. destruct p as [|c r]; [discriminate|]. cbn [normalized_abs] in H.
  apply andb_true_iff in H. destruct H as [Hc H]. apply N.eqb_eq in Hc. subst c.
  destruct r as [|c r]; [left; split; reflexivity|]. right.
  cbn [is_nil orb] in H. cbn [comps_of].
  rewrite (join_split (c :: r)) in Hs. apply scalar_join in Hs. rename Hs into S.
  rewrite forallb_forall in H. rewrite Forall_forall in S.
  split; [apply split_on_nonnil|]. split.
  - apply Forall_forall. intros x Hx. split; [apply H; exact Hx|apply S; exact Hx].
  - split; [apply join_split|]. cbn [path_components]. replace (SLASH =? SLASH) with true by reflexivity.
    f_equal. apply filter_all. apply forallb_forall. intros x Hx. specialize (H x Hx).
    unfold good_comp in H. unfold normal_comp. apply andb_true_iff in H. destruct H as [H _]. exact H.
Qed.

Lemma root_decodes : uri_to_file_path (FILE_PREFIX ++ [SLASH]) = UOk (Some [SLASH]).
Proof. vm_compute. reflexivity. Qed.

Lemma root_to_uri : file_path_to_uri [SLASH] = UOk (Some (FILE_PREFIX ++ [SLASH])).
Proof. vm_compute. reflexivity. Qed.

Lemma any_encoding_decodes : forall p u,
  normalized_abs p = true -> scalar_text p = true -> uri_encodes p u ->
  uri_to_file_path u = UOk (Some p).
Proof.
  intros p u Hn Hs [segs [HF Hu]]. subst u.
  destruct (normalized_shape p Hn Hs) as [[Hp Hc]|[Hne [Hg [Hp _]]]].
  - rewrite Hc in HF. inversion HF; subst. exact root_decodes.
  - assert (segs <> []) as Hsn. { intros ->. inversion HF as [E|]. apply Hne. symmetry. exact E. }
    destruct segs as [|s segs]; [contradiction|].
    etransitivity; [apply (uri_enc_decodes (comps_of p) (s :: segs)); assumption|].
    rewrite <- Hp. reflexivity.
Qed.

Lemma path_uri_roundtrip : forall p,
  normalized_abs p = true -> scalar_text p = true ->
  exists u, file_path_to_uri p = UOk (Some u) /\ uri_to_file_path u = UOk (Some p).
Proof.
  intros p Hn Hs.
  destruct (normalized_shape p Hn Hs) as [[Hp Hc]|[Hne [Hg [Hp Hpc]]]].
  - subst p. exists (FILE_PREFIX ++ [SLASH]). split; [exact root_to_uri|exact root_decodes].
  - remember (comps_of p) as comps eqn:Ec.
    pose (segs := map (fun c => pct_encode special_path_segment_set (utf8_encode c)) comps).
    assert (He : enc_comps lit_ok true comps segs).
    { unfold segs. apply Forall2_map_r. clear Ec Hne Hp Hpc.
      induction Hg as [|c comps [_ Hsc] _ IH]; constructor; [apply enc_from_file_path; exact Hsc|exact IH]. }
    assert (Hff : from_file_path p = Some (FILE_PREFIX ++ flat_map (cons SLASH) segs)).
    { unfold from_file_path. rewrite Hpc. unfold segs. rewrite <- flat_map_cons_map.
      destruct comps; [contradiction|reflexivity]. }
    destruct (url_path_enc comps segs Hne Hg He) as [E C].
    exists (FILE_PREFIX ++ flat_map (cons SLASH) (map reenc segs)). split.
    + unfold file_path_to_uri. rewrite Hff, E. reflexivity.
    + etransitivity; [apply (uri_enc_decodes comps (map reenc segs)); [exact Hne|exact Hg|apply clean_is_enc; exact C]|].
      rewrite <- Hp. reflexivity.
Qed.

Lemma lookup_eqv : forall m p q, path_eqb p q = true -> lookup p m = lookup q m.
Proof.
  intros m p q H. apply path_eqb_iff in H. induction m as [|[k i] m IH]; [reflexivity|].
  cbn [lookup]. unfold path_eqb. rewrite H, IH. reflexivity.
Qed.

Lemma file_id_result : forall v u p i v1,
  uri_to_file_path u = UOk (Some p) -> file_id v u = UOk (i, v1) -> lookup p (v_map v1) = Some i.
Proof.
  intros v u p i v1 Hu H. unfold file_id in H. rewrite Hu in H.
  destruct (lookup p (v_map v)) eqn:E; injection H as <- <-; [exact E|].
  cbn [v_map lookup]. rewrite path_eqb_refl. reflexivity.
Qed.

Lemma file_id_of_lookup : forall v u p i,
  uri_to_file_path u = UOk (Some p) -> lookup p (v_map v) = Some i -> file_id v u = UOk (i, v).
Proof. intros v u p i Hu H. unfold file_id. rewrite Hu, H. reflexivity. Qed.

Lemma file_id_preserves : forall v u j v1 p i,
  file_id v u = UOk (j, v1) -> lookup p (v_map v) = Some i -> lookup p (v_map v1) = Some i.
Proof.
  intros v u j v1 p i H Hl. unfold file_id in H.
  destruct (uri_to_file_path u) as [[q|]|]; [| |discriminate].
  - destruct (lookup q (v_map v)) eqn:E; injection H as <- <-; [exact Hl|].
    cbn [v_map lookup]. destruct (path_eqb q p) eqn:Q; [|exact Hl].
    rewrite (lookup_eqv _ _ _ Q) in E. rewrite E in Hl. discriminate.
  - injection H as <- <-. exact Hl.
Qed.

Lemma file_ids_preserve : forall us v js v2 p i,
  file_ids v us = UOk (js, v2) -> lookup p (v_map v) = Some i -> lookup p (v_map v2) = Some i.
Proof.
  induction us as [|u us IH]; intros v js v2 p i H Hl; cbn [file_ids] in H.
  - injection H as <- <-. exact Hl.
  - destruct (file_id v u) as [[j v1]|] eqn:E; [|discriminate].
    destruct (file_ids v1 us) as [[js' v2']|] eqn:E2; [|discriminate]. injection H as <- <-.
    eapply IH; [exact E2|]. eapply file_id_preserves; eassumption.
Qed.

Lemma same_decoding_same_file : forall v u1 u2 p1 p2 i v1,
  uri_to_file_path u1 = UOk (Some p1) -> uri_to_file_path u2 = UOk (Some p2) -> path_eqb p1 p2 = true ->
  file_id v u1 = UOk (i, v1) ->
  file_id v1 u2 = UOk (i, v1) /\ get_file_id v1 u1 = UOk (Some i) /\ get_file_id v1 u2 = UOk (Some i).
Proof.
  intros v u1 u2 p1 p2 i v1 H1 H2 He Hf.
  pose proof (file_id_result _ _ _ _ _ H1 Hf) as L1.
  assert (L2 : lookup p2 (v_map v1) = Some i) by (rewrite <- (lookup_eqv _ _ _ He); exact L1).
  split; [exact (file_id_of_lookup _ _ _ _ H2 L2)|].
  unfold get_file_id. rewrite H1, H2, L1, L2. split; reflexivity.
Qed.

Lemma file_id_stable : forall v u1 u2 p1 p2 i v1 us js v2,
  uri_to_file_path u1 = UOk (Some p1) -> uri_to_file_path u2 = UOk (Some p2) -> path_eqb p1 p2 = true ->
  file_id v u1 = UOk (i, v1) -> file_ids v1 us = UOk (js, v2) ->
  file_id v2 u2 = UOk (i, v2).
Proof.
  intros v u1 u2 p1 p2 i v1 us js v2 H1 H2 He Hf Hs.
  pose proof (file_id_result _ _ _ _ _ H1 Hf) as L1.
  pose proof (file_ids_preserve _ _ _ _ _ _ Hs L1) as L1'.
  apply (file_id_of_lookup _ _ p2); [exact H2|]. rewrite <- (lookup_eqv _ _ _ He). exact L1'.
Qed.

Lemma file_id_total : forall v u p, uri_to_file_path u = UOk (Some p) -> exists i v1, file_id v u = UOk (i, v1).
Proof.
  intros v u p H. unfold file_id. rewrite H. destruct (lookup p (v_map v)); eexists; eexists; reflexivity.
Qed.

Lemma encodings_same_file : forall v p u1 u2,
  normalized_abs p = true -> scalar_text p = true -> uri_encodes p u1 -> uri_encodes p u2 ->
  exists i v1, file_id v u1 = UOk (i, v1) /\ file_id v1 u2 = UOk (i, v1) /\
               get_file_id v1 u1 = UOk (Some i) /\ get_file_id v1 u2 = UOk (Some i).
Proof.
  intros v p u1 u2 Hn Hs E1 E2.
  pose proof (any_encoding_decodes p u1 Hn Hs E1) as D1.
  pose proof (any_encoding_decodes p u2 Hn Hs E2) as D2.
  destruct (file_id_total v u1 p D1) as [i [v1 F]]. exists i, v1. split; [exact F|].
  exact (same_decoding_same_file v u1 u2 p p i v1 D1 D2 (path_eqb_refl p) F).
Qed.

Lemma roundtrip_example :
  let p := [47; 97; 32; 98; 47; 49; 48; 48; 37; 47; 120; 35; 121; 63; 122; 47; 37; 52; 49; 47; 67; 124; 47; 233; 128512] in
  normalized_abs p = true /\ scalar_text p = true /\
  file_path_to_uri p =
    UOk (Some [102; 105; 108; 101; 58; 47; 47; 47; 97; 37; 50; 48; 98; 47; 49; 48; 48; 37; 50; 53; 47; 120; 37; 50; 51; 121;
               37; 51; 70; 122; 47; 37; 50; 53; 52; 49; 47; 67; 124; 47;
               37; 67; 51; 37; 65; 57; 37; 70; 48; 37; 57; 70; 37; 57; 56; 37; 56; 48]) /\
  uri_to_file_path [102; 105; 108; 101; 58; 47; 47; 47; 97; 37; 50; 48; 98; 47; 49; 48; 48; 37; 50; 53; 47; 120; 37; 50; 51; 121;
               37; 51; 70; 122; 47; 37; 50; 53; 52; 49; 47; 67; 124; 47;
               37; 67; 51; 37; 65; 57; 37; 70; 48; 37; 57; 70; 37; 57; 56; 37; 56; 48] = UOk (Some p).
Proof. vm_compute. repeat split; reflexivity. Qed.

Lemma encodings_example :
  let p := [47; 97; 32; 98; 47; 233] in
  let u1 := [102; 105; 108; 101; 58; 47; 47; 47; 97; 37; 50; 48; 98; 47; 37; 99; 51; 37; 65; 57] in
  let u2 := [102; 105; 108; 101; 58; 47; 47; 47; 37; 54; 49; 37; 50; 48; 37; 54; 50; 47; 233] in
  let u3 := [102; 105; 108; 101; 58; 47; 47; 47; 97; 37; 50; 48; 98; 47; 101] in
  normalized_abs p = true /\ scalar_text p = true /\ uri_encodes p u1 /\ uri_encodes p u2 /\
  file_ids vfs_new [u1; u2; u3; u1] = UOk ([0; 0; 1; 0], {| v_map := [([47; 97; 32; 98; 47; 101], 1); (p, 0)]; v_len := 2 |}).
Proof.
  intros p u1 u2 u3.
  assert (E : comps_of p = [[97; 32; 98]; [233]]) by reflexivity.
  assert (B1 : utf8_encode [97; 32; 98] = [97; 32; 98]) by reflexivity.
  assert (B2 : utf8_encode [233] = [195; 169]) by reflexivity.
  split; [reflexivity|]. split; [reflexivity|]. split; [|split].
  - exists [[97; 37; 50; 48; 98]; [37; 99; 51; 37; 65; 57]]. split; [|reflexivity]. rewrite E.
    constructor; [rewrite B1; repeat constructor|]. constructor; [rewrite B2; repeat constructor|]. constructor.
  - exists [[37; 54; 49; 37; 50; 48; 37; 54; 50]; [233]]. split; [|reflexivity]. rewrite E.
    constructor; [rewrite B1; repeat constructor|]. constructor; [|constructor].
    refine (enc_uni _ _ 233 [] [] _ _ _ _); [reflexivity|discriminate|reflexivity|apply enc_nil].
  - vm_compute. reflexivity.
Qed.
