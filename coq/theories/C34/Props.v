(** Vocabulary (C34/Spec.v): [normalized_abs p] — "/" or "/c1/…/cn", every component non-empty and
    different from "." and ".."; [scalar_text p] — every char is a Unicode scalar value (any of them:
    space, %, #, ?, controls, non-ASCII, astral); [uri_encodes p u] — [u] is "file://" followed for
    each component by "/" and ANY encoding of its UTF-8 bytes (each byte escaped with hex digits of
    either case, or left literal when that is unambiguous; non-ASCII characters literal or escaped).
    The functions are the model of C34/Model.v (Unix; Windows drive/UNC code is cfg(windows)). *)
From EV Require Import Base.Utf8Facts C34.Model C34.Spec C34.Proofs.
Local Open Scope N_scope.

(** Converting any normalised absolute path to a file URI and back yields the same path. *)
Theorem path_uri_roundtrip : forall p : text,
  normalized_abs p = true -> scalar_text p = true ->
  exists u, file_path_to_uri p = UOk (Some u) /\ uri_to_file_path u = UOk (Some p).
Proof. exact Proofs.path_uri_roundtrip. Qed.

(** However the URI of a path is percent-encoded, it is converted to that path. *)
Theorem any_encoding_decodes : forall p u : text,
  normalized_abs p = true -> scalar_text p = true -> uri_encodes p u ->
  uri_to_file_path u = UOk (Some p).
Proof. exact Proofs.any_encoding_decodes. Qed.

(** Two URIs for the same path, however they are percent-encoded, get the same FileId from
    [Vfs::file_id] in any Vfs state, and [Vfs::get_file_id] finds it through either of them. *)
Theorem encodings_same_file : forall (v : vfs) (p u1 u2 : text),
  normalized_abs p = true -> scalar_text p = true -> uri_encodes p u1 -> uri_encodes p u2 ->
  exists i v1, file_id v u1 = UOk (i, v1) /\ file_id v1 u2 = UOk (i, v1) /\
               get_file_id v1 u1 = UOk (Some i) /\ get_file_id v1 u2 = UOk (Some i).
Proof. exact Proofs.encodings_same_file. Qed.

(** More generally: any two URI strings whose decoded paths are equal as [PathBuf]s identify the
    same file (this includes un-normalised spellings such as doubled or trailing slashes). *)
Theorem same_decoding_same_file : forall (v : vfs) (u1 u2 p1 p2 : text) (i : N) (v1 : vfs),
  uri_to_file_path u1 = UOk (Some p1) -> uri_to_file_path u2 = UOk (Some p2) -> path_eqb p1 p2 = true ->
  file_id v u1 = UOk (i, v1) ->
  file_id v1 u2 = UOk (i, v1) /\ get_file_id v1 u1 = UOk (Some i) /\ get_file_id v1 u2 = UOk (Some i).
Proof. exact Proofs.same_decoding_same_file. Qed.

(** … and keep doing so after any sequence of further [file_id] / [set_file_content] calls. *)
Theorem file_id_stable : forall (v : vfs) (u1 u2 p1 p2 : text) (i : N) (v1 : vfs) (us : list text) (js : list N) (v2 : vfs),
  uri_to_file_path u1 = UOk (Some p1) -> uri_to_file_path u2 = UOk (Some p2) -> path_eqb p1 p2 = true ->
  file_id v u1 = UOk (i, v1) -> file_ids v1 us = UOk (js, v2) ->
  file_id v2 u2 = UOk (i, v2).
Proof. exact Proofs.file_id_stable. Qed.

(** the two codec facts everything rests on: UTF-8 decoding inverts encoding on scalar values … *)
Theorem utf8_roundtrip : forall t : text, scalar_text t = true -> utf8_decode (utf8_encode t) = Some t.
Proof. exact Utf8Facts.utf8_decode_encode. Qed.

(** … and percent-decoding inverts percent-encoding for every escape set that contains [%]. *)
Theorem percent_roundtrip : forall (set : list N) (bs : list byte),
  inb PERCENT set = true -> Forall (fun b => b < 256) bs -> pct_decode (pct_encode set bs) = bs.
Proof. exact Proofs.percent_roundtrip. Qed.

(** non-vacuity: "/a b/100%/x#y?z/%41/C|/é😀" is normalised, scalar, and round-trips through
    "file:///a%20b/100%25/x%23y%3Fz/%2541/C|/%C3%A9%F0%9F%98%80" *)
Example roundtrip_example :
  let p := [47; 97; 32; 98; 47; 49; 48; 48; 37; 47; 120; 35; 121; 63; 122; 47; 37; 52; 49; 47; 67; 124; 47; 233; 128512] in
  normalized_abs p = true /\ scalar_text p = true /\
  file_path_to_uri p =
    UOk (Some [102; 105; 108; 101; 58; 47; 47; 47; 97; 37; 50; 48; 98; 47; 49; 48; 48; 37; 50; 53; 47; 120; 37; 50; 51; 121;
               37; 51; 70; 122; 47; 37; 50; 53; 52; 49; 47; 67; 124; 47;
               37; 67; 51; 37; 65; 57; 37; 70; 48; 37; 57; 70; 37; 57; 56; 37; 56; 48]) /\
  uri_to_file_path [102; 105; 108; 101; 58; 47; 47; 47; 97; 37; 50; 48; 98; 47; 49; 48; 48; 37; 50; 53; 47; 120; 37; 50; 51; 121;
               37; 51; 70; 122; 47; 37; 50; 53; 52; 49; 47; 67; 124; 47;
               37; 67; 51; 37; 65; 57; 37; 70; 48; 37; 57; 70; 37; 57; 56; 37; 56; 48] = UOk (Some p).
Proof. exact Proofs.roundtrip_example. Qed.

(** non-vacuity of [uri_encodes]: for the path "/a b/é" both "file:///a%20b/%c3%A9" (lower/upper-case
    hex) and "file:///%61%20%62/é" (over-escaped letters, literal non-ASCII) are encodings, and they
    get the same id in a fresh Vfs while "/a b/e" gets another one *)
Example encodings_example :
  let p := [47; 97; 32; 98; 47; 233] in
  let u1 := [102; 105; 108; 101; 58; 47; 47; 47; 97; 37; 50; 48; 98; 47; 37; 99; 51; 37; 65; 57] in
  let u2 := [102; 105; 108; 101; 58; 47; 47; 47; 37; 54; 49; 37; 50; 48; 37; 54; 50; 47; 233] in
  let u3 := [102; 105; 108; 101; 58; 47; 47; 47; 97; 37; 50; 48; 98; 47; 101] in
  normalized_abs p = true /\ scalar_text p = true /\ uri_encodes p u1 /\ uri_encodes p u2 /\
  file_ids vfs_new [u1; u2; u3; u1] = UOk ([0; 0; 1; 0], {| v_map := [([47; 97; 32; 98; 47; 101], 1); (p, 0)]; v_len := 2 |}).
Proof. exact Proofs.encodings_example. Qed.
