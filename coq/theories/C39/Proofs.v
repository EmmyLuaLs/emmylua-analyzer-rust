(** C39/Proofs.v — the one-pass checkers decide safety at every crash point; a run of the temp-file protocol
    leaves the target alone up to the rename of a complete, synced temp file, hence is safe; truncate-and-write
    is not. *)
From EV Require Import C39.Model.
From Coq Require Import Arith Lia.
Local Open Scope N_scope.

Lemma run_app : forall a b s, run (a ++ b) s = run b (run a s).
Proof. intros. unfold run. apply fold_left_app. Qed.

Lemma run_cons : forall o r s, run (o :: r) s = run r (step s o).
Proof. reflexivity. Qed.

Lemma run_nil : forall s, run [] s = s.
Proof. reflexivity. Qed.

Lemma upd_same : forall A (m : fmap A) p v, upd m p v p = v.
Proof. intros. unfold upd. rewrite N.eqb_refl. reflexivity. Qed.

Lemma upd_other : forall A (m : fmap A) p q v, q <> p -> upd m p v q = m q.
Proof. intros A m p q v H. unfold upd. apply N.eqb_neq in H. rewrite H. reflexivity. Qed.

Lemma data_eqb_eq : forall a b, data_eqb a b = true <-> a = b.
Proof.
  induction a as [|x a IH]; destruct b as [|y b]; cbn [data_eqb]; split; intros H;
    try reflexivity; try discriminate.
  - apply andb_true_iff in H. destruct H as [H1 H2]. apply N.eqb_eq in H1. apply IH in H2.
    subst. reflexivity.
  - inversion H; subst. apply andb_true_iff. split; [apply N.eqb_refl|]. apply IH. reflexivity.
Qed.

Lemma is_b_spec : forall c x, is_b c x = true <-> c = Some x.
Proof.
  intros [d|] x; cbn [is_b]; split; intros H; try discriminate.
  - apply data_eqb_eq in H. subst. reflexivity.
  - inversion H; subst. apply data_eqb_eq. reflexivity.
Qed.

Lemma kill_okb_spec : forall old new s, kill_okb old new s = true <-> kill_ok old new s.
Proof.
  intros. unfold kill_okb, kill_ok. rewrite orb_true_iff, !is_b_spec. reflexivity.
Qed.

Lemma power_okb_spec : forall old new s, power_okb old new s = true <-> power_ok old new s.
Proof.
  intros. unfold power_okb, power_ok. rewrite orb_true_iff, !is_b_spec. reflexivity.
Qed.

Lemma all_states_iff : forall okb (ok : st -> Prop), (forall s, okb s = true <-> ok s) ->
  forall tr s, all_states okb s tr = true <-> forall k, ok (run (firstn k tr) s).
Proof.
  intros okb ok Hok. induction tr as [|o r IH]; intros s; cbn [all_states]; rewrite andb_true_iff, Hok.
  - split; [intros [H _] [|k]; exact H|intros H; split; [exact (H 0%nat)|reflexivity]].
  - rewrite IH. split.
    + intros [H1 H2] [|k]; [exact H1|apply H2].
    + intros H. split; [exact (H 0%nat)|intros k; exact (H (S k))].
Qed.

Lemma protocol_safe_iff : forall old new tr, protocol_safe old new tr = true <-> crash_safe old new tr.
Proof. intros old new tr. apply all_states_iff, kill_okb_spec. Qed.

Lemma protocol_power_safe_iff : forall old new tr, protocol_power_safe old new tr = true <-> power_safe old new tr.
Proof. intros old new tr. apply all_states_iff, power_okb_spec. Qed.

Lemma protocol_safe_sound : forall old new tr,
  protocol_safe old new tr = true -> crash_safe old new tr.
Proof. intros old new tr. apply protocol_safe_iff. Qed.

Lemma protocol_safe_complete : forall old new tr,
  crash_safe old new tr -> protocol_safe old new tr = true.
Proof. intros old new tr. apply protocol_safe_iff. Qed.

Lemma protocol_power_safe_sound : forall old new tr,
  protocol_power_safe old new tr = true -> power_safe old new tr.
Proof. intros old new tr. apply protocol_power_safe_iff. Qed.

Definition touches_target (o : op) : bool :=
  match o with
  | OOpenTrunc p | OCreate p | OWrite p _ | OPwrite p _ _ | OTruncate p _ | OFsync p | OUnlink p => TARGET =? p
  | ORename a b => (TARGET =? a) || (TARGET =? b)
  | _ => false
  end.

Definition untouched (tr : list op) : Prop := Forall (fun o => touches_target o = false) tr.

Lemma step_untouched : forall s o, touches_target o = false ->
  vol (step s o) TARGET = vol s TARGET /\ dur (step s o) TARGET = dur s TARGET.
Proof.
  intros s o H. destruct o; cbn [touches_target] in H; cbn [step vol dur]; unfold upd;
    try (rewrite H; split; reflexivity); try (split; reflexivity).
  apply orb_false_iff in H. destruct H as [Ha Hb]. rewrite Ha, Hb. split; reflexivity.
Qed.

Lemma run_untouched : forall tr s, untouched tr ->
  vol (run tr s) TARGET = vol s TARGET /\ dur (run tr s) TARGET = dur s TARGET.
Proof.
  induction tr as [|o r IH]; intros s H; [split; reflexivity|].
  inversion H as [|? ? Ho Hr]; subst. rewrite run_cons.
  destruct (IH (step s o) Hr) as [E1 E2]. destruct (step_untouched s o Ho) as [F1 F2].
  rewrite E1, E2, F1, F2. split; reflexivity.
Qed.

Lemma untouched_firstn : forall k tr, untouched tr -> untouched (firstn k tr).
Proof. intros k tr H. unfold untouched in *. rewrite <- (firstn_skipn k tr) in H. apply Forall_app in H. apply H. Qed.

Lemma init_vol : forall old, vol (init old) TARGET = Some old.
Proof. intros. cbn [init vol]. apply upd_same. Qed.

Lemma init_dur : forall old, dur (init old) TARGET = Some old.
Proof. intros. cbn [init dur]. apply upd_same. Qed.

Lemma untouched_ok : forall old new tr, untouched tr ->
  kill_ok old new (run tr (init old)) /\ power_ok old new (run tr (init old)).
Proof.
  intros old new tr H. destruct (run_untouched tr (init old) H) as [E1 E2].
  split; left; [rewrite E1; apply init_vol|rewrite E2; apply init_dur].
Qed.

(** a run that leaves the target alone and then renames a complete, synced temp file over it *)
Lemma shape_safe : forall old new tmp pre k,
  tmp <> TARGET -> untouched pre ->
  vol (run pre (init old)) tmp = Some new -> dur (run pre (init old)) tmp = Some new ->
  kill_ok old new (run (firstn k (pre ++ [ORename tmp TARGET])) (init old)) /\
  power_ok old new (run (firstn k (pre ++ [ORename tmp TARGET])) (init old)).
Proof.
  intros old new tmp pre k Hne Hu Hv Hd.
  assert (Hcase : firstn k (pre ++ [ORename tmp TARGET]) = firstn k pre \/
                  firstn k (pre ++ [ORename tmp TARGET]) = pre ++ [ORename tmp TARGET]).
  { rewrite firstn_app. destruct (k - length pre)%nat as [|j] eqn:E.
    - left. cbn [firstn]. apply app_nil_r.
    - right. rewrite firstn_all2 by lia. cbn [firstn]. rewrite firstn_nil. reflexivity. }
  assert (Hne' : TARGET <> tmp) by congruence.
  destruct Hcase as [E|E]; rewrite E.
  - apply untouched_ok, untouched_firstn, Hu.
  - rewrite run_app, run_cons, run_nil.
    split; right; cbn [step vol dur]; rewrite upd_other, upd_same by exact Hne'; assumption.
Qed.

Lemma write_at_append : forall c d, write_at c (length c) d = c ++ d.
Proof.
  intros c d. unfold write_at. rewrite firstn_all, Nat.sub_diag. cbn [repeat app].
  rewrite skipn_all2 by lia. rewrite app_nil_r. reflexivity.
Qed.

Lemma notarget : forall p, p <> TARGET -> (TARGET =? p) = false.
Proof. intros p H. apply N.eqb_neq. congruence. Qed.

Lemma step_write_append : forall s p c d,
  vol s p = Some c -> off s p = length c ->
  vol (step s (OWrite p d)) p = Some (c ++ d) /\ off (step s (OWrite p d)) p = length (c ++ d).
Proof.
  intros s p c d Hv Ho. cbn [step vol off]. rewrite !upd_same. unfold content. rewrite Hv, Ho.
  rewrite write_at_append, app_length. split; reflexivity.
Qed.

(** the calls of [write_all] on another file leave the target alone; when it succeeds in append
    position the file holds exactly the old content followed by the buffer *)
Lemma write_all_spec : forall fuel p buf fs ws ok fs',
  p <> TARGET -> write_all fuel p buf fs = (ws, ok, fs') ->
  untouched ws /\
  (ok = true -> forall s c, vol s p = Some c -> off s p = length c ->
     vol (run ws s) p = Some (c ++ buf) /\ off (run ws s) p = length (c ++ buf)).
Proof.
  assert (Hnil : forall p s c, vol s p = Some c -> off s p = length c ->
            vol (run [] s) p = Some (c ++ []) /\ off (run [] s) p = length (c ++ [])).
  { intros p s c Hv Ho. rewrite run_nil, app_nil_r. split; assumption. }
  induction fuel as [|fuel IH]; intros p buf fs ws ok fs' Hp H; pose proof (notarget p Hp) as Hnt;
    destruct buf as [|b bs]; cbn [write_all] in H.
  - (* no fuel, empty buffer *) inversion H; subst. split; [constructor|intros _; apply Hnil].
  - (* no fuel, bytes left: reported as failure *) inversion H; subst. split; [constructor|discriminate].
  - (* empty buffer *) inversion H; subst. split; [constructor|intros _; apply Hnil].
  - destruct (next fs) as [[|n| |] fs1].
    + (* Ok: one write takes the whole buffer *)
      inversion H; subst. split; [repeat constructor; exact Hnt|].
      intros _ s c Hv Ho. rewrite run_cons, run_nil. apply step_write_append; assumption.
    + (* Short n: zero bytes is the error WriteZero, otherwise go on with the rest of the buffer *)
      cbv zeta in H. destruct (Nat.min n (length (b :: bs))) as [|k] eqn:Ek.
      { inversion H; subst. split; [repeat constructor; exact Hnt|discriminate]. }
      destruct (write_all fuel p (skipn (S k) (b :: bs)) fs1) as [[ops ok1] fs2] eqn:Er.
      inversion H; subst. destruct (IH _ _ _ _ _ _ Hp Er) as [IU IC].
      split; [constructor; [exact Hnt|exact IU]|]. intros Hok s c Hv Ho. rewrite run_cons.
      destruct (step_write_append s p c (firstn (S k) (b :: bs)) Hv Ho) as [Hv1 Ho1].
      destruct (IC Hok _ _ Hv1 Ho1) as [Hv2 Ho2].
      rewrite <- app_assoc, firstn_skipn in Hv2, Ho2. split; assumption.
    + (* Err *) inversion H; subst. split; [repeat constructor|discriminate].
    + (* Intr: the call is repeated with the same buffer *)
      destruct (write_all fuel p (b :: bs) fs1) as [[ops ok1] fs2] eqn:Er.
      inversion H; subst. destruct (IH _ _ _ _ _ _ Hp Er) as [IU IC].
      split; [constructor; [reflexivity|exact IU]|]. intros Hok s c Hv Ho. rewrite run_cons. exact (IC Hok _ _ Hv Ho).
Qed.

Lemma run_write_tmp : forall old tmp new fuel fs ws fs',
  tmp <> TARGET -> write_all fuel tmp new fs = (ws, true, fs') ->
  vol (run (OCreate tmp :: OChmod tmp :: ws) (init old)) tmp = Some new.
Proof.
  intros old tmp new fuel fs ws fs' Hne Ew. rewrite !run_cons.
  set (s1 := step (step (init old) (OCreate tmp)) (OChmod tmp)).
  assert (Hv1 : vol s1 tmp = Some []) by (subst s1; cbn [step vol]; apply upd_same).
  assert (Ho1 : off s1 tmp = length (@nil byte)) by (subst s1; cbn [step off]; apply upd_same).
  exact (proj1 (proj2 (write_all_spec _ _ _ _ _ _ _ Hne Ew) eq_refl s1 [] Hv1 Ho1)).
Qed.

(** every run of the protocol either never touches the target, or is such a run followed by the
    rename of a temp file that holds, visibly and durably, exactly the new content *)
Lemma tmp_rename_shape : forall tmp new fs, tmp <> TARGET ->
  untouched (tmp_rename tmp new fs) \/
  exists pre, tmp_rename tmp new fs = pre ++ [ORename tmp TARGET] /\ untouched pre /\
              forall old, vol (run pre (init old)) tmp = Some new /\ dur (run pre (init old)) tmp = Some new.
Proof.
  intros tmp new fs Hne. pose proof (notarget tmp Hne) as Hnt.
  (* the calls on the temp file around those of [write_all] leave the target alone *)
  assert (Hu : forall ws tl, untouched ws -> untouched tl -> untouched (OCreate tmp :: OChmod tmp :: ws ++ tl)).
  { intros ws tl Hws Htl. constructor; [exact Hnt|]. constructor; [reflexivity|]. apply Forall_app. split; assumption. }
  unfold tmp_rename. destruct (failed fs); [left; constructor|].
  unfold tr_chmod. destruct (failed (rest fs)); [left; repeat constructor; exact Hnt|].
  unfold tr_write.
  destruct (write_all (length new + length (rest (rest fs))) tmp new (rest (rest fs))) as [[ws ok] fs2] eqn:Ew.
  pose proof (proj1 (write_all_spec _ _ _ _ _ _ _ Hne Ew)) as Hws.
  destruct ok; [|left; apply Hu; [exact Hws|repeat constructor; exact Hnt]].
  unfold tr_sync. destruct (failed fs2); [left; apply Hu; [exact Hws|repeat constructor; exact Hnt]|].
  unfold tr_finish. destruct (failed (rest fs2)); [left; apply Hu; [exact Hws|repeat constructor; exact Hnt]|].
  right. exists (OCreate tmp :: OChmod tmp :: ws ++ [OFsync tmp; OClose tmp]).
  split; [|split].
  - cbn [app]. rewrite <- app_assoc. reflexivity.
  - apply Hu; [exact Hws|repeat constructor; exact Hnt].
  - intros old. pose proof (run_write_tmp old tmp new _ _ _ _ Hne Ew) as Hv.
    change (OCreate tmp :: OChmod tmp :: ws ++ [OFsync tmp; OClose tmp])
      with ((OCreate tmp :: OChmod tmp :: ws) ++ [OFsync tmp; OClose tmp]).
    rewrite run_app, !run_cons, run_nil. cbn [step vol dur]. rewrite upd_same. split; exact Hv.
Qed.

Lemma tmp_rename_safe : forall old new tmp fs k,
  tmp <> TARGET ->
  kill_ok old new (run (firstn k (tmp_rename tmp new fs)) (init old)) /\
  power_ok old new (run (firstn k (tmp_rename tmp new fs)) (init old)).
Proof.
  intros old new tmp fs k Hne.
  destruct (tmp_rename_shape tmp new fs Hne) as [Hu|[pre [E [Hu Hc]]]].
  - apply untouched_ok, untouched_firstn, Hu.
  - rewrite E. destruct (Hc old) as [Hv Hd]. apply shape_safe; assumption.
Qed.

Lemma tmp_rename_passes_checker : forall old new tmp fs,
  tmp <> TARGET ->
  protocol_safe old new (tmp_rename tmp new fs) = true /\
  protocol_power_safe old new (tmp_rename tmp new fs) = true.
Proof.
  intros old new tmp fs Hne. split.
  - apply protocol_safe_iff. intros k. apply (tmp_rename_safe old new tmp fs k Hne).
  - apply protocol_power_safe_iff. intros k. apply (tmp_rename_safe old new tmp fs k Hne).
Qed.

Lemma write_all_no_fault : forall new p extra,
  write_all (length new + extra) p new [] = (match new with [] => [] | _ :: _ => [OWrite p new] end, true, []).
Proof. intros [|b bs] p extra; [destruct extra|]; reflexivity. Qed.

Lemma tmp_rename_completes : forall old new tmp,
  tmp <> TARGET -> vol (run (tmp_rename tmp new []) (init old)) TARGET = Some new.
Proof.
  intros old new tmp Hne.
  unfold tmp_rename, tr_chmod, tr_write. cbn [failed rest next fst snd].
  pose proof (write_all_no_fault new tmp (length (@nil outcome))) as Ew. rewrite Ew.
  unfold tr_sync, tr_finish. cbn [failed rest next fst snd].
  pose proof (run_write_tmp old tmp new _ _ _ _ Hne Ew) as Hv.
  change (OCreate tmp :: OChmod tmp :: ?ws ++ ?tl) with ((OCreate tmp :: OChmod tmp :: ws) ++ tl).
  rewrite run_app, !run_cons, run_nil. cbn [step vol]. rewrite upd_other by congruence. rewrite upd_same. exact Hv.
Qed.

Lemma trunc_write_head : forall new fs,
  failed fs = false -> exists r, trunc_write new fs = OOpenTrunc TARGET :: r.
Proof.
  intros new fs H. unfold trunc_write. rewrite H.
  destruct (write_all (length new + length fs) TARGET new (rest fs)) as [[ws ok] fs']. eexists. reflexivity.
Qed.

Lemma trunc_write_unsafe_all : forall old new fs,
  old <> [] -> new <> [] -> failed fs = false ->
  vol (run (firstn 1%nat (trunc_write new fs)) (init old)) TARGET = Some [] /\
  ~ kill_ok old new (run (firstn 1%nat (trunc_write new fs)) (init old)).
Proof.
  intros old new fs Ho Hn Hf. destruct (trunc_write_head new fs Hf) as [r E]. rewrite E.
  cbn [firstn]. rewrite run_cons, run_nil.
  assert (Hv : vol (step (init old) (OOpenTrunc TARGET)) TARGET = Some []) by (cbn [step vol]; apply upd_same).
  split; [exact Hv|]. intros [H|H]; rewrite Hv in H; inversion H; subst; congruence.
Qed.

Lemma write_all_short_then_err : forall fuel p new n,
  (0 < n < length new)%nat ->
  write_all (S (S fuel)) p new [Short n; Err] = ([OWrite p (firstn n new); OWriteFail p], false, []).
Proof.
  intros fuel p new n Hn. destruct new as [|b bs]; [cbn [length] in Hn; lia|].
  cbn [length] in Hn. cbn [length write_all next]. cbv zeta.
  assert (Em : Nat.min n (S (length bs)) = n) by (apply Nat.min_l; lia). rewrite Em.
  destruct n as [|n']; [lia|].
  destruct (skipn (S n') (b :: bs)) as [|c cs] eqn:E.
  { apply (f_equal (@length _)) in E. rewrite skipn_length in E. cbn [length] in E. lia. }
  reflexivity.
Qed.

(** a size limit / full disk: the kernel accepts [n] bytes, the next write fails, the program closes the
    file and reports the error — the file is left with the first [n] bytes of the new text *)
Lemma trunc_write_fault_truncates : forall old new n,
  (0 < n < length new)%nat ->
  vol (run (trunc_write new [Ok; Short n; Err]) (init old)) TARGET = Some (firstn n new).
Proof.
  intros old new n Hn. unfold trunc_write. cbn [failed rest next fst snd].
  replace (length new + length [Ok; Short n; Err])%nat with (S (S (S (length new)))) by (cbn [length]; lia).
  rewrite (write_all_short_then_err _ TARGET new n Hn). cbn [app].
  rewrite !run_cons, run_nil.
  assert (Hv0 : vol (step (init old) (OOpenTrunc TARGET)) TARGET = Some []) by (cbn [step vol]; apply upd_same).
  assert (Ho0 : off (step (init old) (OOpenTrunc TARGET)) TARGET = length (@nil byte)) by (cbn [step off]; apply upd_same).
  destruct (step_write_append _ TARGET [] (firstn n new) Hv0 Ho0) as [Hv1 _].
  cbn [app] in Hv1. cbn [step vol] in *. exact Hv1.
Qed.

Lemma trunc_write_unsafe_refuted : exists (old new : data) (fs : oracle) (k : nat),
  let s := run (firstn k (trunc_write new fs)) (init old) in
  exists pre, vol s TARGET = Some pre /\ proper_prefix pre new /\ pre <> old /\ pre <> new /\
              ~ kill_ok old new s.
Proof.
  exists [111; 108; 100], [110; 101; 119; 33], [Ok; Short 2], 2%nat. cbv zeta.
  exists [110; 101].
  split; [vm_compute; reflexivity|].
  split; [exists [119; 33]; split; [discriminate|reflexivity]|].
  split; [discriminate|]. split; [discriminate|].
  intros [H|H]; vm_compute in H; discriminate H.
Qed.

Lemma nosync_power_refuted : exists (old new : data) (k : nat),
  ~ power_ok old new (run (firstn k (tmp_rename_nosync 1 new [])) (init old)) /\
  dur (run (firstn k (tmp_rename_nosync 1 new [])) (init old)) TARGET = Some [].
Proof.
  exists [111; 108; 100], [110; 101; 119; 33], 9%nat.
  split; [intros [H|H]; vm_compute in H; discriminate H|vm_compute; reflexivity].
Qed.

Lemma tmp_rename_example :
  let old := [111; 108; 100] in let new := [110; 101; 119; 33] in
  tmp_rename 1 new [Ok; Ok; Short 2; Err] =
    [OCreate 1; OChmod 1; OWrite 1 [110; 101]; OWriteFail 1; OClose 1; OUnlink 1] /\
  protocol_safe old new (tmp_rename 1 new [Ok; Ok; Short 2; Err]) = true /\
  vol (run (tmp_rename 1 new [Ok; Ok; Short 2; Err]) (init old)) 1 = None /\
  protocol_safe old new (trunc_write new [Ok; Short 2; Err]) = false /\
  vol (run (tmp_rename 1 new [Ok; Ok; Short 3; Ok]) (init old)) TARGET = Some new.
Proof. vm_compute. repeat split; reflexivity. Qed.
