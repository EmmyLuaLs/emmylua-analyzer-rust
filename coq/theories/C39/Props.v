From EV Require Import C39.Model C39.Proofs Gen.C39_Writes.
Local Open Scope N_scope.

(** Truncate-then-write ([std::fs::write]): there is a crash point at which the target holds a proper
    prefix of the new text that is neither the old nor the new content. *)
Theorem trunc_write_unsafe_refuted : exists (old new : data) (fs : oracle) (k : nat),
  let s := run (firstn k (trunc_write new fs)) (init old) in
  exists pre, vol s TARGET = Some pre /\ proper_prefix pre new /\ pre <> old /\ pre <> new /\
              ~ kill_ok old new s.
Proof. exact Proofs.trunc_write_unsafe_refuted. Qed.

(** ... and this is no accident of the witness: for ALL non-empty old and new contents and all fault
    sequences in which the open succeeds, the file is empty right after the open. *)
Theorem trunc_write_unsafe_all : forall (old new : data) (fs : oracle),
  old <> [] -> new <> [] -> failed fs = false ->
  vol (run (firstn 1%nat (trunc_write new fs)) (init old)) TARGET = Some [] /\
  ~ kill_ok old new (run (firstn 1%nat (trunc_write new fs)) (init old)).
Proof. exact Proofs.trunc_write_unsafe_all. Qed.

(** Without any crash: a size limit or a full disk after [n] accepted bytes leaves exactly the first [n]
    bytes of the new text in the file. *)
Theorem trunc_write_fault_truncates : forall (old new : data) (n : nat),
  (0 < n < length new)%nat ->
  vol (run (trunc_write new [Ok; Short n; Err]) (init old)) TARGET = Some (firstn n new).
Proof. exact Proofs.trunc_write_fault_truncates. Qed.

(** Write-temp-then-rename: for ALL contents, ALL fault sequences (any call may fail, any write may be
    short) and ALL crash points, the target holds exactly the old or exactly the new content — for a
    killed process (visible content) and for a power loss (durable content). *)
Theorem tmp_rename_safe : forall (old new : data) (tmp : path) (fs : oracle) (k : nat),
  tmp <> TARGET ->
  kill_ok old new (run (firstn k (tmp_rename tmp new fs)) (init old)) /\
  power_ok old new (run (firstn k (tmp_rename tmp new fs)) (init old)).
Proof. exact Proofs.tmp_rename_safe. Qed.

(** ... and when nothing fails the target does receive the new content. *)
Theorem tmp_rename_completes : forall (old new : data) (tmp : path),
  tmp <> TARGET -> vol (run (tmp_rename tmp new []) (init old)) TARGET = Some new.
Proof. exact Proofs.tmp_rename_completes. Qed.

(** The executable checker run on the observed system-call traces is sound (and exact): it accepts a
    trace iff every crash point of that trace leaves the old or the new content. *)
Theorem protocol_safe_sound : forall (old new : data) (tr : list op),
  protocol_safe old new tr = true -> forall k : nat, kill_ok old new (run (firstn k tr) (init old)).
Proof. exact Proofs.protocol_safe_sound. Qed.

Theorem protocol_safe_complete : forall (old new : data) (tr : list op),
  (forall k : nat, kill_ok old new (run (firstn k tr) (init old))) -> protocol_safe old new tr = true.
Proof. exact Proofs.protocol_safe_complete. Qed.

(** The [sync_all] matters for a power loss: without it there is a crash point with an empty target. *)
Theorem nosync_power_refuted : exists (old new : data) (k : nat),
  ~ power_ok old new (run (firstn k (tmp_rename_nosync 1 new [])) (init old)) /\
  dur (run (firstn k (tmp_rename_nosync 1 new [])) (init old)) TARGET = Some [].
Proof. exact Proofs.nosync_power_refuted. Qed.

(** The protocol that today's source uses (Gen/C39_Writes.v, regenerated from /repo on every run) is the
    safe one, with the library calls in the modelled order. *)
Theorem source_protocol_safe : forall (old new : data) (tmp : path) (fs : oracle) (k : nat),
  tmp <> TARGET ->
  kill_ok old new (run (firstn k (program source_protocol tmp new fs)) (init old)) /\
  power_ok old new (run (firstn k (program source_protocol tmp new fs)) (init old)).
Proof. exact Proofs.tmp_rename_safe. Qed.

Theorem source_steps_modelled : source_steps = model_steps source_protocol.
Proof. reflexivity. Qed.

(** non-vacuity: a short write, then a failing write in the temp file: the temp file is removed, the
    target keeps the old content at all 7 crash points; without faults the last state has the new one *)
Example tmp_rename_example :
  let old := [111; 108; 100] in let new := [110; 101; 119; 33] in
  tmp_rename 1 new [Ok; Ok; Short 2; Err] =
    [OCreate 1; OChmod 1; OWrite 1 [110; 101]; OWriteFail 1; OClose 1; OUnlink 1] /\
  protocol_safe old new (tmp_rename 1 new [Ok; Ok; Short 2; Err]) = true /\
  vol (run (tmp_rename 1 new [Ok; Ok; Short 2; Err]) (init old)) 1 = None /\
  protocol_safe old new (trunc_write new [Ok; Short 2; Err]) = false /\
  vol (run (tmp_rename 1 new [Ok; Ok; Short 3; Ok]) (init old)) TARGET = Some new.
Proof. exact Proofs.tmp_rename_example. Qed.
