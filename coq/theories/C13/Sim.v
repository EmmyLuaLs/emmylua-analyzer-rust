(** Stage 2: the declaration walk (B) simulates the environment-passing resolver (A).  [Inv] is the invariant of the
    analyzer state, [Step] what walking one construct does to it, [R] relates the declarations visible from the open
    scopes to the environment of (A); each construct is a piece of text ([simE], [simB]). *)
From EV Require Import C13.Model C13.Facts C13.Tree C13.Vis.
From Coq Require Import String.
Local Open Scope N_scope.

Lemma nlen_pos : forall x, 0 < nlen x.
Proof.
  intros x. unfold nlen.
  assert (H : forall t, 0 < tlen (str "v" ++ t)).
  { intros t. rewrite tlen_app. change (tlen (str "v")) with 1. lia. }
  destruct x as [|p]; [reflexivity|].
  do 3 (destruct p as [p|p|]; try (apply H); try reflexivity).
Qed.

Lemma lookup_ref_app : forall p a b,
  lookup_ref p (a ++ b) = match lookup_ref p a with Some d => Some d | None => lookup_ref p b end.
Proof. intros p a b. unfold lookup_ref. rewrite find_app. destruct (find _ a); reflexivity. Qed.

Lemma Forall_fresh : forall A (f : A -> N) (l : list A) o pend p,
  Forall (fun a => f a < o \/ In (f a) pend) l -> o <= p -> ~ In p pend -> Forall (fun a => f a <> p) l.
Proof.
  intros A f l o pend p H Ho Hp. eapply Forall_impl; [|exact H]. cbv beta. intros a [Ha|Ha] E; [lia|].
  rewrite E in Ha. contradiction.
Qed.

Lemma find_fresh : forall A (f : A -> N) p l, Forall (fun a => f a <> p) l -> find (fun a => f a =? p) l = None.
Proof.
  intros A f p l H. apply find_none_all. eapply Forall_impl; [|exact H]. cbv beta. intros a Ha. apply N.eqb_neq. exact Ha.
Qed.

Lemma lookup_ref_fresh : forall p rs, Forall (fun r => fst r <> p) rs -> lookup_ref p rs = None.
Proof. intros p rs H. unfold lookup_ref. rewrite (find_fresh _ fst p rs H). reflexivity. Qed.

Lemma get_decl_fresh : forall p st, Forall (fun d => d_pos d <> p) (st_decls st) -> get_decl p st = None.
Proof. intros p st H. apply (find_fresh _ d_pos p _ H). Qed.

Definition R (z : list frame) (r : env) : Prop :=
  forall x, classify (find_name x (vis_entry z)) = lookup x r.

Definition closure_node (c : node) : Prop := exists s e cs, c = NScope KClosure s e cs.

Lemma closures_silent : forall cs, Forall closure_node cs -> Forall silent cs.
Proof. intros cs H. eapply Forall_impl; [|exact H]. intros c (s & e & cs' & ->). reflexivity. Qed.

Definition add_children (z : list frame) (cs : list node) : list frame :=
  match z with
  | f :: z' => with_children f (f_children f ++ cs) :: z'
  | [] => []
  end.

Lemma add_children_nil : forall z, add_children z [] = z.
Proof. intros [|[k s e cs] z]; [reflexivity|]. unfold add_children, with_children. cbn. rewrite app_nil_r. reflexivity. Qed.

Lemma add_children_app : forall z a b, add_children (add_children z a) b = add_children z (a ++ b).
Proof.
  intros [|[k s e cs] z] a b; [reflexivity|]. unfold add_children, with_children. cbn. rewrite app_assoc. reflexivity.
Qed.

Definition top_kind (z : list frame) : kind := match z with f :: _ => f_kind f | [] => KNormal end.

Lemma top_kind_add : forall z cs, top_kind (add_children z cs) = top_kind z.
Proof. intros [|f z] cs; reflexivity. Qed.

Lemma top_end_add : forall z cs, top_end (add_children z cs) = top_end z.
Proof. intros [|f z] cs; reflexivity. Qed.

(** [pend]: positions at or after [o] that already carry a declaration or a reference: the plain-name targets of
    the assignment statement being walked (analyze_assign_stat handles them before the targets are walked) *)
Record Inv (st : state) (o : N) (pend : list N) : Prop := mkInv {
  inv_z : zinv (st_z st) o;
  inv_sil : Forall repeat_silent (st_z st);
  inv_decls : Forall (fun d => d_pos d < o \/ In (d_pos d) pend) (st_decls st);
  inv_refs : Forall (fun r => fst r < o \/ In (fst r) pend) (st_refs st)
}.

(** what walking one construct that occupies [o, o') does: closed children [cs] are appended to the innermost
    open scope, declarations and references are appended, and the references of the construct's name uses are
    the resolutions [L] *)
Record Step (st st' : state) (o o' : N) (cs : list node) (L : list (N * resolution)) : Prop := mkStep {
  step_z : st_z st' = add_children (st_z st) cs;
  step_cs : before o' cs;
  step_decls : exists ds, st_decls st' = st_decls st ++ ds /\ Forall (fun d => d_pos d < o') ds;
  step_refs : exists rs, st_refs st' = st_refs st ++ rs /\ Forall (fun r => o <= fst r /\ fst r < o') rs;
  step_res : Forall (fun pr => o <= fst pr /\ fst pr < o' /\ classify (lookup_ref (fst pr) (st_refs st')) = snd pr) L
}.

Lemma Step_refs : forall st st' o o' rs L,
  st_z st' = st_z st -> st_decls st' = st_decls st -> st_refs st' = st_refs st ++ rs ->
  Forall (fun r => o <= fst r /\ fst r < o') rs ->
  Forall (fun pr => o <= fst pr /\ fst pr < o' /\ classify (lookup_ref (fst pr) (st_refs st')) = snd pr) L ->
  Step st st' o o' [] L.
Proof.
  intros st st' o o' rs L Hz Hd Hr Hrs HL. constructor.
  - rewrite add_children_nil. exact Hz.
  - constructor.
  - exists []. rewrite app_nil_r. split; [exact Hd|constructor].
  - exists rs. split; assumption.
  - exact HL.
Qed.

Lemma Step_have_ref : forall st p p' res,
  p < p' -> classify (lookup_ref p (st_refs st)) = res -> Step st st p p' [] [(p, res)].
Proof.
  intros st p p' res Hlt Hres.
  apply (Step_refs st st p p' []); [reflexivity|reflexivity|symmetry; apply app_nil_r|constructor|].
  constructor; [|constructor]. cbn [fst snd]. split; [lia|split; [exact Hlt|exact Hres]].
Qed.

Lemma Step_refl : forall st o o', Step st st o o' [] [].
Proof.
  intros st o o'.
  apply (Step_refs st st o o' []); [reflexivity|reflexivity|symmetry; apply app_nil_r|constructor|constructor].
Qed.

Lemma Step_add_ref : forall st p e p' d res,
  lookup_ref p (st_refs st) = None -> p < p' -> classify (Some d) = res ->
  Step st (add_ref p e d st) p p' [] [(p, res)].
Proof.
  intros st p e p' d res Hn Hlt Hres. unfold add_ref. rewrite Hn.
  apply (Step_refs _ _ p p' [(p, d)]); cbn [st_z st_decls st_refs]; [reflexivity|reflexivity|reflexivity| |].
  - constructor; [cbn [fst]; lia|constructor].
  - constructor; [|constructor]. cbn [fst snd]. split; [lia|split; [exact Hlt|]].
    rewrite lookup_ref_app, Hn. unfold lookup_ref. cbn [find fst snd]. rewrite N.eqb_refl. exact Hres.
Qed.

(** two steps one after the other inside [a, b); the second may work at positions the first has passed as long as
    it leaves the resolutions [L1] alone *)
Lemma Step_seq_gen {st st1 st2 o o1 o1' o2 cs1 cs2 L1 L2} :
  Step st st1 o o1 cs1 L1 -> Step st1 st2 o1' o2 cs2 L2 ->
  forall a b, Forall (fun pr => fst pr < o1') L1 -> a <= o -> a <= o1' -> o1 <= b -> o2 <= b ->
  Step st st2 a b (cs1 ++ cs2) (L1 ++ L2).
Proof.
  intros [Hz1 Hc1 (ds1 & Hd1 & Hdb1) (rs1 & Hr1 & Hrb1) Hres1] [Hz2 Hc2 (ds2 & Hd2 & Hdb2) (rs2 & Hr2 & Hrb2) Hres2]
         a b HL1 Ha Ha' Hb Hb'.
  constructor.
  - rewrite Hz2, Hz1. apply add_children_app.
  - apply before_app; eapply before_mono; eassumption.
  - exists (ds1 ++ ds2). split; [rewrite Hd2, Hd1, app_assoc; reflexivity|].
    apply Forall_app. split; eapply Forall_impl; try eassumption; cbv beta; intros; lia.
  - exists (rs1 ++ rs2). split; [rewrite Hr2, Hr1, app_assoc; reflexivity|].
    apply Forall_app. split; eapply Forall_impl; try eassumption; cbv beta; intros; lia.
  - apply Forall_app. split.
    + eapply Forall_impl; [|exact (Forall_and Hres1 HL1)]. cbv beta. intros pr ((H1 & H2 & H3) & Hlt).
      split; [lia|]. split; [lia|].
      (* the references of the second step lie behind [pr] *)
      rewrite Hr2, lookup_ref_app.
      destruct (lookup_ref (fst pr) (st_refs st1)) eqn:E; [exact H3|].
      rewrite lookup_ref_fresh; [exact H3|].
      eapply Forall_impl; [|exact Hrb2]. cbv beta. intros; lia.
    + eapply Forall_impl; [|exact Hres2]. cbv beta. intros pr (H1 & H2 & H3).
      split; [lia|]. split; [lia|exact H3].
Qed.

Lemma Step_seq {st st1 st2 o o1 o1' o2 cs1 cs2 L1 L2} :
  Step st st1 o o1 cs1 L1 -> Step st1 st2 o1' o2 cs2 L2 ->
  forall a b, o1 <= o1' -> a <= o -> a <= o1' -> o1 <= b -> o2 <= b -> Step st st2 a b (cs1 ++ cs2) (L1 ++ L2).
Proof.
  intros H1 H2 a b Ho1. apply (Step_seq_gen H1 H2).
  eapply Forall_impl; [|exact (step_res _ _ _ _ _ _ H1)]. cbv beta. intros pr (_ & H & _). lia.
Qed.

Lemma spine_ok_same : forall z h h',
  f_kind h = f_kind h' -> f_start h = f_start h' -> f_end h = f_end h' -> spine_ok h z -> spine_ok h' z.
Proof.
  intros [|g z'] h h' Hk Hs He H; [exact I|]. cbn [spine_ok] in *.
  rewrite <- Hk, <- Hs, <- He. exact H.
Qed.

Lemma repeat_first_ok_app : forall cs new,
  repeat_first_ok cs -> (cs = [] -> repeat_first_ok new) -> repeat_first_ok (cs ++ new).
Proof. intros [|c r] new H1 H2; [apply H2; reflexivity|exact H1]. Qed.

Lemma Inv_step {st st' o o' cs L pend} :
  Inv st o pend -> Step st st' o o' cs L -> forall o'', o <= o' -> o' <= o'' ->
  (top_kind (st_z st) = KRepeat -> Forall silent cs /\ repeat_first_ok cs) ->
  Inv st' o'' pend.
Proof.
  intros [Hz Hsil Hd Hr] [Hz' Hc (ds & Hds & Hdb) (rs & Hrs & Hrb) _] o'' H1 H2 Hrep.
  destruct (st_z st) as [|f z] eqn:Ez; [destruct Hz|].
  destruct Hz as (Hb & Hs & Hf & Hrp & Hsp).
  destruct f as [k s e cs0]. unfold add_children, with_children in Hz'.
  cbn [f_kind f_start f_end f_children top_kind] in *.
  constructor.
  - rewrite Hz'. cbn [zinv f_kind f_start f_end f_children].
    split; [|split; [lia|split; [intros E; specialize (Hf E); lia|split]]].
    + unfold frame_before in *. cbn [f_kind f_children] in *.
      destruct (kind_eqb k KLocalOrAssign).
      * apply Forall_app. split; [eapply scopes_before_mono; [exact Hb|lia]|].
        apply before_scopes. eapply before_mono; [exact Hc|lia].
      * apply before_app; eapply before_mono; try eassumption; lia.
    + intros E. apply repeat_first_ok_app; [apply Hrp; exact E|].
      intros _. apply Hrep. exact E.
    + eapply spine_ok_same; [| | |exact Hsp]; reflexivity.
  - rewrite Hz'. inversion Hsil as [|? ? Hsf Hsz]; subst. constructor; [|exact Hsz].
    intros E. unfold repeat_silent in Hsf. cbn [f_kind f_children] in *. apply Forall_app. split; [apply Hsf; exact E|].
    apply Hrep. exact E.
  - rewrite Hds. apply Forall_app. split; eapply Forall_impl; try eassumption; cbv beta.
    + intros a [Ha|Ha]; [left; lia|right; exact Ha].
    + intros; left; lia.
  - rewrite Hrs. apply Forall_app. split; eapply Forall_impl; try eassumption; cbv beta.
    + intros a [Ha|Ha]; [left; lia|right; exact Ha].
    + intros; left; lia.
Qed.

Lemma Inv_mono : forall st o o' pend, Inv st o pend -> o <= o' -> Inv st o' pend.
Proof.
  intros st o o' pend H Hle. apply (Inv_step H (Step_refl st o o)); try lia.
  intros _. split; [constructor|exact I].
Qed.

Lemma closures_repeat_ok : forall cs, Forall closure_node cs -> Forall silent cs /\ repeat_first_ok cs.
Proof.
  intros cs H. split; [apply closures_silent; exact H|].
  destruct H as [|c r (s & e & cs' & ->) _]; [exact I|right; reflexivity].
Qed.

Lemma Inv_drop {st o a pend} : Inv st o (a ++ pend) -> Forall (fun q => q < o) a -> Inv st o pend.
Proof.
  intros [Hz Hs Hd Hr] Ha. rewrite Forall_forall in Ha. constructor; try assumption.
  - eapply Forall_impl; [|exact Hd]. cbv beta. intros d [H|H]; [left; exact H|].
    apply in_app_or in H. destruct H as [H|H]; [left; apply Ha; exact H|right; exact H].
  - eapply Forall_impl; [|exact Hr]. cbv beta. intros d [H|H]; [left; exact H|].
    apply in_app_or in H. destruct H as [H|H]; [left; apply Ha; exact H|right; exact H].
Qed.

Lemma Inv_done : forall st o pend, Inv st o pend -> Forall (fun q => q < o) pend -> Inv st o [].
Proof. intros st o pend H. rewrite <- (app_nil_r pend) in H. exact (Inv_drop H). Qed.

Lemma vis_add_closures : forall f z cs,
  repeat_silent f -> Forall closure_node cs ->
  vis_entry (add_children (f :: z) cs) = vis_entry (f :: z).
Proof.
  intros f z cs Hsil Hcs. cbn [add_children].
  pose proof (closures_silent cs Hcs) as Hs.
  assert (Hadd : f_kind f = KNormal \/ f_kind f = KClosure \/ f_kind f = KFuncStat \/ f_kind f = KMethodStat ->
                 vis_entry (with_children f (f_children f ++ cs) :: z) = vis_entry (f :: z)).
  { intros H. rewrite vis_entry_add by exact H. rewrite (all_contrib_silent cs Hs). reflexivity. }
  destruct (f_kind f) eqn:Ek.
  2: { (* Repeat *) apply vis_entry_add_repeat_silent; [exact Ek|apply Hsil; exact Ek|exact Hs|].
       intros _. destruct cs as [|c r]; [exact I|].
       inversion Hcs as [|? ? (s & e & cs' & ->) _]; subst. reflexivity. }
  2, 3: (* LocalOrAssign, ForRange *) apply vis_entry_add_skip; auto.
  all: apply Hadd; auto.
Qed.

Lemma R_add_closures : forall st st' o o' cs L r pend,
  Inv st o pend -> Step st st' o o' cs L -> Forall closure_node cs -> R (st_z st) r -> R (st_z st') r.
Proof.
  intros st st' o o' cs L r pend [Hz Hsil _ _] [Hz' _ _ _ _] Hcs HR.
  rewrite Hz'. destruct (st_z st) as [|f z]; [destruct Hz|].
  inversion Hsil as [|? ? Hsf _]; subst.
  intros x. rewrite vis_add_closures by assumption. apply HR.
Qed.

Lemma R_same : forall z z' r, R z r -> vis_entry z' = vis_entry z -> R z' r.
Proof. intros z z' r HR Hv x. rewrite Hv. apply HR. Qed.

Lemma vis_push_normal : forall bo be f z,
  repeat_silent f -> f_kind f <> KForRange ->
  vis_entry (mkFrame KNormal bo be [] :: f :: z) = vis_entry (f :: z).
Proof.
  intros bo be f z Hs Hk. cbn [vis_entry f_kind f_children]. rewrite all_contrib_nil. cbn [app].
  rewrite vis_up_push by exact Hs. rewrite (kind_eqb_neq _ _ Hk). reflexivity.
Qed.

Lemma vis_add_normal : forall z cs,
  top_kind z = KNormal -> z <> [] -> vis_entry (add_children z cs) = all_contrib cs ++ vis_entry z.
Proof.
  intros [|f z] cs Hk Hne; [congruence|]. cbn [add_children top_kind] in *. apply vis_entry_add. left. exact Hk.
Qed.

Lemma silent_all : forall cs, Forall silent cs -> all_contrib cs = [].
Proof. exact all_contrib_silent. Qed.

Lemma vis_push_in_block : forall n z,
  top_kind z = KNormal -> vis_up n z = vis_entry z.
Proof.
  intros n [|f z] Hk; [reflexivity|]. cbn [top_kind] in Hk.
  rewrite vis_up_push by (intros E; congruence). rewrite Hk. reflexivity.
Qed.

Lemma R_silent_after : forall z cs r,
  top_kind z = KNormal -> z <> [] -> Forall silent cs -> R z r -> R (add_children z cs) r.
Proof.
  intros z cs r Hk Hne Hs HR. apply (R_same z); [exact HR|].
  rewrite vis_add_normal by assumption. rewrite (all_contrib_silent cs Hs). reflexivity.
Qed.

Lemma contrib_pos : forall c b,
  node_end c <= b -> node_ok c -> Forall (fun d => d_pos d < b) (contrib c).
Proof.
  intros [d|k s e cs] b He Hok; cbn [contrib node_ok node_end] in *.
  - constructor; [lia|constructor].
  - assert (H : Forall (fun d => d_pos d < b) (decls_of cs)).
    { induction Hok as [|c r (Hc1 & Hc2) Hr IH]; [constructor|].
      change (c :: r) with ([c] ++ r). rewrite decls_of_app. apply Forall_app. split; [|exact IH].
      destruct c as [d|]; cbn [decls_of flat_map app]; [|constructor].
      constructor; [cbn [node_pos] in Hc1; lia|constructor]. }
    unfold visit_child_scope. cbn [node_kind node_children].
    destruct k; try constructor; try exact H.
    apply Forall_rev. exact H.
Qed.

Lemma all_contrib_pos1 : forall cs b,
  Forall (fun c => node_end c <= b /\ node_ok c) cs -> Forall (fun d => d_pos d < b) (all_contrib cs).
Proof.
  induction cs as [|c r IH]; intros b H; [constructor|].
  inversion H as [|? ? (H2 & H3) Hr]; subst.
  change (c :: r) with ([c] ++ r). rewrite all_contrib_app, all_contrib_one.
  apply Forall_app. split; [apply IH; exact Hr|apply contrib_pos; assumption].
Qed.

Lemma all_contrib_pos : forall cs b, before b cs -> Forall (fun d => d_pos d < b) (all_contrib cs).
Proof.
  intros cs b H. apply all_contrib_pos1. eapply Forall_impl; [|exact H]. cbv beta.
  intros a (_ & H2 & H3 & _). split; assumption.
Qed.

Lemma body_contrib_pos : forall c b,
  node_end c <= b -> node_ok c -> Forall node_ok (node_children c) ->
  Forall (fun d => d_pos d < b) (body_contrib c).
Proof.
  intros [d|k s e cs] b He Hok Hch; cbn [body_contrib]; [constructor|].
  destruct (kind_eqb k KClosure); [constructor|].
  cbn [node_ok node_end node_children] in *.
  apply all_contrib_pos1.
  induction cs as [|c r IH]; [constructor|].
  inversion Hok as [|? ? (_ & Hc2) Hr]; subst. inversion Hch as [|? ? Hn Hnr]; subst.
  constructor; [|apply IH; assumption].
  split; [lia|exact Hn].
Qed.

(** what an open frame lying before [b] can contribute: its children and, for a Repeat frame, those of its body *)
Lemma frame_contrib_pos : forall g b,
  frame_before b g -> f_kind g <> KLocalOrAssign ->
  Forall (fun d => d_pos d < b) (match f_children g with [] => [] | c :: _ => body_contrib c end) /\
  Forall (fun d => d_pos d < b) (all_contrib (f_children g)).
Proof.
  intros g b Hb Hk. apply frame_before_all in Hb; [|exact Hk].
  split; [|apply all_contrib_pos; exact Hb].
  destruct (f_children g) as [|c r]; [constructor|].
  inversion Hb as [|? ? (H1 & H2 & H3 & H4) _]; subst. apply body_contrib_pos; assumption.
Qed.

Lemma vis_up_pos : forall z h o,
  spine_ok h z -> f_start h <= o -> Forall (fun d => d_pos d < o) (vis_up h z).
Proof.
  induction z as [|g z' IH]; intros h o Hs Ho; [constructor|].
  cbn [spine_ok] in Hs. destruct Hs as (Hb & Hs1 & Hs2 & Hf & Hr & Hs').
  assert (IHg : Forall (fun d => d_pos d < o) (vis_up g z')) by (apply IH; [exact Hs'|lia]).
  pose proof (frame_contrib_pos g o (frame_before_mono _ _ g Hb Ho)) as Hg.
  cbn [vis_up].
  destruct (kind_eqb (f_kind g) KForRange && kind_eqb (f_kind h) KClosure); [exact IHg|].
  destruct (f_kind g); try exact IHg; destruct Hg as (Hg1 & Hg2); try discriminate;
    repeat (apply Forall_app; split); assumption.
Qed.

Lemma vis_entry_pos : forall z o, zinv z o -> Forall (fun d => d_pos d < o) (vis_entry z).
Proof.
  intros [|f z'] o Hz; [constructor|]. destruct Hz as (Hb & Hs & Hf & Hrp & Hsp).
  pose proof (vis_up_pos z' f o Hsp Hs) as Hup.
  pose proof (frame_contrib_pos f o Hb) as Hg. rewrite body_contrib_first in Hg.
  cbn [vis_entry].
  destruct (f_kind f); try exact Hup; destruct Hg as (Hg1 & Hg2); try discriminate.
  2: destruct (get_repeat_body (frame_node f)); [|exact Hup].
  all: repeat (apply Forall_app; split); assumption.
Qed.

Lemma lookup_ref_last : forall p d refs,
  Forall (fun r => fst r <> p) refs -> lookup_ref p (refs ++ [(p, d)]) = Some d.
Proof.
  intros p d refs H. rewrite lookup_ref_app, lookup_ref_fresh by exact H.
  unfold lookup_ref. cbn [find fst snd]. rewrite N.eqb_refl. reflexivity.
Qed.

Lemma find_decl_R {st p r pend} x :
  Inv st p pend -> p < top_end (st_z st) -> R (st_z st) r ->
  classify (find_decl x p st) = lookup x r /\
  (forall d, find_decl x p st = Some d -> d_pos d < p).
Proof.
  intros [Hz _ _ _] Hp HR. unfold find_decl.
  rewrite (find_local_decl_vis (st_z st) x p Hz Hp).
  split; [apply HR|].
  intros d Hd. unfold find_name in Hd. apply find_some in Hd. destruct Hd as (Hin & _).
  pose proof (vis_entry_pos _ _ Hz) as Hall. rewrite Forall_forall in Hall. apply Hall. exact Hin.
Qed.

Lemma sim_name : forall x p st r pend,
  Inv st p pend -> ~ In p pend -> p + nlen x <= top_end (st_z st) -> R (st_z st) r ->
  Step st (analyze_name_expr x p st) p (p + nlen x) [] [(p, lookup x r)].
Proof.
  intros x p st r pend HI Hpend Hend HR. pose proof (nlen_pos x) as Hn.
  destruct (find_decl_R x HI ltac:(lia) HR) as (Hcl & Hpos).
  assert (Hfr : lookup_ref p (st_refs st) = None)
    by (apply lookup_ref_fresh; eapply Forall_fresh; [apply (inv_refs _ _ _ HI)|lia|exact Hpend]).
  unfold analyze_name_expr. cbv zeta.
  rewrite get_decl_fresh by (eapply Forall_fresh; [apply (inv_decls _ _ _ HI)|lia|exact Hpend]).
  destruct (find_decl x p st) as [d|] eqn:E.
  - specialize (Hpos d eq_refl).
    replace (d_pos d =? p) with false by (symmetry; apply N.eqb_neq; lia).
    assert (H : Step st (add_ref p (p + nlen x) d st) p (p + nlen x) [] [(p, lookup x r)])
      by (apply Step_add_ref; [exact Hfr|lia|exact Hcl]).
    destruct (is_local d); exact H.
  - apply Step_have_ref; [lia|]. rewrite Hfr. exact Hcl.
Qed.

Lemma Inv_nonempty {st o pend} : Inv st o pend -> st_z st <> [].
Proof. intros [Hz _ _ _] E. rewrite E in Hz. exact Hz. Qed.

Lemma Inv_create {st o s e k q pend} :
  Inv st o pend -> o <= s -> s <= q -> e <= top_end (st_z st) ->
  (is_func k = true -> s < q) ->
  (top_kind (st_z st) = KRepeat -> k = KNormal \/ k = KClosure) ->
  Inv (create_scope s e k st) q pend.
Proof.
  intros [Hz Hsil Hd Hr] H1 H2 H3 H4 H5.
  destruct (st_z st) as [|f z] eqn:Ez; [destruct Hz|].
  destruct Hz as (Hb & Hs & Hf & Hrp & Hsp).
  unfold create_scope. rewrite Ez. cbn [top_end top_kind] in *.
  constructor; cbn [st_z st_decls st_refs].
  - cbn [zinv f_kind f_start f_end f_children].
    split; [unfold frame_before; cbn [f_kind f_children]; destruct (kind_eqb k KLocalOrAssign); constructor|].
    split; [exact H2|]. split; [exact H4|]. split; [intros _; exact I|].
    cbn [spine_ok f_start f_end f_kind].
    split; [eapply frame_before_mono; [exact Hb|exact H1]|].
    split; [lia|]. split; [exact H3|]. split; [intros E; specialize (Hf E); lia|].
    split; [|exact Hsp].
    intros E. split; [apply H5; exact E|apply Hrp; exact E].
  - constructor; [|exact Hsil]. intros _. constructor.
  - eapply Forall_impl; [|exact Hd]. cbv beta. intros a [Ha|Ha]; [left; lia|right; exact Ha].
  - eapply Forall_impl; [|exact Hr]. cbv beta. intros a [Ha|Ha]; [left; lia|right; exact Ha].
Qed.

Lemma open_scope {st o r pend} len k q :
  Inv st o pend -> top_kind (st_z st) = KNormal -> o + len <= top_end (st_z st) -> R (st_z st) r ->
  o <= q -> (is_func k = true -> o < q) ->
  Inv (create_scope o (o + len) k st) q pend /\ R (st_z (create_scope o (o + len) k st)) r.
Proof.
  intros HI Hk He HR Hq Hf. split.
  - apply (Inv_create HI); [lia|exact Hq|exact He|exact Hf|]. rewrite Hk. discriminate.
  - apply (R_same (st_z st)); [exact HR|]. cbn [create_scope st_z].
    destruct k; cbn; apply vis_push_in_block; assumption.
Qed.

Lemma Step_scope {st0 st2 k s e cs L} s' e' :
  st_z st0 <> [] ->
  Step (create_scope s e k st0) st2 s' e' cs L -> s < e -> s <= s' -> e' <= e ->
  Step st0 (pop_scope st2) s e [NScope k s e cs] L.
Proof.
  intros Hne Hs H1 H2 H3.
  destruct (Step_seq (Step_refl (create_scope s e k st0) s s) Hs s e) as [Hz Hc Hd Hr Hres]; try lia.
  destruct (st_z st0) as [|f0 z] eqn:Ez; [congruence|].
  unfold create_scope in Hz. rewrite Ez in Hz. cbn [st_z add_children with_children f_kind f_start f_end f_children app] in Hz.
  unfold pop_scope. rewrite Hz.
  constructor; cbn [st_z st_decls st_refs]; [rewrite Ez; reflexivity| |exact Hd|exact Hr|exact Hres].
  constructor; [|constructor]. cbn [node_pos node_end node_ok node_children].
  split; [exact H1|]. split; [lia|]. split; (eapply Forall_impl; [|exact Hc]); cbv beta.
  - intros a (Ha & Hb & _). split; assumption.
  - intros a (_ & _ & Ha & _). exact Ha.
Qed.

Lemma Step_add_decl : forall st d o o', d_pos d < o' -> Step st (add_decl d st) o o' [NDecl d] [].
Proof.
  intros st d o o' Hd.
  assert (H : st_z (add_decl d st) = add_children (st_z st) [NDecl d] /\
              st_decls (add_decl d st) = st_decls st ++ [d] /\ st_refs (add_decl d st) = st_refs st)
    by (unfold add_decl; destruct (st_z st); repeat split; reflexivity).
  destruct H as (Hz & Hds & Hrs). constructor.
  - exact Hz.
  - constructor; [|constructor]. cbn [node_pos node_end node_ok node_children]. repeat split; try lia; constructor.
  - exists [d]. split; [exact Hds|]. constructor; [exact Hd|constructor].
  - exists []. rewrite app_nil_r. split; [exact Hrs|constructor].
  - constructor.
Qed.

Fixpoint name_decls (xs : list name) (o : N) : list decl :=
  match xs with
  | [] => []
  | x :: r => mkDecl o x DLocal :: name_decls r (o + nlen x + 2)
  end.

Lemma len_names_cons : forall x r, len_names (x :: r) = nlen x + match r with [] => 0 | _ => 2 + len_names r end.
Proof. reflexivity. Qed.

Lemma name_decls_pos : forall xs o, Forall (fun d => o <= d_pos d /\ d_pos d < o + len_names xs) (name_decls xs o).
Proof.
  induction xs as [|x r IH]; intros o; [constructor|].
  cbn [name_decls]. rewrite len_names_cons. pose proof (nlen_pos x) as Hx.
  constructor; [cbn [d_pos]; destruct r; lia|].
  destruct r as [|y r']; [constructor|].
  eapply Forall_impl; [|apply IH]. cbv beta. intros a (Ha & Hb). split; lia.
Qed.

Lemma Step_add_name_decls : forall xs o st a b,
  o + len_names xs <= b -> a <= b ->
  Step st (add_name_decls xs o st) a b (map NDecl (name_decls xs o)) [].
Proof.
  induction xs as [|x r IH]; intros o st a b Hb Hab; cbn [add_name_decls name_decls map]; [apply Step_refl|].
  rewrite len_names_cons in Hb. pose proof (nlen_pos x) as Hx.
  assert (H1 : Step st (add_decl (mkDecl o x DLocal) st) a b [NDecl (mkDecl o x DLocal)] [])
    by (apply Step_add_decl; cbn [d_pos]; lia).
  destruct r as [|y r'].
  - exact H1.
  - refine (Step_seq_gen H1 (IH _ _ a b _ Hab) a b _ _ _ _ _); [lia|constructor|lia..].
Qed.

Definition env_of (ds : list decl) : env := map (fun d => (d_name d, d_pos d)) ds.

Lemma lookup_app : forall x a b,
  lookup x (a ++ b) = match lookup x a with Some p => Some p | None => lookup x b end.
Proof. intros x a b. unfold lookup, name in *. rewrite find_app. destruct (find _ a); reflexivity. Qed.

Lemma classify_env_of : forall x ds,
  Forall (fun d => d_kind d <> DGlobal) ds -> classify (find_name x ds) = lookup x (env_of ds).
Proof.
  intros x ds H. unfold find_name, lookup, env_of. induction H as [|d t Hd Ht IH]; [reflexivity|].
  cbn [find map fst]. destruct (d_name d =? x); [|exact IH].
  cbn [classify snd]. destruct (d_kind d); try reflexivity. congruence.
Qed.

Lemma R_extend : forall z z' r ds,
  R z r -> Forall (fun d => d_kind d <> DGlobal) ds -> vis_entry z' = ds ++ vis_entry z ->
  R z' (env_of ds ++ r).
Proof.
  intros z z' r ds HR Hds Hv x. rewrite Hv, find_name_app, lookup_app.
  rewrite <- (classify_env_of x ds Hds).
  destruct (find_name x ds) as [d|] eqn:E.
  - assert (Hk : d_kind d <> DGlobal).
    { unfold find_name in E. apply find_some in E. destruct E as (Hin & _).
      rewrite Forall_forall in Hds. apply Hds. exact Hin. }
    cbn [classify]. destruct (d_kind d); try reflexivity. congruence.
  - cbn [classify]. apply HR.
Qed.

(** declarations of globals are visible but resolve to "global" like no declaration at all *)
Lemma R_markers : forall z z' r ms,
  R z r -> Forall (fun d => d_kind d = DGlobal /\ lookup (d_name d) r = None) ms ->
  vis_entry z' = ms ++ vis_entry z -> R z' r.
Proof.
  intros z z' r ms HR Hms Hv x. rewrite Hv, find_name_app.
  destruct (find_name x ms) as [d|] eqn:E; [|apply HR].
  unfold find_name in E. apply find_some in E. destruct E as (Hin & Hx).
  rewrite Forall_forall in Hms. destruct (Hms d Hin) as (Hk & Hl).
  apply N.eqb_eq in Hx. subst x. cbn [classify]. rewrite Hk. symmetry. exact Hl.
Qed.

Lemma bind_names_env : forall xs o r, bind_names xs o r = env_of (rev (name_decls xs o)) ++ r.
Proof.
  induction xs as [|x t IH]; intros o r; [reflexivity|].
  cbn [bind_names name_decls rev]. rewrite IH. unfold env_of. rewrite map_app, <- app_assoc. reflexivity.
Qed.

Lemma name_decls_local : forall xs o, Forall (fun d => d_kind d <> DGlobal) (name_decls xs o).
Proof. induction xs as [|x t IH]; intros o; [constructor|]. cbn [name_decls]. constructor; [cbn; discriminate|apply IH]. Qed.

Lemma all_contrib_decls : forall ds, all_contrib (map NDecl ds) = rev ds.
Proof.
  induction ds as [|d t IH]; [reflexivity|].
  cbn [map]. change (NDecl d :: map NDecl t) with ([NDecl d] ++ map NDecl t).
  rewrite all_contrib_app, all_contrib_one, IH. reflexivity.
Qed.

Lemma decls_of_decls : forall ds, decls_of (map NDecl ds) = ds.
Proof. induction ds as [|d t IH]; [reflexivity|]. cbn [map decls_of flat_map app]. f_equal. exact IH. Qed.

Lemma decls_of_closures : forall cs, Forall closure_node cs -> decls_of cs = [].
Proof.
  induction cs as [|c r IH]; intros H; [reflexivity|]. inversion H as [|? ? (s & e & cs' & ->) Hr]; subst.
  cbn [decls_of flat_map app]. apply IH. exact Hr.
Qed.

Definition pend_out (pend : list N) (o o' : N) : Prop := Forall (fun q => q < o \/ o' <= q) pend.

Lemma pend_out_sub : forall pend o o' a a', pend_out pend o o' -> o <= a -> a' <= o' -> pend_out pend a a'.
Proof. intros pend o o' a a' H H1 H2. eapply Forall_impl; [|exact H]. cbv beta. intros q [Hq|Hq]; [left|right]; lia. Qed.

Lemma pend_out_notin : forall pend o o' p, pend_out pend o o' -> o <= p -> p < o' -> ~ In p pend.
Proof. intros pend o o' p H H1 H2 Hin. unfold pend_out in H. rewrite Forall_forall in H. destruct (H p Hin); lia. Qed.

(** [w] walks a piece of the text that occupies [o, o + len); [L r] is what (A) resolves in it under the
    environment [r]. *)

(** in any frame: the closed children are closures, so the environment behind the piece is still [r] *)
Definition simE (w : state -> state) (o len : N) (L : env -> list (N * resolution)) : Prop :=
  forall st r pend,
  Inv st o pend -> pend_out pend o (o + len) -> o + len <= top_end (st_z st) -> R (st_z st) r ->
  exists cs, Step st (w st) o (o + len) cs (L r) /\ Forall closure_node cs.

(** in a block frame: [after r] is the environment behind the piece *)
Definition simB (w : state -> state) (o len : N) (L : env -> list (N * resolution)) (after : env -> env) : Prop :=
  forall st r pend,
  Inv st o pend -> pend_out pend o (o + len) -> top_kind (st_z st) = KNormal -> o + len <= top_end (st_z st) ->
  R (st_z st) r ->
  exists cs, Step st (w st) o (o + len) cs (L r) /\ R (add_children (st_z st) cs) (after r).

Definition P_expr (e : expr) : Prop := forall o, simE (walk_expr e o) o (len_expr e) (fun r => ref_expr r e o).

Definition P_exprs (es : exprs) : Prop :=
  forall o, simE (walk_exprs es o) o (len_exprs es) (fun r => ref_exprs r es o).

Definition P_stat (s : stat) : Prop :=
  forall o, simB (walk_stat s o) o (len_stat s) (fun r => fst (ref_stat r s o)) (fun r => snd (ref_stat r s o)).

Definition P_elifs (els : elifs) : Prop :=
  forall o, simB (walk_elifs els o) o (len_elifs els) (fun r => ref_elifs r els o) (fun r => r).

Definition P_block (b : block) : Prop :=
  forall o, simB (walk_block b o) o (len_block b) (fun r => fst (ref_block r b o)) (fun r => snd (ref_block r b o)).

(** a piece that left only closures in the innermost scope changes neither the environment nor that scope *)
Lemma chain : forall st st1 o e1 cs1 L1 r pend q,
  Inv st o pend -> Step st st1 o e1 cs1 L1 -> Forall closure_node cs1 -> R (st_z st) r -> o <= e1 -> e1 <= q ->
  Inv st1 q pend /\ R (st_z st1) r /\ top_end (st_z st1) = top_end (st_z st) /\ top_kind (st_z st1) = top_kind (st_z st).
Proof.
  intros st st1 o e1 cs1 L1 r pend q HI Hs Hc HR H1 H2. split; [|split; [|split]].
  - apply (Inv_step HI Hs); [exact H1|exact H2|intros _; apply closures_repeat_ok; exact Hc].
  - eapply R_add_closures; eassumption.
  - rewrite (step_z _ _ _ _ _ _ Hs). apply top_end_add.
  - rewrite (step_z _ _ _ _ _ _ Hs). apply top_kind_add.
Qed.

Lemma simE_nil : forall o len, simE (fun st => st) o len (fun _ => []).
Proof. intros o len st r pend _ _ _ _. exists []. split; [apply Step_refl|constructor]. Qed.

Lemma simE_seq {w1 o1 l1 L1 w2 o2 l2 L2} : simE w1 o1 l1 L1 -> simE w2 o2 l2 L2 ->
  forall o len, o <= o1 -> o1 + l1 <= o2 -> o2 + l2 <= o + len ->
  simE (fun st => w2 (w1 st)) o len (fun r => L1 r ++ L2 r).
Proof.
  intros H1 H2 o len Ho1 Ho2 Hlen st r pend HI Hp He HR.
  assert (HI0 : Inv st o1 pend) by (eapply Inv_mono; eassumption).
  destruct (H1 st r pend HI0) as (cs1 & Hs1 & Hc1); [eapply pend_out_sub; [exact Hp|lia|lia]|lia|exact HR|].
  destruct (chain st _ o1 (o1 + l1) cs1 _ r pend o2 HI0 Hs1 Hc1 HR ltac:(lia) Ho2) as (HI1 & HR1 & Hte & _).
  destruct (H2 _ r pend HI1) as (cs2 & Hs2 & Hc2);
    [eapply pend_out_sub; [exact Hp|lia|lia]|rewrite Hte; lia|exact HR1|].
  exists (cs1 ++ cs2). split; [|apply Forall_app; split; assumption].
  apply (Step_seq Hs1 Hs2); lia.
Qed.

Lemma simE_widen {w o1 l1 L} : simE w o1 l1 L -> forall o len, o <= o1 -> o1 + l1 <= o + len -> simE w o len L.
Proof. intros H o len Ho Hl. apply (simE_seq (simE_nil o 0) H); [lia|lia|exact Hl]. Qed.

Lemma simB_nil : forall o len, simB (fun st => st) o len (fun _ => []) (fun r => r).
Proof.
  intros o len st r pend _ _ _ _ HR. exists []. split; [apply Step_refl|]. rewrite add_children_nil. exact HR.
Qed.

Lemma simB_of_E {w o len L} : simE w o len L -> simB w o len L (fun r => r).
Proof.
  intros H st r pend HI Hp _ He HR. destruct (H st r pend HI Hp He HR) as (cs & Hs & Hc).
  exists cs. split; [exact Hs|]. rewrite <- (step_z _ _ _ _ _ _ Hs). eapply R_add_closures; eassumption.
Qed.

Lemma simB_seq {w1 o1 l1 L1 a1 w2 o2 l2 L2 a2} : simB w1 o1 l1 L1 a1 -> simB w2 o2 l2 L2 a2 ->
  forall o len, o <= o1 -> o1 + l1 <= o2 -> o2 + l2 <= o + len ->
  simB (fun st => w2 (w1 st)) o len (fun r => L1 r ++ L2 (a1 r)) (fun r => a2 (a1 r)).
Proof.
  intros H1 H2 o len Ho1 Ho2 Hlen st r pend HI Hp Hk He HR.
  assert (HI0 : Inv st o1 pend) by (eapply Inv_mono; eassumption).
  destruct (H1 st r pend HI0) as (cs1 & Hs1 & HR1); [eapply pend_out_sub; [exact Hp|lia|lia]|exact Hk|lia|exact HR|].
  pose proof (step_z _ _ _ _ _ _ Hs1) as Hz1.
  assert (HI1 : Inv (w1 st) o2 pend).
  { apply (Inv_step HI0 Hs1); [lia|exact Ho2|]. rewrite Hk. discriminate. }
  destruct (H2 (w1 st) (a1 r) pend HI1) as (cs2 & Hs2 & HR2).
  - eapply pend_out_sub; [exact Hp|lia|lia].
  - rewrite Hz1, top_kind_add. exact Hk.
  - rewrite Hz1, top_end_add. lia.
  - rewrite Hz1. exact HR1.
  - exists (cs1 ++ cs2). split.
    + apply (Step_seq Hs1 Hs2); lia.
    + rewrite <- add_children_app, <- Hz1. exact HR2.
Qed.

Lemma simB_widen {w o1 l1 L a} : simB w o1 l1 L a -> forall o len, o <= o1 -> o1 + l1 <= o + len -> simB w o len L a.
Proof. intros H o len Ho Hl. apply (simB_seq (simB_nil o 0) H); [lia|lia|exact Hl]. Qed.

(** the body [b] whose opening token ends at [bo]; its block scope, when it has one, has the children [cs_b] *)
Lemma sim_body : forall b, P_block b -> forall bo st r_in pend,
  Inv st bo pend -> pend_out pend bo (bo + 1 + len_block b) ->
  bo + 1 + len_block b <= top_end (st_z st) ->
  R (mkFrame KNormal bo (bo + 1 + len_block b) [] :: st_z st) r_in ->
  exists cs_b,
    Step st (walk_body (walk_block b) (len_block b) (has_items b) bo st) bo (bo + 1 + len_block b)
         (if has_items b then [NScope KNormal bo (bo + 1 + len_block b) cs_b] else [])
         (fst (ref_block r_in b (bo + 1)))
    /\ R (mkFrame KNormal bo (bo + 1 + len_block b) cs_b :: st_z st) (snd (ref_block r_in b (bo + 1))).
Proof.
  intros b IHb bo st r_in pend HI Hpend Hend HR. unfold walk_body.
  destruct (has_items b) eqn:Eh.
  - set (be := bo + 1 + len_block b) in *.
    assert (HI1 : Inv (create_scope bo be KNormal st) (bo + 1) pend).
    { apply (Inv_create HI);
        [lia|lia|exact Hend|cbn; discriminate|intros _; left; reflexivity]. }
    destruct (IHb (bo + 1) (create_scope bo be KNormal st) r_in pend HI1) as (cs_b & Hstep & HR').
    + eapply pend_out_sub; [exact Hpend|lia|unfold be; lia].
    + reflexivity.
    + cbn [create_scope st_z top_end f_end]. unfold be. lia.
    + exact HR.
    + exists cs_b. split; [|exact HR'].
      apply (Step_scope (bo + 1) (bo + 1 + len_block b));
        [exact (Inv_nonempty HI)|exact Hstep|unfold be; lia|lia|unfold be; lia].
  - destruct b; try discriminate. exists []. split; [apply Step_refl|exact HR].
Qed.

(** a body in a block frame with the environment of the block: its scope node is invisible from the block *)
Lemma sim_body_plain : forall b, P_block b -> forall bo,
  simB (walk_body (walk_block b) (len_block b) (has_items b) bo) bo (1 + len_block b)
       (fun r => fst (ref_block r b (bo + 1))) (fun r => r).
Proof.
  intros b IHb bo st r pend HI Hp Hk He HR. pose proof (Inv_nonempty HI) as Hne.
  rewrite N.add_assoc in *.
  destruct (sim_body b IHb bo st r pend HI Hp He) as (cs_b & Hs & _).
  - apply (R_same (st_z st)); [exact HR|]. cbn [vis_entry f_kind f_children]. rewrite all_contrib_nil. cbn [app].
    apply vis_push_in_block; assumption.
  - eexists. split; [exact Hs|]. apply R_silent_after; [exact Hk|exact Hne| |exact HR].
    destruct (has_items b); repeat constructor.
Qed.

Definition self_env (self : option N) (r : env) : env :=
  match self with Some c => (self_name, c) :: r | None => r end.
Definition self_decls (self : option N) : list decl :=
  match self with Some c => [mkDecl c self_name DSelf] | None => [] end.

Lemma add_children_create : forall st s e k cs,
  add_children (st_z (create_scope s e k st)) cs = mkFrame k s e cs :: st_z st.
Proof. reflexivity. Qed.

Lemma sim_closure : forall b, P_block b -> forall self ps cs ce po st r pend r_self,
  r_self = self_env self r ->
  Inv st cs pend -> pend_out pend cs ce ->
  cs <= po ->
  ce = po + (1 + len_names ps + 1) + (1 + len_block b) + 3 ->
  ce <= top_end (st_z st) ->
  (forall c, self = Some c -> c < cs) ->
  R (st_z st) r ->
  exists cl,
    Step st (walk_closure (walk_block b) (len_block b) (has_items b) self ps cs ce po st) cs ce [cl]
      (fst (ref_block (bind_names ps (po + 1) r_self) b (po + (1 + len_names ps + 1) + 1)))
    /\ closure_node cl.
Proof.
  intros b IHb self ps cs ce po st r pend r_self -> HI Hpend Hpo Hce Hend Hself HR.
  pose proof (Inv_nonempty HI) as Hne.
  unfold walk_closure. cbv zeta.
  set (bo := po + 1 + len_names ps + 1).
  set (st1 := create_scope cs ce KClosure st).
  set (st2 := match self with Some c => add_decl (mkDecl c self_name DSelf) st1 | None => st1 end).
  set (st3 := add_name_decls ps (po + 1) st2).
  assert (HI1 : Inv st1 cs pend).
  { apply (Inv_create HI);
      [lia|lia|exact Hend|cbn; discriminate|intros _; right; reflexivity]. }
  assert (Hs12 : Step st1 st2 cs cs (map NDecl (self_decls self)) []).
  { unfold st2. destruct self as [c|]; cbn [self_decls map].
    - apply Step_add_decl. cbn [d_pos]. apply Hself. reflexivity.
    - apply Step_refl. }
  assert (Hs23 : Step st2 st3 cs bo (map NDecl (name_decls ps (po + 1))) []).
  { apply Step_add_name_decls; unfold bo; lia. }
  set (ds := self_decls self ++ name_decls ps (po + 1)).
  assert (Hs13 : Step st1 st3 cs bo (map NDecl ds) []).
  { unfold ds. rewrite map_app.
    apply (Step_seq Hs12 Hs23); unfold bo; lia. }
  assert (HI3 : Inv st3 bo pend).
  { apply (Inv_step HI1 Hs13); [unfold bo; lia|lia|].
    cbn. discriminate. }
  assert (Hz3 : st_z st3 = mkFrame KClosure cs ce (map NDecl ds) :: st_z st).
  { rewrite (step_z _ _ _ _ _ _ Hs13). reflexivity. }
  set (r_in := bind_names ps (po + 1) (self_env self r)).
  assert (HR3 : R (st_z st3) r_in).
  { rewrite Hz3. destruct (st_z st) as [|f z] eqn:Ez; [congruence|].
    assert (Hsil : repeat_silent f).
    { pose proof (inv_sil _ _ _ HI) as H. rewrite Ez in H. inversion H; assumption. }
    assert (Hv : vis_entry (mkFrame KClosure cs ce (map NDecl ds) :: f :: z) = rev ds ++ vis_entry (f :: z)).
    { cbn [vis_entry f_kind f_children]. rewrite all_contrib_decls. f_equal.
      rewrite vis_up_push by exact Hsil. cbn [f_kind kind_eqb negb]. rewrite andb_false_r. reflexivity. }
    assert (Henv : r_in = env_of (rev ds) ++ r).
    { unfold r_in, ds. rewrite bind_names_env, rev_app_distr. unfold env_of at 2. rewrite map_app, <- app_assoc.
      f_equal. destruct self; reflexivity. }
    rewrite Henv. apply (R_extend (f :: z)); [exact HR| |exact Hv].
    apply Forall_rev. unfold ds. apply Forall_app. split; [|apply name_decls_local].
    destruct self; cbn [self_decls]; [constructor; [cbn; discriminate|constructor]|constructor]. }
  assert (Hbody : bo + 1 + len_block b <= ce) by (unfold bo; lia).
  destruct (sim_body b IHb bo st3 r_in pend HI3) as (cs_b & Hs34 & _).
  - eapply pend_out_sub; [exact Hpend|unfold bo; lia|exact Hbody].
  - rewrite Hz3. cbn [top_end f_end]. exact Hbody.
  - rewrite Hz3. apply (R_same (mkFrame KClosure cs ce (map NDecl ds) :: st_z st)); [rewrite <- Hz3; exact HR3|].
    apply vis_push_normal; [intros E; discriminate|cbn; discriminate].
  - eexists. split; [|do 3 eexists; reflexivity].
    replace (po + (1 + len_names ps + 1) + 1) with (bo + 1) by (unfold bo; lia).
    fold r_in.
    apply (Step_scope cs (bo + 1 + len_block b)); [exact Hne| |lia|lia|exact Hbody].
    apply (Step_seq Hs13 Hs34); unfold bo; lia.
Qed.

Lemma sim_ENum : forall n, P_expr (ENum n).
Proof. intros n o. apply simE_nil. Qed.

Lemma sim_EStr : forall n, P_expr (EStr n).
Proof. intros n o. apply simE_nil. Qed.

Lemma sim_EName : forall x, P_expr (EName x).
Proof.
  intros x o st r pend HI Hp He HR. exists []. split; [|constructor]. cbn [walk_expr ref_expr len_expr] in *.
  pose proof (nlen_pos x). apply (sim_name x o st r pend HI); [|exact He|exact HR].
  eapply pend_out_notin; [exact Hp|lia|lia].
Qed.

Lemma sim_EIdx : forall e f, P_expr e -> P_expr (EIdx e f).
Proof. intros e f IHe o. apply (simE_widen (IHe (o + paren e))); cbn [len_expr]; lia. Qed.

Lemma sim_ECall : forall f args, P_expr f -> P_exprs args -> P_expr (ECall f args).
Proof.
  intros f args IHf IHa o.
  apply (simE_seq (IHf (o + paren f)) (IHa (o + paren f + len_expr f + paren f + 1))); cbn [len_expr]; lia.
Qed.

Lemma sim_EBin : forall a b, P_expr a -> P_expr b -> P_expr (EBin a b).
Proof. intros a b IHa IHb o. apply (simE_seq (IHa o) (IHb (o + len_expr a + 3))); cbn [len_expr]; lia. Qed.

Lemma sim_EFun : forall ps b, P_block b -> P_expr (EFun ps b).
Proof.
  intros ps b IHb o st r pend HI Hp He HR. cbn [walk_expr ref_expr len_expr] in *.
  destruct (sim_closure b IHb None ps o (o + (8 + (1 + len_names ps + 1) + (1 + len_block b) + 3)) (o + 8) st r pend r eq_refl HI Hp)
    as (cl & Hs & Hc); [lia|lia|exact He|discriminate|exact HR|].
  exists [cl]. split; [exact Hs|constructor; [exact Hc|constructor]].
Qed.

Lemma sim_ETable : forall es, P_exprs es -> P_expr (ETable es).
Proof. intros es IHes o. apply (simE_widen (IHes (o + 1))); cbn [len_expr]; lia. Qed.

Lemma sim_EMeth : forall e m args, P_expr e -> P_exprs args -> P_expr (EMeth e m args).
Proof.
  intros e m args IHe IHa o.
  apply (simE_seq (IHe (o + paren e)) (IHa (o + paren e + len_expr e + paren e + 1 + nlen m + 1))); cbn [len_expr]; lia.
Qed.

Lemma sim_ENil : P_exprs ENil.
Proof. intros o. apply simE_nil. Qed.

Lemma len_exprs_cons : forall e es,
  len_exprs (ECons e es) = len_expr e + match es with ENil => 0 | ECons _ _ => 2 + len_exprs es end.
Proof. reflexivity. Qed.

Lemma len_exprs_cons2 : forall v v2 r2, len_exprs (ECons v (ECons v2 r2)) = len_expr v + 2 + len_exprs (ECons v2 r2).
Proof. intros. cbn [len_exprs]. lia. Qed.

Lemma sim_ECons : forall e es, P_expr e -> P_exprs es -> P_exprs (ECons e es).
Proof.
  intros e es IHe IHes o. destruct es as [|e2 es2].
  - apply (simE_seq (IHe o) (simE_nil (o + len_expr e) 0)); cbn [len_exprs]; lia.
  - apply (simE_seq (IHe o) (IHes (o + len_expr e + 2))); rewrite ?len_exprs_cons2; lia.
Qed.

Lemma sim_SCall : forall f args, P_expr f -> P_exprs args -> P_stat (SCall f args).
Proof.
  intros f args IHf IHa o. apply simB_of_E.
  apply (simE_seq (IHf (o + paren f)) (IHa (o + paren f + len_expr f + paren f + 1))); cbn [len_stat]; lia.
Qed.

(** [local xs = es] with [g] characters of attribute between the names and the [=] *)
Lemma sim_local : forall xs es, P_exprs es -> forall g o eo len,
  eo = o + 6 + len_names xs + g + 3 ->
  len = 6 + len_names xs + g + match es with ENil => 0 | _ => 3 + len_exprs es end ->
  simB (fun st => pop_scope (walk_exprs es eo (add_name_decls xs (o + 6) (create_scope o (o + len) KLocalOrAssign st))))
       o len (fun r => ref_exprs r es eo) (bind_names xs (o + 6)).
Proof.
  intros xs es IHes g o eo len Heo HL st r pend HI Hp Hk He HR.
  pose proof (Inv_nonempty HI) as Hne.
  set (ds := name_decls xs (o + 6)).
  set (st1 := create_scope o (o + len) KLocalOrAssign st).
  set (st2 := add_name_decls xs (o + 6) st1).
  destruct (open_scope len KLocalOrAssign o HI Hk He HR (N.le_refl o)) as (HI1 & _); [discriminate|].
  fold st1 in HI1.
  assert (Hs12 : Step st1 st2 o (o + 6 + len_names xs) (map NDecl ds) []).
  { apply Step_add_name_decls; lia. }
  assert (Hz2 : st_z st2 = mkFrame KLocalOrAssign o (o + len) (map NDecl ds) :: st_z st).
  { rewrite (step_z _ _ _ _ _ _ Hs12). reflexivity. }
  (* the scope of the statement is closed behind the closures [cs_e] of the value expressions *)
  assert (Hfin : forall st3 e3 cs_e Le,
             Step st1 st3 o e3 (map NDecl ds ++ cs_e) Le -> Forall closure_node cs_e -> e3 <= o + len ->
             exists cs, Step st (pop_scope st3) o (o + len) cs Le /\ R (add_children (st_z st) cs) (bind_names xs (o + 6) r)).
  { intros st3 e3 cs_e Le Hs13 Hce He3.
    exists [NScope KLocalOrAssign o (o + len) (map NDecl ds ++ cs_e)]. split.
    - apply (Step_scope o e3); [exact Hne|exact Hs13|lia|lia|exact He3].
    - rewrite bind_names_env. apply (R_extend (st_z st)); [exact HR|apply Forall_rev, name_decls_local|].
      rewrite vis_add_normal by assumption. f_equal. rewrite all_contrib_one.
      cbn [contrib visit_child_scope node_kind node_children].
      rewrite decls_of_app, decls_of_decls, (decls_of_closures cs_e Hce), app_nil_r. reflexivity. }
  destruct es as [|e1 es1].
  - apply (Hfin st2 (o + 6 + len_names xs) [] []); [rewrite app_nil_r; exact Hs12|constructor|lia].
  - remember (ECons e1 es1) as es eqn:Ees.
    assert (HL' : len = 6 + len_names xs + g + 3 + len_exprs es) by (rewrite HL; subst es; lia).
    assert (HI2 : Inv st2 eo pend).
    { apply (Inv_step HI1 Hs12); [lia|lia|].
      cbn. discriminate. }
    destruct (IHes eo st2 r pend HI2) as (cs_e & Hs23 & Hce).
    + eapply pend_out_sub; [exact Hp|lia|lia].
    + rewrite Hz2. cbn [top_end f_end]. lia.
    + rewrite Hz2. apply (R_same (st_z st)); [exact HR|]. cbn [vis_entry f_kind]. apply vis_push_in_block; assumption.
    + apply (Hfin _ (eo + len_exprs es) cs_e (ref_exprs r es eo)); [|exact Hce|lia].
      apply (Step_seq Hs12 Hs23); lia.
Qed.

Lemma sim_SLocal : forall xs es, P_exprs es -> P_stat (SLocal xs es).
Proof.
  intros xs es IHes o.
  apply (sim_local xs es IHes 0 o (o + 6 + len_names xs + 3) (len_stat (SLocal xs es))); cbn [len_stat]; lia.
Qed.

Lemma sim_SLocalAttr : forall x cl es, P_exprs es -> P_stat (SLocalAttr x cl es).
Proof.
  intros x cl es IHes o.
  apply (sim_local [x] es IHes 8 o (o + 6 + nlen x + 8 + 3) (len_stat (SLocalAttr x cl es)));
    cbn [len_stat len_names]; lia.
Qed.

Lemma sim_SLabel : forall l, P_stat (SLabel l).
Proof. intros l o. apply simB_nil. Qed.

Lemma sim_SGoto : forall l, P_stat (SGoto l).
Proof. intros l o. apply simB_nil. Qed.

Lemma sim_SLocalFun : forall f ps b, P_block b -> P_stat (SLocalFun f ps b).
Proof.
  intros f ps b IHb o st r pend HI Hp Hk He HR.
  pose proof (Inv_nonempty HI) as Hne. pose proof (nlen_pos f) as Hf.
  set (L := len_stat (SLocalFun f ps b)) in *.
  assert (HL : L = 15 + nlen f + (1 + len_names ps + 1) + (1 + len_block b) + 3) by reflexivity.
  set (d := mkDecl (o + 15) f DLocal).
  set (po := o + 15 + nlen f).
  set (st1 := create_scope o (o + L) KFuncStat st).
  set (st2 := add_decl d st1).
  destruct (open_scope L KFuncStat (o + 15) HI Hk He HR) as (HI1 & _); [lia|intros _; lia|].
  fold st1 in HI1.
  assert (Hs12 : Step st1 st2 (o + 15) po [NDecl d] []).
  { apply Step_add_decl. cbn [d_pos d]. unfold po. lia. }
  assert (Hz2 : st_z st2 = mkFrame KFuncStat o (o + L) [NDecl d] :: st_z st).
  { rewrite (step_z _ _ _ _ _ _ Hs12). reflexivity. }
  assert (HI2 : Inv st2 po pend).
  { apply (Inv_step HI1 Hs12); [unfold po; lia|lia|]. cbn. discriminate. }
  set (r1 := (f, o + 15) :: r).
  (* the function's own name is visible in its body and behind the statement *)
  assert (HRd : forall z', vis_entry z' = [d] ++ vis_entry (st_z st) -> R z' r1).
  { intros z' Hv. change r1 with (env_of [d] ++ r).
    apply (R_extend (st_z st)); [exact HR|constructor; [cbn; discriminate|constructor]|exact Hv]. }
  destruct (sim_closure b IHb None ps po (o + L) po st2 r1 pend r1 eq_refl HI2) as (cl & Hs23 & Hcl).
  - eapply pend_out_sub; [exact Hp|unfold po; lia|fold L; lia].
  - lia.
  - unfold po. lia.
  - rewrite Hz2. cbn [top_end f_end]. lia.
  - discriminate.
  - apply HRd. rewrite Hz2. cbn [vis_entry f_kind f_children]. rewrite all_contrib_one. cbn [contrib]. f_equal.
    apply vis_push_in_block; assumption.
  - cbn [walk_stat ref_stat fst snd].
    exists [NScope KFuncStat o (o + L) ([NDecl d] ++ [cl])]. split.
    + apply (Step_scope (o + 15) (o + L)); [exact Hne| |lia|lia|lia].
      apply (Step_seq Hs12 Hs23); unfold po; lia.
    + apply HRd. rewrite vis_add_normal by assumption. f_equal. rewrite all_contrib_one.
      destruct Hcl as (s' & e' & cs' & ->). reflexivity.
Qed.

Lemma sim_SDo : forall b, P_block b -> P_stat (SDo b).
Proof. intros b IHb o. apply (simB_widen (sim_body_plain b IHb (o + 2))); cbn [len_stat]; lia. Qed.

Lemma sim_SWhile : forall c b, P_expr c -> P_block b -> P_stat (SWhile c b).
Proof.
  intros c b IHc IHb o.
  apply (simB_seq (simB_of_E (IHc (o + 6))) (sim_body_plain b IHb (o + 6 + len_expr c + 3))); cbn [len_stat]; lia.
Qed.

Lemma sim_ElEnd : P_elifs ElEnd.
Proof. intros o. apply simB_nil. Qed.

Lemma sim_ElElse : forall b, P_block b -> P_elifs (ElElse b).
Proof. intros b IHb o. apply (simB_widen (sim_body_plain b IHb (o + 4))); cbn [len_elifs]; lia. Qed.

(** condition after a keyword of [kw] characters, [then] block, and the rest of an if statement *)
Lemma sim_cond_block : forall c b, P_expr c -> P_block b ->
  forall kw o w3 l3 L3, simB w3 (o + kw + len_expr c + 5 + (1 + len_block b)) l3 L3 (fun r => r) ->
  simB (fun st => w3 (walk_body (walk_block b) (len_block b) (has_items b) (o + kw + len_expr c + 5) (walk_expr c (o + kw) st)))
       o (kw + len_expr c + 5 + (1 + len_block b) + l3)
       (fun r => ref_expr r c (o + kw) ++ fst (ref_block r b (o + kw + len_expr c + 5 + 1)) ++ L3 r) (fun r => r).
Proof.
  intros c b IHc IHb kw o w3 l3 L3 H3.
  pose proof (simB_seq (sim_body_plain b IHb (o + kw + len_expr c + 5)) H3
                (o + kw + len_expr c + 5) (1 + len_block b + l3)) as H23.
  apply (simB_seq (simB_of_E (IHc (o + kw))) (H23 ltac:(lia) ltac:(lia) ltac:(lia))); lia.
Qed.

Lemma sim_ElIf : forall c b t, P_expr c -> P_block b -> P_elifs t -> P_elifs (ElIf c b t).
Proof. intros c b t IHc IHb IHt o. apply (sim_cond_block c b IHc IHb 7 o _ _ _ (IHt _)). Qed.

Lemma sim_SIf : forall c b els, P_expr c -> P_block b -> P_elifs els -> P_stat (SIf c b els).
Proof. intros c b els IHc IHb IHe o. apply (sim_cond_block c b IHc IHb 3 o _ _ _ (IHe _)). Qed.

Lemma sim_SRepeat : forall b c, P_block b -> P_expr c -> P_stat (SRepeat b c).
Proof.
  intros b c IHb IHc o st r pend HI Hp Hk He HR.
  pose proof (Inv_nonempty HI) as Hne.
  set (L := len_stat (SRepeat b c)) in *.
  assert (HL : L = 6 + (1 + len_block b) + 6 + len_expr c) by reflexivity.
  set (st1 := create_scope o (o + L) KRepeat st).
  set (S0 := mkFrame KRepeat o (o + L) []).
  assert (Hz1 : st_z st1 = S0 :: st_z st) by reflexivity.
  destruct (open_scope L KRepeat (o + 6) HI Hk He HR) as (HI1 & HR1); [lia|discriminate|].
  fold st1 in HI1, HR1.
  set (bo := o + 6). set (be := bo + 1 + len_block b).
  destruct (sim_body b IHb bo st1 r pend HI1) as (cs_in & Hs12 & HRin).
  - eapply pend_out_sub; [exact Hp|unfold bo; lia|unfold bo; fold L; lia].
  - rewrite Hz1. cbn [top_end S0 f_end]. unfold bo. lia.
  - rewrite Hz1. apply (R_same (S0 :: st_z st)); [rewrite <- Hz1; exact HR1|].
    apply vis_push_normal; [intros _; constructor|cbn; discriminate].
  - fold be in Hs12, HRin.
    set (st2 := walk_body (walk_block b) (len_block b) (has_items b) bo st1) in *.
    set (r1 := snd (ref_block r b (bo + 1))) in *.
    set (cs_b := if has_items b then [NScope KNormal bo be cs_in] else []) in *.
    set (co := o + 6 + (1 + len_block b) + 6).
    assert (HI2 : Inv st2 co pend).
    { apply (Inv_step HI1 Hs12); [unfold be; lia|unfold be, bo, co; lia|].
      intros _. unfold cs_b. destruct (has_items b); [split; [repeat constructor|left; reflexivity]|split; [constructor|exact I]]. }
    assert (Hz2 : st_z st2 = add_children (st_z st1) cs_b) by (apply (step_z _ _ _ _ _ _ Hs12)).
    (* the until condition sees the locals of the body *)
    assert (HR2 : R (st_z st2) r1).
    { rewrite Hz2, Hz1. unfold cs_b. destruct (has_items b) eqn:Eh.
      - rewrite Hz1 in HRin. apply (R_same (mkFrame KNormal bo be cs_in :: S0 :: st_z st)); [exact HRin|].
        change (add_children (S0 :: st_z st) [NScope KNormal bo be cs_in])
          with (with_children S0 [NScope KNormal bo be cs_in] :: st_z st).
        rewrite vis_entry_repeat_body by reflexivity.
        cbn [vis_entry f_kind f_children]. f_equal.
      - destruct b; try discriminate. rewrite add_children_nil, <- Hz1. exact HR1. }
    destruct (IHc co st2 r1 pend HI2) as (cs_c & Hs23 & Hcc).
    + eapply pend_out_sub; [exact Hp|unfold co; lia|unfold co; fold L; lia].
    + rewrite Hz2, top_end_add, Hz1. cbn [top_end S0 f_end]. unfold co. lia.
    + exact HR2.
    + cbn [walk_stat ref_stat]. change (o + 6 + 1) with (bo + 1).
      destruct (ref_block r b (bo + 1)) as (l_b, r1') eqn:Erb. cbn [fst snd] in *. subst r1.
      exists [NScope KRepeat o (o + L) (cs_b ++ cs_c)]. split.
      * apply (Step_scope bo (co + len_expr c)); [exact Hne| |lia|unfold bo; lia|unfold co; lia].
        apply (Step_seq Hs12 Hs23); unfold be, bo, co; lia.
      * apply R_silent_after; try assumption. constructor; [reflexivity|constructor].
Qed.

(** numeric and generic for: header expressions in the environment of the statement, the body with the loop
    variables [ds], which [rb] binds *)
Lemma sim_for : forall es b, P_exprs es -> P_block b ->
  forall (ds : list decl) (add : state -> state) (rb : env -> env) o eo L,
  let bo := eo + len_exprs es + 3 in
  o + 4 <= eo -> o + L = bo + (1 + len_block b) + 3 ->
  Forall (fun d => d_kind d <> DGlobal) ds -> (forall r, rb r = env_of (rev ds) ++ r) ->
  (forall st1, Step st1 (add st1) (o + 4) eo (map NDecl ds) []) ->
  simB (fun st => pop_scope (walk_body (walk_block b) (len_block b) (has_items b) bo
                               (walk_exprs es eo (add (create_scope o (o + L) KForRange st)))))
       o L (fun r => ref_exprs r es eo ++ fst (ref_block (rb r) b (bo + 1))) (fun r => r).
Proof.
  intros es b IHes IHb ds add rb o eo L bo Heo HL Hds Hrb Hadd st r pend HI Hp Hk He HR. rewrite Hrb.
  pose proof (Inv_nonempty HI) as Hne.
  set (st1 := create_scope o (o + L) KForRange st).
  set (st2 := add st1).
  destruct (open_scope L KForRange (o + 4) HI Hk He HR) as (HI1 & _); [lia|discriminate|].
  fold st1 in HI1.
  assert (Hs12 : Step st1 st2 (o + 4) eo (map NDecl ds) []) by apply Hadd.
  assert (HI2 : Inv st2 eo pend).
  { apply (Inv_step HI1 Hs12); [lia|lia|]. cbn. discriminate. }
  assert (Hz2 : st_z st2 = mkFrame KForRange o (o + L) (map NDecl ds) :: st_z st).
  { rewrite (step_z _ _ _ _ _ _ Hs12). reflexivity. }
  assert (HR2 : R (st_z st2) r).
  { rewrite Hz2. apply (R_same (st_z st)); [exact HR|]. cbn [vis_entry f_kind]. apply vis_push_in_block; assumption. }
  destruct (IHes eo st2 r pend HI2) as (cs_e & Hs23 & Hce).
  - eapply pend_out_sub; [exact Hp|lia|unfold bo in HL; lia].
  - rewrite Hz2. cbn [top_end f_end]. unfold bo in HL. lia.
  - exact HR2.
  - set (st3 := walk_exprs es eo st2) in *.
    destruct (chain st2 st3 eo (eo + len_exprs es) cs_e _ r pend bo HI2 Hs23 Hce HR2 ltac:(lia) ltac:(unfold bo; lia))
      as (HI3 & _).
    assert (Hz3 : st_z st3 = mkFrame KForRange o (o + L) (map NDecl ds ++ cs_e) :: st_z st).
    { rewrite (step_z _ _ _ _ _ _ Hs23), Hz2. reflexivity. }
    destruct (sim_body b IHb bo st3 (env_of (rev ds) ++ r) pend HI3) as (cs_b & Hs34 & _).
    + eapply pend_out_sub; [exact Hp|unfold bo; lia|lia].
    + rewrite Hz3. cbn [top_end f_end]. lia.
    + rewrite Hz3. apply (R_extend (st_z st)); [exact HR|apply Forall_rev; exact Hds|].
      cbn [vis_entry f_kind f_children]. rewrite all_contrib_nil. cbn [app].
      rewrite vis_up_push by (intros E; discriminate). cbn [f_kind kind_eqb negb andb f_children].
      rewrite all_contrib_app, all_contrib_decls, (all_contrib_silent cs_e (closures_silent cs_e Hce)). cbn [app]. f_equal.
      cbn [vis_entry f_kind]. apply vis_push_in_block; assumption.
    + eexists. split.
      * eapply (Step_scope (o + 4) (bo + 1 + len_block b)); [exact Hne| |lia|lia|lia].
        assert (H13 : Step st1 st3 (o + 4) (eo + len_exprs es) (map NDecl ds ++ cs_e) (ref_exprs r es eo))
          by (apply (Step_seq Hs12 Hs23); lia).
        apply (Step_seq H13 Hs34); unfold bo; lia.
      * apply R_silent_after; try assumption. constructor; [reflexivity|constructor].
Qed.

Lemma sim_SFor : forall x es b, P_exprs es -> P_block b -> P_stat (SFor x es b).
Proof.
  intros x es b IHes IHb o. pose proof (nlen_pos x) as Hx.
  apply (sim_for es b IHes IHb [mkDecl (o + 4) x DLocal] (add_decl (mkDecl (o + 4) x DLocal)) (fun r => (x, o + 4) :: r)
           o (o + 4 + nlen x + 3) (len_stat (SFor x es b))).
  - lia.
  - cbn [len_stat]. lia.
  - constructor; [cbn; discriminate|constructor].
  - reflexivity.
  - intros st1. apply Step_add_decl. cbn [d_pos]. lia.
Qed.

Lemma sim_SForIn : forall xs es b, P_exprs es -> P_block b -> P_stat (SForIn xs es b).
Proof.
  intros xs es b IHes IHb o.
  apply (sim_for es b IHes IHb (name_decls xs (o + 4)) (add_name_decls xs (o + 4)) (bind_names xs (o + 4))
           o (o + 4 + len_names xs + 4) (len_stat (SForIn xs es b))).
  - lia.
  - cbn [len_stat]. lia.
  - apply name_decls_local.
  - apply bind_names_env.
  - intros st1. apply Step_add_name_decls; lia.
Qed.

Lemma get_decl_last : forall d ds,
  Forall (fun d0 => d_pos d0 <> d_pos d) ds -> find (fun d0 => d_pos d0 =? d_pos d) (ds ++ [d]) = Some d.
Proof.
  intros d ds H. rewrite find_app, (find_fresh _ d_pos _ ds H). cbn [find]. rewrite N.eqb_refl. reflexivity.
Qed.

(** a plain name that resolves to nothing declares a global and refers to it *)
Lemma Step_marker : forall st p p' x,
  p < p' -> Forall (fun d => d_pos d <> p) (st_decls st) -> lookup_ref p (st_refs st) = None ->
  Step st (analyze_name_expr x p (add_decl (mkDecl p x DGlobal) st)) p p' [NDecl (mkDecl p x DGlobal)] [(p, None)].
Proof.
  intros st p p' x Hlt Hd Hr. set (g := mkDecl p x DGlobal).
  assert (H1 : Step st (add_decl g st) p p' [NDecl g] []) by (apply Step_add_decl; exact Hlt).
  assert (Hg : get_decl p (add_decl g st) = Some g /\ st_refs (add_decl g st) = st_refs st).
  { unfold get_decl, add_decl. destruct (st_z st); cbn [st_decls st_refs]; (split; [apply (get_decl_last g); exact Hd|reflexivity]). }
  unfold analyze_name_expr. cbv zeta. rewrite (proj1 Hg).
  assert (H2 : Step (add_decl g st) (add_ref p (p + nlen x) g (add_decl g st)) p p' [] [(p, None)])
    by (apply Step_add_ref; [rewrite (proj2 Hg); exact Hr|exact Hlt|reflexivity]).
  apply (Step_seq_gen H1 H2); [constructor|lia..].
Qed.

(** the name of a function statement: a plain name (no fields, no method) that resolves to nothing is declared as
    a global first (analyze_func_stat); then the name is walked like any name use *)
Lemma sim_fun_name : forall root (fields : list name) (meth : option name) p st1 r pend,
  Inv st1 p pend -> ~ In p pend -> p + nlen root <= top_end (st_z st1) -> R (st_z st1) r ->
  exists cs3,
    Step st1 (analyze_name_expr root p
                match fields, meth with
                | [], None => match find_decl root p st1 with
                              | None => add_decl (mkDecl p root DGlobal) st1
                              | Some _ => st1
                              end
                | _, _ => st1
                end) p (p + nlen root) cs3 [(p, lookup root r)]
    /\ (cs3 = [] \/ cs3 = [NDecl (mkDecl p root DGlobal)] /\ lookup root r = None).
Proof.
  intros root fields meth p st1 r pend HI1 Hpn He HR1. pose proof (nlen_pos root) as Hroot.
  destruct (find_decl_R root HI1 ltac:(lia) HR1) as (Hcl & _).
  destruct fields as [|f1 fr], meth as [m|], (find_decl root p st1) as [d0|] eqn:Efd;
    try (exists []; split; [apply (sim_name root p st1 r pend HI1 Hpn He HR1)|left; reflexivity]).
  cbn [classify] in Hcl. eexists. split; [|right; split; [reflexivity|symmetry; exact Hcl]].
  rewrite <- Hcl. apply Step_marker; [lia| |apply lookup_ref_fresh].
  - eapply Forall_fresh; [apply (inv_decls _ _ _ HI1)|lia|exact Hpn].
  - eapply Forall_fresh; [apply (inv_refs _ _ _ HI1)|lia|exact Hpn].
Qed.

Lemma sim_SFun : forall root fields meth ps b, P_block b -> P_stat (SFun root fields meth ps b).
Proof.
  intros root fields meth ps b IHb o st r pend HI Hp Hk He HR.
  pose proof (Inv_nonempty HI) as Hne. pose proof (nlen_pos root) as Hroot.
  set (L := len_stat (SFun root fields meth ps b)) in *.
  assert (HL : L = 9 + nlen root + len_fields fields + len_meth meth + (1 + len_names ps + 1) + (1 + len_block b) + 3) by reflexivity.
  set (k := match meth with Some _ => KMethodStat | None => KFuncStat end).
  assert (Hkv : k = KFuncStat \/ k = KMethodStat) by (unfold k; destruct meth; auto).
  set (st1 := create_scope o (o + L) k st).
  destruct (open_scope L k (o + 9) HI Hk He HR) as (HI1 & HR1);
    [lia|intros _; lia|]. fold st1 in HI1, HR1.
  assert (Hv1 : forall ch, vis_entry (mkFrame k o (o + L) ch :: st_z st) = all_contrib ch ++ vis_entry (st_z st)).
  { intros ch. assert (Hu : vis_up (mkFrame k o (o + L) ch) (st_z st) = vis_entry (st_z st)) by (apply vis_push_in_block; assumption).
    cbn [vis_entry f_kind f_children]. destruct Hkv as [-> | ->]; rewrite Hu; reflexivity. }
  set (p := o + 9).
  set (g := mkDecl p root DGlobal).
  destruct (sim_fun_name root fields meth p st1 r pend HI1) as (cs3 & Hs13 & Hcs3);
    [eapply pend_out_notin; [exact Hp|unfold p; lia|unfold p; fold L; lia]|cbn [st1 create_scope st_z top_end f_end]; unfold p; lia|exact HR1|].
  set (st3 := analyze_name_expr root p _) in Hs13.
  set (colon := o + 9 + nlen root + len_fields fields).
  set (po := colon + len_meth meth).
  set (self := match meth with Some _ => Some colon | None => None end).
  assert (HI3 : Inv st3 po pend).
  { apply (Inv_step HI1 Hs13); [lia|unfold po, colon, p; lia|]. cbn. unfold k. destruct meth; discriminate. }
  assert (Hz3 : st_z st3 = mkFrame k o (o + L) cs3 :: st_z st).
  { rewrite (step_z _ _ _ _ _ _ Hs13). reflexivity. }
  assert (Hmark : forall z', vis_entry z' = all_contrib cs3 ++ vis_entry (st_z st) -> R z' r).
  { intros z' Hv. destruct Hcs3 as [-> | (-> & Hnone)].
    - apply (R_same (st_z st)); [exact HR|exact Hv].
    - apply (R_markers (st_z st) z' r [g]); [exact HR|constructor; [split; [reflexivity|exact Hnone]|constructor]|].
      rewrite Hv, all_contrib_one. reflexivity. }
  assert (HR3 : R (st_z st3) r) by (apply Hmark; rewrite Hz3; apply Hv1).
  destruct (sim_closure b IHb self ps po (o + L) po st3 r pend
              (match meth with Some _ => (self_name, colon) :: r | None => r end)
              ltac:(unfold self; destruct meth; reflexivity) HI3) as (cl & Hs34 & Hcl).
  - eapply pend_out_sub; [exact Hp|unfold po, colon; lia|fold L; lia].
  - lia.
  - unfold po, colon. lia.
  - rewrite Hz3. cbn [top_end f_end]. lia.
  - intros c E. unfold self in E. destruct meth as [m|]; [|discriminate]. injection E as <-.
    unfold po. cbn [len_meth]. pose proof (nlen_pos m). lia.
  - exact HR3.
  - cbn [walk_stat ref_stat fst snd]. exists [NScope k o (o + L) (cs3 ++ [cl])]. split.
    + apply (Step_scope p (o + L)); [exact Hne| |lia|unfold p; lia|lia].
      apply (Step_seq Hs13 Hs34); unfold po, colon, p; lia.
    + apply Hmark. rewrite vis_add_normal by assumption. f_equal. rewrite all_contrib_one.
      destruct Hcl as (s' & e' & cs' & ->).
      assert (Hd : decls_of (cs3 ++ [NScope KClosure s' e' cs']) = decls_of cs3)
        by (rewrite decls_of_app; cbn [decls_of flat_map app]; apply app_nil_r).
      destruct Hkv as [Hk1 | Hk1]; rewrite Hk1;
        cbn [contrib visit_child_scope node_kind node_children]; rewrite Hd;
        destruct Hcs3 as [-> | (-> & _)]; reflexivity.
Qed.

Definition targets1 (v : expr) (o : N) : list (N * name) := match v with EName x => [(o, x)] | _ => [] end.

Fixpoint targets (vs : exprs) (o : N) : list (N * name) :=
  match vs with
  | ENil => []
  | ECons v r => targets1 v o ++ targets r (o + len_expr v + 2)
  end.

(** the plain-name target [px] after the first pass: either it resolved and already has its reference (walking it
    again adds nothing, [analyze_noop]), or it was declared as a global at its own position and gets the reference
    to that declaration when the second pass walks it *)
Definition tgt_ok (st : state) (r : env) (px : N * name) : Prop :=
  (get_decl (fst px) st = None /\
   exists d, lookup_ref (fst px) (st_refs st) = Some d /\ classify (Some d) = lookup (snd px) r)
  \/ (exists m, get_decl (fst px) st = Some m /\ d_kind m = DGlobal /\
                lookup_ref (fst px) (st_refs st) = None /\ lookup (snd px) r = None).

Lemma tgt_ok_stable : forall st st' r px ds rs,
  tgt_ok st r px ->
  st_decls st' = st_decls st ++ ds -> Forall (fun d => d_pos d <> fst px) ds ->
  st_refs st' = st_refs st ++ rs -> Forall (fun rf => fst rf <> fst px) rs ->
  tgt_ok st' r px.
Proof.
  intros st st' r px ds rs H Hd Hds Hr Hrs.
  assert (Hg : get_decl (fst px) st' = match get_decl (fst px) st with Some v => Some v | None => None end).
  { unfold get_decl. rewrite Hd, find_app, (find_fresh _ d_pos _ ds Hds). reflexivity. }
  assert (Hl : lookup_ref (fst px) (st_refs st') = lookup_ref (fst px) (st_refs st)).
  { rewrite Hr, lookup_ref_app, (lookup_ref_fresh _ rs Hrs). destruct (lookup_ref (fst px) (st_refs st)); reflexivity. }
  destruct H as [(H1 & d & H2 & H3) | (m & H1 & H2 & H3 & H4)].
  - left. split; [rewrite Hg, H1; reflexivity|]. exists d. split; [rewrite Hl; exact H2|exact H3].
  - right. exists m. split; [rewrite Hg, H1; reflexivity|]. split; [exact H2|]. split; [rewrite Hl; exact H3|exact H4].
Qed.

Lemma add_ref_noop : forall p e d d' st, lookup_ref p (st_refs st) = Some d' -> add_ref p e d st = st.
Proof. intros p e d d' st H. unfold add_ref. rewrite H. reflexivity. Qed.

Lemma analyze_noop : forall x p st d',
  get_decl p st = None -> lookup_ref p (st_refs st) = Some d' -> analyze_name_expr x p st = st.
Proof.
  intros x p st d' Hg Hl. unfold analyze_name_expr. cbv zeta. rewrite Hg.
  destruct (find_decl x p st) as [d|]; [|reflexivity].
  destruct (is_local d); [apply (add_ref_noop p _ d d' st Hl)|].
  destruct (d_pos d =? p); [reflexivity|apply (add_ref_noop p _ d d' st Hl)].
Qed.

Lemma targets1_at : forall v o q, In q (map fst (targets1 v o)) -> q = o.
Proof. intros v o q Hq. destruct v; try contradiction. destruct Hq as [<-|[]]. reflexivity. Qed.

Lemma targets_bounds : forall vs o q, In q (map fst (targets vs o)) -> o <= q /\ q < o + len_exprs vs.
Proof.
  induction vs as [|v r IH]; intros o q Hq; [destruct Hq|].
  cbn [targets] in Hq. rewrite map_app in Hq. rewrite len_exprs_cons. apply in_app_or in Hq. destruct Hq as [Hq|Hq].
  - destruct v as [| x | | | | | | |]; try contradiction. destruct Hq as [<-|[]].
    cbn [fst len_expr]. pose proof (nlen_pos x). destruct r; lia.
  - destruct r as [|v2 r2]; [destruct Hq|]. apply IH in Hq. lia.
Qed.

Definition var_step (v : expr) (o : N) (st : state) : state :=
  match v with
  | EName x => match find_decl x o st with
               | Some d => add_ref o (o + nlen x) d st
               | None => add_decl (mkDecl o x DGlobal) st
               end
  | _ => st
  end.

Lemma analyze_assign_vars_cons : forall v r o st,
  analyze_assign_vars (ECons v r) o st = analyze_assign_vars r (o + len_expr v + 2) (var_step v o st).
Proof. intros. destruct v; reflexivity. Qed.

Lemma R_loa_children : forall z cs r,
  top_kind z = KLocalOrAssign -> R z r -> R (add_children z cs) r.
Proof.
  intros [|f z] cs r Hk HR; [discriminate|]. apply (R_same (f :: z)); [exact HR|].
  cbn [add_children top_kind] in *. apply vis_entry_add_skip. left. exact Hk.
Qed.

(** what the first pass has done for the plain-name targets [T]: it declared the globals [ms] and added the
    references [rs], all at positions of [T], and every target of [T] is served *)
Record assigned (st st' : state) (r : env) (T : list (N * name)) (ms : list decl) (rs : list (N * decl)) : Prop := {
  as_z : st_z st' = add_children (st_z st) (map NDecl ms);
  as_decls : st_decls st' = st_decls st ++ ms;
  as_refs : st_refs st' = st_refs st ++ rs;
  as_ms : Forall (fun m => In (d_pos m) (map fst T) /\ d_kind m = DGlobal /\ lookup (d_name m) r = None) ms;
  as_rs : Forall (fun rf => In (fst rf) (map fst T)) rs;
  as_ok : Forall (tgt_ok st' r) T
}.

Lemma assigned_nil : forall st r, assigned st st r [] [] [].
Proof.
  intros st r. constructor; try constructor; cbn [map]; rewrite ?add_children_nil, ?app_nil_r; reflexivity.
Qed.

Lemma assigned_app : forall st st1 st2 r T1 T2 ms1 rs1 ms2 rs2,
  assigned st st1 r T1 ms1 rs1 -> assigned st1 st2 r T2 ms2 rs2 ->
  (forall q, In q (map fst T2) -> ~ In q (map fst T1)) ->
  assigned st st2 r (T1 ++ T2) (ms1 ++ ms2) (rs1 ++ rs2).
Proof.
  intros st st1 st2 r T1 T2 ms1 rs1 ms2 rs2 [Hz1 Hd1 Hr1 Hm1 Hrf1 Hok1] [Hz2 Hd2 Hr2 Hm2 Hrf2 Hok2] Hdis.
  constructor.
  - rewrite Hz2, Hz1, add_children_app, map_app. reflexivity.
  - rewrite Hd2, Hd1, app_assoc. reflexivity.
  - rewrite Hr2, Hr1, app_assoc. reflexivity.
  - rewrite map_app. apply Forall_app.
    split; (eapply Forall_impl; [|eassumption]); cbv beta; intros m (Hin & Hrest); (split; [apply in_or_app; auto|exact Hrest]).
  - rewrite map_app. apply Forall_app.
    split; (eapply Forall_impl; [|eassumption]); cbv beta; intros rf Hin; apply in_or_app; auto.
  - apply Forall_app. split; [|exact Hok2].
    apply Forall_forall. intros px Hpx. rewrite Forall_forall in Hok1.
    (* the second part worked at other positions *)
    apply (tgt_ok_stable st1 st2 r px ms2 rs2 (Hok1 px Hpx) Hd2); [|exact Hr2|].
    + eapply Forall_impl; [|exact Hm2]. cbv beta. intros m (Hin & _) E. apply (Hdis _ Hin). rewrite E. apply in_map. exact Hpx.
    + eapply Forall_impl; [|exact Hrf2]. cbv beta. intros rf Hin E. apply (Hdis _ Hin). rewrite E. apply in_map. exact Hpx.
Qed.

Lemma assigned_Step {st st' r T ms rs} o o' :
  assigned st st' r T ms rs -> (forall q, In q (map fst T) -> o <= q /\ q < o') ->
  Step st st' o o' (map NDecl ms) [].
Proof.
  intros [Hz Hd Hr Hm Hrf _] HT'.
  constructor.
  - exact Hz.
  - apply Forall_forall. intros c Hc. apply in_map_iff in Hc. destruct Hc as (m & <- & Hmm).
    rewrite Forall_forall in Hm. destruct (Hm m Hmm) as (Hin & _). destruct (HT' _ Hin).
    cbn [node_pos node_end node_ok node_children]. repeat split; try lia; constructor.
  - exists ms. split; [exact Hd|]. eapply Forall_impl; [|exact Hm]. cbv beta. intros m (Hin & _). destruct (HT' _ Hin). lia.
  - exists rs. split; [exact Hr|]. eapply Forall_impl; [|exact Hrf]. cbv beta. intros rf Hin. apply (HT' _ Hin).
  - constructor.
Qed.

(** the positions of the targets are pending until the second pass has walked them *)
Lemma Inv_pending {st st' o pend r T ms rs} :
  Inv st o pend -> top_kind (st_z st) = KLocalOrAssign -> assigned st st' r T ms rs ->
  Inv st' o (map fst T ++ pend).
Proof.
  intros [Hz Hsil Hd Hr] Hk [Hz' Hd' Hr' Hms Hrs _].
  destruct (st_z st) as [|[k s e cs0] z] eqn:Ez; [destruct Hz|].
  cbn [top_kind f_kind] in Hk. subst k.
  destruct Hz as (Hb & Hs & Hf & Hrp & Hsp).
  unfold add_children, with_children in Hz'. cbn [f_kind f_start f_end f_children] in *.
  constructor.
  - rewrite Hz'. cbn [zinv f_kind f_start f_end f_children].
    split; [|split; [exact Hs|split; [intros E; discriminate|split; [intros E; discriminate|]]]].
    + unfold frame_before in *. cbn [f_kind f_children kind_eqb] in *. apply Forall_app. split; [exact Hb|].
      apply Forall_forall. intros c Hc. apply in_map_iff in Hc. destruct Hc as (m & <- & _). exact I.
    + eapply spine_ok_same; [| | |exact Hsp]; reflexivity.
  - rewrite Hz'. inversion Hsil as [|? ? Hsf Hsz]; subst. constructor; [|exact Hsz]. intros E. discriminate.
  - rewrite Hd'. apply Forall_app. split.
    + eapply Forall_impl; [|exact Hd]. cbv beta. intros d [H|H]; [left; exact H|right; apply in_or_app; right; exact H].
    + eapply Forall_impl; [|exact Hms]. cbv beta. intros m (H & _). right. apply in_or_app. left. exact H.
  - rewrite Hr'. apply Forall_app. split.
    + eapply Forall_impl; [|exact Hr]. cbv beta. intros d [H|H]; [left; exact H|right; apply in_or_app; right; exact H].
    + eapply Forall_impl; [|exact Hrs]. cbv beta. intros m H. right. apply in_or_app. left. exact H.
Qed.

Lemma assigned_one : forall v o st r pend,
  Inv st o pend -> (forall x, v = EName x -> ~ In o pend) ->
  o + len_expr v <= top_end (st_z st) -> R (st_z st) r ->
  exists ms rs, assigned st (var_step v o st) r (targets1 v o) ms rs.
Proof.
  intros v o st r pend HI Hpn He HR.
  destruct v as [n|x|e1 f1|f1 args|a1 b1|ps1 b1|n2|es2|e2 m2 args2];
    try (exists [], []; apply assigned_nil).
  cbn [var_step targets1 len_expr] in *. pose proof (nlen_pos x) as Hx. specialize (Hpn x eq_refl).
  assert (Hfd : Forall (fun d => d_pos d <> o) (st_decls st))
    by (eapply Forall_fresh; [apply (inv_decls _ _ _ HI)|lia|exact Hpn]).
  assert (Hfr : Forall (fun rf => fst rf <> o) (st_refs st))
    by (eapply Forall_fresh; [apply (inv_refs _ _ _ HI)|lia|exact Hpn]).
  destruct (find_decl_R x HI ltac:(lia) HR) as (Hcl & _).
  pose proof (Inv_nonempty HI) as Hne.
  destruct (find_decl x o st) as [d|] eqn:Efd.
  - exists [], [(o, d)]. unfold add_ref. rewrite (lookup_ref_fresh o _ Hfr).
    constructor; cbn [st_z st_decls st_refs map fst snd].
    + rewrite add_children_nil. reflexivity.
    + rewrite app_nil_r. reflexivity.
    + reflexivity.
    + constructor.
    + constructor; [left; reflexivity|constructor].
    + constructor; [|constructor]. left. cbn [fst snd st_refs].
      split; [apply get_decl_fresh; exact Hfd|]. exists d. split; [apply lookup_ref_last; exact Hfr|exact Hcl].
  - set (g := mkDecl o x DGlobal). cbn [classify] in Hcl.
    exists [g], []. destruct (st_z st) as [|f z] eqn:Ez; [congruence|].
    unfold add_decl. rewrite Ez.
    constructor; cbn [st_z st_decls st_refs map fst snd].
    + rewrite Ez. reflexivity.
    + reflexivity.
    + rewrite app_nil_r. reflexivity.
    + constructor; [|constructor]. split; [left; reflexivity|split; [reflexivity|symmetry; exact Hcl]].
    + constructor.
    + constructor; [|constructor]. right. exists g. cbn [fst snd st_refs].
      split; [unfold get_decl; cbn [st_decls]; apply (get_decl_last g); exact Hfd|].
      split; [reflexivity|]. split; [apply lookup_ref_fresh; exact Hfr|symmetry; exact Hcl].
Qed.

Lemma pass1 : forall vs o st r pend,
  Inv st o pend -> pend_out pend o (o + len_exprs vs) -> top_kind (st_z st) = KLocalOrAssign ->
  (vs <> ENil -> o + len_exprs vs <= top_end (st_z st)) -> R (st_z st) r ->
  exists ms rs, assigned st (analyze_assign_vars vs o st) r (targets vs o) ms rs.
Proof.
  induction vs as [|v rest IH]; intros o st r pend HI Hp Hk He HR.
  - exists [], []. apply assigned_nil.
  - rewrite analyze_assign_vars_cons.
    specialize (He ltac:(discriminate)). rewrite len_exprs_cons in He, Hp.
    assert (Hlv : o + len_expr v <= top_end (st_z st)) by (destruct rest; lia).
    assert (Hpn : forall x, v = EName x -> ~ In o pend).
    { intros x ->. pose proof (nlen_pos x). eapply pend_out_notin; [exact Hp|lia|cbn [len_expr]; destruct rest; lia]. }
    set (st1 := var_step v o st).
    set (o' := o + len_expr v + 2).
    destruct (assigned_one v o st r pend HI Hpn Hlv HR) as (ms1 & rs1 & H1). fold st1 in H1.
    assert (Hb1 : forall q, In q (map fst (targets1 v o)) -> o <= q /\ q < o')
      by (intros q Hq; apply targets1_at in Hq; unfold o'; lia).
    pose proof (as_z _ _ _ _ _ _ H1) as Hz1.
    assert (HI1 : Inv st1 o' pend).
    { apply (Inv_step HI (assigned_Step o o' H1 Hb1)); [unfold o'; lia|lia|].
      rewrite Hk. discriminate. }
    destruct (IH o' st1 r pend HI1) as (ms2 & rs2 & H2).
    + destruct rest as [|v2 r2]; [cbn [len_exprs]; apply Forall_forall; intros q _; lia|].
      eapply pend_out_sub; [exact Hp|unfold o'; lia|unfold o'; lia].
    + rewrite Hz1, top_kind_add. exact Hk.
    + intros Hn. rewrite Hz1, top_end_add. destruct rest as [|v2 r2]; [congruence|]. unfold o'. lia.
    + rewrite Hz1. apply R_loa_children; assumption.
    + exists (ms1 ++ ms2), (rs1 ++ rs2). cbn [targets]. apply (assigned_app _ _ _ _ _ _ _ _ _ _ H1 H2).
      intros q Hq Hq1. apply targets_bounds in Hq. apply Hb1 in Hq1. lia.
Qed.

Fixpoint all_exprs (P : expr -> Prop) (es : exprs) : Prop :=
  match es with
  | ENil => True
  | ECons e r => P e /\ all_exprs P r
  end.

(** the second pass: the targets are walked; the plain names were resolved by the first pass *)
Lemma pass2 : forall vs, all_exprs P_expr vs -> forall o st r pend,
  Inv st o (map fst (targets vs o) ++ pend) -> pend_out pend o (o + len_exprs vs) ->
  (vs <> ENil -> o + len_exprs vs <= top_end (st_z st)) -> R (st_z st) r ->
  Forall (tgt_ok st r) (targets vs o) ->
  exists cs, Step st (walk_exprs vs o st) o (o + len_exprs vs) cs (ref_exprs r vs o) /\ Forall closure_node cs.
Proof.
  induction vs as [|v rest IH]; intros Hall o st r pend HI Hp He HR Htg.
  - exists []. split; [apply Step_refl|constructor].
  - destruct Hall as (IHv & Hall). specialize (He ltac:(discriminate)).
    cbn [walk_exprs ref_exprs targets] in *. rewrite len_exprs_cons in *. rewrite map_app, <- app_assoc in HI.
    set (o' := o + len_expr v + 2) in *.
    assert (Hlv : o + len_expr v <= top_end (st_z st)) by (destruct rest; lia).
    assert (Hb : forall q, In q (map fst (targets rest o')) -> o' <= q) by (intros q Hq; apply targets_bounds in Hq; lia).
    apply Forall_app in Htg. destruct Htg as (Htg1 & Htg2).
    (* the first target: a plain name was served by the first pass, anything else is walked as usual *)
    assert (H1 : exists cs1, Step st (walk_expr v o st) o (o + len_expr v) cs1 (ref_expr r v o) /\ Forall closure_node cs1).
    { destruct v as [n|x|e1 f1|f1 args|a1 b1|ps1 b1|n2|es2|e2 m2 args2];
        try (cbn [targets1 map app] in HI; apply (IHv o st r _ HI); [|exact Hlv|exact HR]; apply Forall_app; split;
             [apply Forall_forall; intros q Hq; specialize (Hb q Hq); right; unfold o' in Hb; lia
             |eapply pend_out_sub; [exact Hp|lia|destruct rest; lia]]).
      inversion Htg1 as [|? ? Hok _]; subst. pose proof (nlen_pos x) as Hx. cbn [walk_expr ref_expr len_expr].
      exists []. split; [|constructor].
      destruct Hok as [(Hg & d & Hl & Hc) | (m & Hg & Hkm & Hl & Hn)]; cbn [fst snd] in *.
      - rewrite (analyze_noop x o st d Hg Hl). apply Step_have_ref; [lia|]. rewrite Hl. exact Hc.
      - unfold analyze_name_expr. cbv zeta. rewrite Hg. apply Step_add_ref; [exact Hl|lia|].
        cbn [classify]. rewrite Hkm. symmetry. exact Hn. }
    destruct H1 as (cs1 & Hs1 & Hc1).
    destruct rest as [|v2 r2].
    + cbn [walk_exprs ref_exprs]. rewrite app_nil_r, N.add_0_r. exists cs1. split; assumption.
    + remember (ECons v2 r2) as rest eqn:Erest.
      destruct (chain st _ o (o + len_expr v) cs1 _ r _ o' HI Hs1 Hc1 HR ltac:(lia) ltac:(unfold o'; lia))
        as (HI1 & HR1 & Hte & _).
      assert (Hpast : Forall (fun q => q < o') (map fst (targets1 v o)))
        by (apply Forall_forall; intros q Hq; apply targets1_at in Hq; unfold o'; lia).
      destruct (IH Hall o' (walk_expr v o st) r pend (Inv_drop HI1 Hpast)) as (cs2 & Hs2 & Hc2).
      * eapply pend_out_sub; [exact Hp|unfold o'; lia|unfold o'; lia].
      * intros _. rewrite Hte. unfold o'. lia.
      * exact HR1.
      * (* the first target was walked at other positions *)
        destruct Hs1 as [_ _ (ds1 & Hd1 & Hdb1) (rs1 & Hr1 & Hrb1) _].
        apply Forall_forall. intros px Hpx. rewrite Forall_forall in Htg2.
        specialize (Hb _ (in_map fst _ _ Hpx)). unfold o' in Hb.
        apply (tgt_ok_stable st _ r px ds1 rs1 (Htg2 px Hpx) Hd1); [|exact Hr1|];
          (eapply Forall_impl; [|eassumption]); cbv beta; intros; lia.
      * exists (cs1 ++ cs2). split; [|apply Forall_app; split; assumption].
        apply (Step_seq Hs1 Hs2); unfold o'; lia.
Qed.

Lemma sim_SAssign : forall vs es, all_exprs P_expr vs -> P_exprs es -> P_stat (SAssign vs es).
Proof.
  intros vs es Hall IHes o st r pend HI Hp Hk He HR.
  pose proof (Inv_nonempty HI) as Hne.
  set (L := len_stat (SAssign vs es)) in *.
  assert (HL : L = len_exprs vs + 3 + len_exprs es) by reflexivity.
  set (st1 := create_scope o (o + L) KLocalOrAssign st).
  destruct (open_scope L KLocalOrAssign o HI Hk He HR (N.le_refl o)) as (HI1 & HR1); [discriminate|].
  fold st1 in HI1, HR1.
  assert (Hk1 : top_kind (st_z st1) = KLocalOrAssign) by reflexivity.
  assert (Hte1 : top_end (st_z st1) = o + L) by reflexivity.
  destruct (pass1 vs o st1 r pend HI1) as (ms & rs & Has).
  { eapply pend_out_sub; [exact Hp|lia|lia]. }
  { exact Hk1. }
  { intros _. rewrite Hte1. lia. }
  { exact HR1. }
  set (st2 := analyze_assign_vars vs o st1) in *.
  set (T := map fst (targets vs o)).
  pose proof (as_z _ _ _ _ _ _ Has) as Hz2.
  pose proof (targets_bounds vs o) as HT.
  pose proof (assigned_Step o (o + len_exprs vs) Has HT) as Hs12.
  pose proof (Inv_pending HI1 Hk1 Has) as HI2. fold T in HI2, HT.
  assert (HR2 : R (st_z st2) r) by (rewrite Hz2; apply R_loa_children; [exact Hk1|exact HR1]).
  assert (Hte2 : top_end (st_z st2) = o + L) by (rewrite Hz2, top_end_add; exact Hte1).
  destruct (pass2 vs Hall o st2 r pend HI2) as (cs_v & Hs23 & Hcv).
  { eapply pend_out_sub; [exact Hp|lia|fold L; lia]. }
  { intros _. rewrite Hte2. lia. }
  { exact HR2. }
  { exact (as_ok _ _ _ _ _ _ Has). }
  set (st3 := walk_exprs vs o st2) in *.
  set (eo := o + len_exprs vs + 3).
  destruct (chain st2 st3 o (o + len_exprs vs) cs_v _ r (T ++ pend) eo HI2 Hs23 Hcv HR2 ltac:(lia) ltac:(unfold eo; lia))
    as (HI3' & HR3 & Hte3 & _).
  assert (HI3 : Inv st3 eo pend).
  { apply (Inv_drop HI3'). apply Forall_forall. intros q Hq. destruct (HT _ Hq). unfold eo. lia. }
  destruct (IHes eo st3 r pend HI3) as (cs_e & Hs34 & Hce).
  { eapply pend_out_sub; [exact Hp|unfold eo; lia|unfold eo; fold L; lia]. }
  { rewrite Hte3, Hte2. unfold eo. lia. }
  { exact HR3. }
  cbn [walk_stat ref_stat fst snd].
  exists [NScope KLocalOrAssign o (o + L) (map NDecl ms ++ cs_v ++ cs_e)]. split.
  - apply (Step_scope o (eo + len_exprs es)); [exact Hne| |lia|lia|unfold eo; lia].
    assert (H13 : Step st1 st3 o (o + len_exprs vs) (map NDecl ms ++ cs_v) (ref_exprs r vs o)).
    { apply (Step_seq_gen Hs12 Hs23); [constructor|lia..]. }
    rewrite app_assoc. apply (Step_seq H13 Hs34); unfold eo; lia.
  - apply (R_markers (st_z st) _ r (rev ms)); [exact HR| |].
    + apply Forall_rev. eapply Forall_impl; [|exact (as_ms _ _ _ _ _ _ Has)]. cbv beta. intros m (_ & H). exact H.
    + rewrite vis_add_normal by assumption. f_equal. rewrite all_contrib_one.
      cbn [contrib visit_child_scope node_kind node_children].
      rewrite !decls_of_app, decls_of_decls, (decls_of_closures cs_v Hcv), (decls_of_closures cs_e Hce), !app_nil_r. reflexivity.
Qed.

Lemma sim_BNil : P_block BNil.
Proof. intros o. apply simB_nil. Qed.

Lemma sim_BRet : forall es, P_exprs es -> P_block (BRet es).
Proof.
  intros es IHes o. destruct es as [|e1 es1].
  - apply simB_nil.
  - apply (simB_widen (simB_of_E (IHes (o + 7)))); cbn [len_block]; lia.
Qed.

Lemma sim_BCons : forall s b, P_stat s -> P_block b -> P_block (BCons s b).
Proof.
  intros s b IHs IHb o st r pend HI Hp Hk He HR.
  destruct (simB_seq (IHs o) (IHb (o + len_stat s + 1)) o (len_block (BCons s b))
              ltac:(lia) ltac:(lia) ltac:(cbn [len_block]; lia) st r pend HI Hp Hk He HR) as (cs & Hs & HRc).
  exists cs. cbn [walk_block ref_block]. cbv beta in Hs, HRc.
  destruct (ref_stat r s o) as (l1, r1). cbn [fst snd] in *.
  destruct (ref_block r1 b (o + len_stat s + 1)) as (l2, r2). split; assumption.
Qed.

Theorem sim_all :
  (forall e, P_expr e) /\ (forall es, P_exprs es /\ all_exprs P_expr es) /\ (forall s, P_stat s) /\
  (forall els, P_elifs els) /\ (forall b, P_block b).
Proof.
  apply syntax_mutind; intros; repeat match goal with H : _ /\ _ |- _ => destruct H end; cbn [all_exprs];
    auto using sim_ENum, sim_EName, sim_EIdx, sim_ECall, sim_EBin, sim_EFun, sim_EStr, sim_ETable, sim_EMeth,
      sim_ENil, sim_ECons, sim_SLocal, sim_SAssign, sim_SCall, sim_SLocalFun, sim_SFun, sim_SDo, sim_SWhile,
      sim_SRepeat, sim_SIf, sim_SFor, sim_SForIn, sim_SLabel, sim_SGoto, sim_SLocalAttr,
      sim_ElEnd, sim_ElElse, sim_ElIf, sim_BNil, sim_BRet, sim_BCons.
Qed.
