(** C13/Names.v — the printed names are pairwise different: [name_text] is injective, so comparing the names of the
    model (numbers) is comparing the identifiers of the printed program (texts). *)
From EV Require Import C13.Syntax.
From Coq Require Import String.
Local Open Scope N_scope.

(** value of a digit string *)
Definition dval (l : text) : N := fold_left (fun a c => a * 10 + (c - 48)) l 0.

Lemma dval_app1 : forall l c, dval (l ++ [c]) = dval l * 10 + (c - 48).
Proof. intros l c. unfold dval. rewrite fold_left_app. reflexivity. Qed.

Lemma pos_lt_pow : forall p, N.pos p < 2 ^ N.of_nat (Pos.size_nat p).
Proof.
  induction p as [p IH|p IH|]; cbn [Pos.size_nat]; rewrite ?Nat2N.inj_succ, ?N.pow_succ_r'.
  - change (N.pos p~1) with (2 * N.pos p + 1). lia.
  - change (N.pos p~0) with (2 * N.pos p). lia.
  - cbn. lia.
Qed.

Lemma N_lt_pow_size : forall n, n < 2 ^ N.of_nat (N.size_nat n).
Proof. intros [|p]; [cbn; lia|apply pos_lt_pow]. Qed.

Lemma dec_go_spec : forall fuel n acc, n < 2 ^ N.of_nat fuel ->
  exists ds, dec_go fuel n acc = ds ++ acc /\ dval ds = n.
Proof.
  induction fuel as [|f IH]; intros n acc Hn.
  - cbn in Hn. assert (n = 0) by lia. subst. exists []. split; reflexivity.
  - cbn [dec_go]. destruct (N.ltb_spec n 10) as [Hlt|Hge].
    + exists [48 + n mod 10]. split; [reflexivity|]. unfold dval. cbn [fold_left].
      rewrite (N.mod_small n 10 Hlt). lia.
    + rewrite Nat2N.inj_succ, N.pow_succ_r' in Hn.
      assert (Hd : n / 10 < 2 ^ N.of_nat f).
      { apply N.div_lt_upper_bound; [discriminate|]. remember (2 ^ N.of_nat f) as P eqn:EP. clear EP IH. lia. }
      destruct (IH (n / 10) ((48 + n mod 10) :: acc) Hd) as (ds & Hds & Hv).
      exists (ds ++ [48 + n mod 10]). split.
      * rewrite Hds, <- app_assoc. reflexivity.
      * rewrite dval_app1, Hv. replace (48 + n mod 10 - 48) with (n mod 10) by (generalize (n mod 10); intros; lia).
        rewrite (N.div_mod n 10) at 3 by discriminate. generalize (n / 10) (n mod 10). intros a b. lia.
Qed.

Lemma dec_inj : forall x y, dec x = dec y -> x = y.
Proof.
  intros x y H. unfold dec in H.
  destruct (dec_go_spec (S (N.size_nat x)) x []) as (dx & Hx & Vx).
  { rewrite Nat2N.inj_succ, N.pow_succ_r'. pose proof (N_lt_pow_size x). lia. }
  destruct (dec_go_spec (S (N.size_nat y)) y []) as (dy & Hy & Vy).
  { rewrite Nat2N.inj_succ, N.pow_succ_r'. pose proof (N_lt_pow_size y). lia. }
  rewrite Hx, Hy, !app_nil_r in H. subst dx. congruence.
Qed.

Lemma name_text_big : forall x, 7 <= x -> name_text x = str "v" ++ dec x.
Proof.
  intros x H. unfold name_text.
  destruct x as [|p]; [lia|].
  destruct p as [[[q|q|]|[q|q|]|]|[[q|q|]|[q|q|]|]|]; try reflexivity; lia.
Qed.

Lemma name_text_small : forall x, x < 7 ->
  exists c r, name_text x = c :: r /\ c <> 118.
Proof.
  intros x H.
  assert (Hx : x = 0 \/ x = 1 \/ x = 2 \/ x = 3 \/ x = 4 \/ x = 5 \/ x = 6) by lia.
  destruct Hx as [->|[->|[->|[->|[->|[->| ->]]]]]]; vm_compute; do 2 eexists; (split; [reflexivity|discriminate]).
Qed.

Theorem name_text_inj : forall x y, name_text x = name_text y -> x = y.
Proof.
  intros x y H.
  destruct (N.lt_ge_cases x 7) as [Hx|Hx], (N.lt_ge_cases y 7) as [Hy|Hy].
  - assert (Hxx : x = 0 \/ x = 1 \/ x = 2 \/ x = 3 \/ x = 4 \/ x = 5 \/ x = 6) by lia.
    assert (Hyy : y = 0 \/ y = 1 \/ y = 2 \/ y = 3 \/ y = 4 \/ y = 5 \/ y = 6) by lia.
    destruct Hxx as [->|[->|[->|[->|[->|[->| ->]]]]]]; destruct Hyy as [->|[->|[->|[->|[->|[->| ->]]]]]];
      try reflexivity; vm_compute in H; discriminate.
  - destruct (name_text_small x Hx) as (c & r & E & Hc). rewrite (name_text_big y Hy), E in H.
    vm_compute in H. injection H as H _. contradiction.
  - destruct (name_text_small y Hy) as (c & r & E & Hc). rewrite (name_text_big x Hx), E in H.
    cbn in H. injection H as H _. symmetry in H. contradiction.
  - rewrite (name_text_big x Hx), (name_text_big y Hy) in H. apply app_inv_head in H. apply dec_inj. exact H.
Qed.
