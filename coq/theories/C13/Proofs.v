(** C13/Proofs.v — the property theorems of C13, assembled from Facts (printer), Tree/Vis (stage 1) and Sim (stage 2). *)
From EV Require Import C13.Model C13.Facts C13.Names C13.Tree C13.Vis C13.Sim C13.Corr.
Local Open Scope N_scope.

Lemma ref_positions :
  (forall e r o, map fst (ref_expr r e o) = map fst (uses_expr e o)) /\
  (forall es r o, map fst (ref_exprs r es o) = map fst (uses_exprs es o)) /\
  (forall s r o, map fst (fst (ref_stat r s o)) = map fst (uses_stat s o)) /\
  (forall els r o, map fst (ref_elifs r els o) = map fst (uses_elifs els o)) /\
  (forall b r o, map fst (fst (ref_block r b o)) = map fst (uses_block b o)).
Proof.
  apply syntax_mutind; intros;
    cbn [ref_expr ref_exprs ref_stat ref_elifs ref_block uses_expr uses_exprs uses_stat uses_elifs uses_block fst snd map];
    try reflexivity;
    repeat match goal with
           | |- context [let '(_, _) := ?t in _] => destruct t eqn:?
           end;
    cbn [fst snd map]; rewrite ?map_app;
    repeat match goal with
           | H : forall r o, map fst (_ r _ o) = _ |- _ => rewrite H
           | H : forall r o, map fst (fst (_ r _ o)) = _ |- _ => rewrite H
           end;
    try reflexivity.
  - (* SRepeat *)
    match goal with E : ref_block ?r ?b ?o = (?l, _) |- _ =>
      replace l with (fst (ref_block r b o)) by (rewrite E; reflexivity) end.
    f_equal. auto.
  - (* BCons *)
    match goal with E1 : ref_stat ?r ?s ?o = (?l, _) |- _ =>
      replace l with (fst (ref_stat r s o)) by (rewrite E1; reflexivity) end.
    match goal with E2 : ref_block ?r ?b ?o = (?l, _) |- _ =>
      replace l with (fst (ref_block r b o)) by (rewrite E2; reflexivity) end.
    f_equal; auto.
Qed.

Lemma pop_scope_refs : forall st, st_refs (pop_scope st) = st_refs st.
Proof. intros st. unfold pop_scope. destruct (st_z st) as [|f [|g z]]; reflexivity. Qed.

Lemma res_list_eq : forall (F : N -> resolution) (L : list (N * resolution)) (us : list (N * name)),
  Forall (fun pr => F (fst pr) = snd pr) L -> map fst L = map fst us ->
  map (fun u => (fst u, F (fst u))) us = L.
Proof.
  intros F L. induction L as [|pr t IH]; intros us HF Hm.
  - destruct us; [reflexivity|discriminate].
  - destruct us as [|u us']; [discriminate|]. cbn [map] in *. injection Hm as H1 H2.
    inversion HF as [|? ? Hpr Ht]; subst. rewrite (IH us' Ht H2). rewrite <- H1, Hpr. destruct pr; reflexivity.
Qed.

Theorem impl_resolver_eq_reference : forall p : program, impl_resolve p = ref_resolve p.
Proof.
  intros p. unfold impl_resolve, ref_resolve, walk_program.
  destruct (has_items p) eqn:Eh.
  - set (n := len_block p).
    set (st0 := create_scope 0 n KNormal (mkState [] [] [] [])).
    set (stB := create_scope 0 n KNormal st0).
    assert (HI0 : Inv st0 0 []).
    { constructor; cbn [st0 create_scope st_z st_decls st_refs].
      - cbn [zinv f_kind f_start f_end f_children spine_ok]. unfold frame_before. cbn [f_kind kind_eqb f_children].
        split; [constructor|]. split; [lia|]. split; [intros E; discriminate|]. split; [intros E; discriminate|exact I].
      - constructor; [intros E; discriminate|constructor].
      - constructor.
      - constructor. }
    assert (HIB : Inv stB 0 []).
    { apply (Inv_create HI0); [lia|lia|cbn; lia|intros E; discriminate|intros E; discriminate]. }
    assert (HRB : R (st_z stB) []) by (intros x; reflexivity).
    destruct (proj2 (proj2 (proj2 (proj2 sim_all))) p 0 stB [] [] HIB) as (cs & Hs & _).
    + constructor.
    + reflexivity.
    + cbn. lia.
    + exact HRB.
    + fold n. fold st0. fold stB.
      apply res_list_eq.
      * pose proof (step_res _ _ _ _ _ _ Hs) as Hres. eapply Forall_impl; [|exact Hres]. cbv beta.
        intros pr (_ & _ & H). unfold impl_at. rewrite pop_scope_refs. exact H.
      * apply (proj2 (proj2 (proj2 (proj2 ref_positions)))).
  - destruct p; try discriminate. reflexivity.
Qed.

Theorem impl_resolver_eq_reference_at : forall (p : program) (u : N) (x : name),
  In (u, x) (uses_block p 0) ->
  exists res, In (u, res) (ref_resolve p) /\ impl_at (walk_program p) u = res /\ In (u, res) (impl_resolve p).
Proof.
  intros p u x Hin. exists (impl_at (walk_program p) u).
  assert (H : In (u, impl_at (walk_program p) u) (impl_resolve p)).
  { unfold impl_resolve. apply in_map_iff. exists (u, x). split; [reflexivity|exact Hin]. }
  split; [rewrite <- impl_resolver_eq_reference; exact H|]. split; [reflexivity|exact H].
Qed.

Theorem printer_positions_exact :
  (forall e, tlen (pr_expr e) = len_expr e) /\
  (forall es, tlen (pr_exprs es) = len_exprs es) /\
  (forall s, tlen (pr_stat s) = len_stat s) /\
  (forall els, tlen (pr_elifs els) = len_elifs els) /\
  (forall b, tlen (pr_block b) = len_block b).
Proof. exact len_ok. Qed.

Definition name_text_injective := Names.name_text_inj.

(** non-vacuity: shadowing, [local x = x], a duplicate name in one [local], a numeric for whose header names the
    loop variable, a closure in a for header, repeat-until with an empty body and with a local, a method *)
Example resolver_example :
  let p :=
    BCons (SLocal [0; 0] (ECons (ENum 1) (ECons (ENum 2) ENil)))                         (* local a, a = 1, 2 *)
   (BCons (SLocal [0] (ECons (EName 0) ENil))                                            (* local a = a *)
   (BCons (SFor 5 (ECons (EName 5) (ECons (ECall (EFun [] (BRet (ECons (EName 5) ENil))) ENil) ENil))
                (BCons (SCall (EName 3) (ECons (EName 5) ENil)) BNil))                   (* for i = i, (function() return i end)() do f(i) end *)
   (BCons (SRepeat BNil (ECall (EName 3) (ECons (EFun [0] BNil) (ECons (EName 0) ENil))))  (* repeat until f(function(a) end, a) *)
   (BCons (SRepeat (BCons (SLocal [1] ENil) BNil) (EName 1))                             (* repeat local b until b *)
   (BCons (SFun 0 [1] (Some 2) [1] (BCons (SAssign (ECons (EIdx (EName 4) 1) ENil) (ECons (EName 1) ENil)) BNil))
                                                                                          (* function a.b:c(b) self.b = b end *)
   (BCons (SAssign (ECons (EName 2) ENil) (ECons (EName 1) ENil)) BNil)))))) in          (* c = b *)
  agree p = true
  /\ impl_resolve p =
     [(28, Some 9);      (* the a of [local a = a] is the SECOND a of [local a, a] *)
      (38, None);        (* the header i of the numeric for is a global *)
      (60, None);        (* and so is the i inside the closure of the header *)
      (72, None); (74, Some 34);   (* f is a global; the i of the body is the loop variable *)
      (94, None); (113, Some 24);  (* the a after the closure of the until condition is the local a, not the parameter *)
      (137, Some 129);   (* until sees the local b of the repeat body *)
      (148, Some 24); (157, Some 151); (166, Some 154);   (* a; the implicit self at the colon; the parameter b *)
      (172, None); (176, None)].                         (* c, and b (the repeat's local is out of scope) *)
Proof. vm_compute. repeat split; reflexivity. Qed.
