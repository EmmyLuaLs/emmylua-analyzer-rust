(** C13/Facts.v — the length functions of Syntax.v are the lengths of the printed texts. *)
From EV Require Import C13.Syntax.
From Coq Require Import String.
Local Open Scope N_scope.

Lemma tlen_app : forall a b : text, tlen (a ++ b) = tlen a + tlen b.
Proof. intros. unfold tlen. rewrite app_length. lia. Qed.

Lemma len_names_ok : forall xs, tlen (pr_names xs) = len_names xs.
Proof.
  induction xs as [|x r IH]; [reflexivity|].
  cbn [pr_names len_names]. rewrite tlen_app. fold (nlen x).
  destruct r as [|y r']; [reflexivity|].
  rewrite tlen_app, IH. reflexivity.
Qed.

Lemma len_fields_ok : forall fs, tlen (pr_fields fs) = len_fields fs.
Proof.
  induction fs as [|f r IH]; [reflexivity|].
  cbn [pr_fields len_fields]. rewrite !tlen_app, IH. fold (nlen f).
  change (tlen (str ".")) with 1. lia.
Qed.

Lemma len_meth_ok : forall m, tlen (pr_meth m) = len_meth m.
Proof.
  destruct m as [m|]; [|reflexivity].
  cbn [pr_meth len_meth]. rewrite tlen_app. reflexivity.
Qed.

Lemma lpar_len : forall e, tlen (lpar e) = paren e.
Proof. intros e. unfold lpar, paren. destruct (is_prefix e); reflexivity. Qed.
Lemma rpar_len : forall e, tlen (rpar e) = paren e.
Proof. intros e. unfold rpar, paren. destruct (is_prefix e); reflexivity. Qed.

Ltac len_norm :=
  repeat rewrite tlen_app;
  repeat rewrite len_names_ok; repeat rewrite len_fields_ok; repeat rewrite len_meth_ok;
  repeat rewrite lpar_len; repeat rewrite rpar_len;
  repeat match goal with
         | |- context [tlen (str ?s)] => let v := eval vm_compute in (tlen (str s)) in change (tlen (str s)) with v
         end.

Lemma len_opt_ok : forall es (sep : text), tlen (pr_exprs es) = len_exprs es ->
  tlen (match es with ENil => [] | _ => sep ++ pr_exprs es end)
  = match es with ENil => 0 | _ => tlen sep + len_exprs es end.
Proof. intros [|e r] sep H; [reflexivity|]. rewrite tlen_app, H. reflexivity. Qed.

Lemma len_ok :
  (forall e, tlen (pr_expr e) = len_expr e) /\
  (forall es, tlen (pr_exprs es) = len_exprs es) /\
  (forall s, tlen (pr_stat s) = len_stat s) /\
  (forall els, tlen (pr_elifs els) = len_elifs els) /\
  (forall b, tlen (pr_block b) = len_block b).
Proof.
  apply syntax_mutind; intros;
    cbn [pr_expr pr_exprs pr_stat pr_elifs pr_block len_expr len_exprs len_stat len_elifs len_block];
    try reflexivity.
  all: try destruct cl; len_norm; rewrite ?len_opt_ok by assumption; len_norm;
    rewrite ?H, ?H0, ?H1; unfold nlen, numlen; lia.
Qed.
