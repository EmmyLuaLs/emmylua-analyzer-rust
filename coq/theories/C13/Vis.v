(** C13/Vis.v — stage 1b: the enumeration of the real traversal finds the same declaration as the
    duplicate-free enumeration [vis_entry] of the open scopes; how [vis_entry] changes when scopes are opened,
    filled and closed. *)
From EV Require Import C13.Model C13.Tree.
Local Open Scope N_scope.

Lemma find_name_app : forall x a b,
  find_name x (a ++ b) = match find_name x a with Some d => Some d | None => find_name x b end.
Proof. intros x a b. apply find_app. Qed.

Lemma find_name_none_incl : forall x a d, find_name x a = None -> incl d a -> find_name x d = None.
Proof.
  intros x a d Ha Hin. unfold find_name in *.
  destruct (find (fun d0 => d_name d0 =? x) d) as [e|] eqn:E; [|reflexivity].
  apply find_some in E. destruct E as (E1 & E2).
  pose proof (find_none _ _ Ha e (Hin e E1)) as Hn. cbv beta in Hn. congruence.
Qed.

Lemma find_drop_dup : forall x A D rest,
  incl D A -> find_name x (A ++ D ++ rest) = find_name x (A ++ rest).
Proof.
  intros x A D rest Hin. rewrite !find_name_app.
  destruct (find_name x A) eqn:E; [reflexivity|].
  rewrite (find_name_none_incl x A D E Hin). reflexivity.
Qed.

Lemma find_name_prefix : forall x A l l',
  find_name x l = find_name x l' -> find_name x (A ++ l) = find_name x (A ++ l').
Proof. intros. rewrite !find_name_app. destruct (find_name x A); [reflexivity|assumption]. Qed.

Lemma decls_incl_contrib : forall cs, incl (decls_of cs) (all_contrib cs).
Proof.
  induction cs as [|c r IH]; [intros a Ha; destruct Ha|].
  change (c :: r) with ([c] ++ r). rewrite decls_of_app, all_contrib_app, all_contrib_one.
  apply incl_app.
  - destruct c as [d|k s e cs']; intros a Ha; cbn in Ha.
    + destruct Ha as [<-|[]]. apply in_or_app. right. simpl. auto.
    + destruct Ha.
  - apply incl_appl. exact IH.
Qed.

Fixpoint vis_up (h : frame) (z : list frame) : list decl :=
  match z with
  | [] => []
  | g :: z' =>
      if kind_eqb (f_kind g) KForRange && kind_eqb (f_kind h) KClosure then vis_up g z'
      else
        match f_kind g with
        | KLocalOrAssign => vis_up g z'
        | KRepeat =>
            match f_children g with [] => [] | c :: _ => body_contrib c end
            ++ all_contrib (f_children g) ++ vis_up g z'
        | _ => all_contrib (f_children g) ++ vis_up g z'
        end
  end.

Definition vis_entry (z : list frame) : list decl :=
  match z with
  | [] => []
  | f :: z' =>
      match f_kind f with
      | KLocalOrAssign | KForRange => vis_up f z'
      | KRepeat =>
          match get_repeat_body (frame_node f) with
          | Some b => all_contrib (node_children b) ++ all_contrib (f_children f) ++ vis_up f z'
          | None => vis_up f z'
          end
      | _ => all_contrib (f_children f) ++ vis_up f z'
      end
  end.

Lemma vis_up_kind : forall z h h', f_kind h = f_kind h' -> vis_up h z = vis_up h' z.
Proof. intros z h h' E. destruct z as [|g z']; [reflexivity|]. cbn [vis_up]. rewrite E. reflexivity. Qed.

Lemma contrib_open_nonfunc : forall h, is_func (f_kind h) = false -> contrib_open h = [].
Proof. intros h E. unfold contrib_open. rewrite E. reflexivity. Qed.

(** [A] is what the traversal has enumerated so far: whatever [real_up] repeats ([contrib_open h], [own_h]) is in
    it already, so dropping the repetition does not change the first match *)
Lemma real_up_equiv : forall z h own_h A x,
  incl (contrib_open h) A -> incl own_h A ->
  find_name x (A ++ real_up h own_h z) = find_name x (A ++ vis_up h z).
Proof.
  induction z as [|g z' IH]; intros h own_h A x Hco Hown; [reflexivity|].
  cbn [real_up vis_up].
  destruct (kind_eqb (f_kind g) KForRange && kind_eqb (f_kind h) KClosure) eqn:Efl.
  - apply andb_prop in Efl. destruct Efl as (Eg & _). apply kind_eqb_eq in Eg.
    apply IH; [|intros a Ha; destruct Ha].
    rewrite contrib_open_nonfunc by (rewrite Eg; reflexivity). intros a Ha; destruct Ha.
  - set (acg := all_contrib (f_children g)).
    assert (Hstep : forall P,
               find_name x ((A ++ P) ++ (contrib_open h ++ acg) ++ real_up g (contrib_open h ++ acg) z')
               = find_name x ((A ++ P) ++ acg ++ vis_up g z')).
    { intros P. rewrite <- (app_assoc (contrib_open h)).
      rewrite find_drop_dup by (apply incl_appl; exact Hco).
      rewrite !(app_assoc (A ++ P) acg).
      apply IH.
      - unfold contrib_open. destruct (is_func (f_kind g)).
        + apply incl_appr. apply decls_incl_contrib.
        + intros a Ha; destruct Ha.
      - apply incl_app; [apply incl_appl, incl_appl; exact Hco|apply incl_appr, incl_refl]. }
    destruct (f_kind g) eqn:Ekg.
    2: { (* Repeat *)
      destruct (f_children g) as [|c r] eqn:Ec.
      - cbn [app].
        assert (HB : incl (if kind_eqb (f_kind h) KClosure then [] else own_h) A).
        { destruct (kind_eqb (f_kind h) KClosure); [intros a Ha; destruct Ha|exact Hown]. }
        rewrite find_drop_dup by exact HB.
        specialize (Hstep []). rewrite (app_nil_r A) in Hstep. exact Hstep.
      - specialize (Hstep (body_contrib c)). rewrite <- !app_assoc in Hstep. rewrite <- !app_assoc. exact Hstep. }
    2: { (* LocalOrAssign *)
      apply IH; [|intros a Ha; destruct Ha].
      rewrite contrib_open_nonfunc by (rewrite Ekg; reflexivity). intros a Ha; destruct Ha. }
    all: specialize (Hstep []); rewrite (app_nil_r A) in Hstep; exact Hstep.
Qed.

Lemma real_entry_equiv : forall z x, find_name x (real_entry z) = find_name x (vis_entry z).
Proof.
  intros z x. destruct z as [|f z']; [reflexivity|]. cbn [real_entry vis_entry].
  assert (H0 : is_func (f_kind f) = false -> find_name x (real_up f [] z') = find_name x (vis_up f z')).
  { intros E. apply (real_up_equiv z' f [] [] x).
    - rewrite contrib_open_nonfunc by exact E. intros a Ha; destruct Ha.
    - intros a Ha; destruct Ha. }
  assert (Hown : find_name x (all_contrib (f_children f) ++ real_up f (all_contrib (f_children f)) z')
                 = find_name x (all_contrib (f_children f) ++ vis_up f z')).
  { apply real_up_equiv.
    - unfold contrib_open. destruct (is_func (f_kind f)); [apply decls_incl_contrib|intros a Ha; destruct Ha].
    - apply incl_refl. }
  destruct (f_kind f) eqn:Ek; try exact Hown; try (apply H0; reflexivity).
  (* Repeat *)
  destruct (get_repeat_body (frame_node f)) as [b|]; [|apply H0; reflexivity].
  cbv zeta.
  set (ob := all_contrib (node_children b)). set (own := all_contrib (f_children f)).
  rewrite <- (app_nil_r ob) at 1. rewrite <- app_assoc. cbn [app].
  change (ob ++ ob ++ own ++ real_up f own z') with (ob ++ ob ++ (own ++ real_up f own z')).
  rewrite find_drop_dup by apply incl_refl.
  rewrite !app_assoc. apply real_up_equiv.
  - rewrite contrib_open_nonfunc by (rewrite Ek; reflexivity). intros a Ha; destruct Ha.
  - apply incl_appr, incl_refl.
Qed.

(** Stage 1b: resolution against the tree of the moment is the first match in the visible declarations *)
Theorem find_local_decl_vis : forall z x p,
  zinv z p -> p < top_end z ->
  find_local_decl (plug z) x p = find_name x (vis_entry z).
Proof. intros. rewrite find_local_decl_zipper by assumption. apply real_entry_equiv. Qed.

Definition silent (c : node) : Prop := contrib c = [].

Lemma all_contrib_silent : forall cs, Forall silent cs -> all_contrib cs = [].
Proof.
  induction cs as [|c r IH]; intros H; [reflexivity|].
  inversion H as [|? ? Hc Hr]; subst. change (c :: r) with ([c] ++ r).
  rewrite all_contrib_app, all_contrib_one, (IH Hr), Hc. reflexivity.
Qed.

(** a Repeat frame holds the body block and the closures of the condition: nothing its parent could see *)
Definition repeat_silent (f : frame) : Prop := f_kind f = KRepeat -> Forall silent (f_children f).

Lemma body_contrib_first : forall f,
  match f_children f with [] => [] | c :: _ => body_contrib c end
  = match get_repeat_body (frame_node f) with Some b => all_contrib (node_children b) | None => [] end.
Proof.
  intros f. unfold get_repeat_body, frame_node. cbn [node_children].
  destruct (f_children f) as [|c r]; [reflexivity|].
  destruct c as [d|k s e cs]; [reflexivity|]. cbn [body_contrib].
  destruct (kind_eqb k KClosure); reflexivity.
Qed.

Lemma vis_up_push : forall n f z,
  repeat_silent f ->
  vis_up n (f :: z)
  = (if kind_eqb (f_kind f) KForRange && negb (kind_eqb (f_kind n) KClosure) then all_contrib (f_children f) else [])
    ++ vis_entry (f :: z).
Proof.
  intros n f z Hsil. cbn [vis_up vis_entry].
  destruct (f_kind f) eqn:Ek; cbn [kind_eqb andb app]; try reflexivity.
  - (* Repeat *)
    rewrite body_contrib_first.
    rewrite (all_contrib_silent (f_children f)) by (exact (Hsil Ek)).
    destruct (get_repeat_body (frame_node f)); reflexivity.
  - (* ForRange *)
    destruct (kind_eqb (f_kind n) KClosure); reflexivity.
Qed.

Definition with_children (f : frame) (cs : list node) : frame := mkFrame (f_kind f) (f_start f) (f_end f) cs.

Lemma vis_entry_add : forall f z new,
  f_kind f = KNormal \/ f_kind f = KClosure \/ f_kind f = KFuncStat \/ f_kind f = KMethodStat ->
  vis_entry (with_children f (f_children f ++ new) :: z) = all_contrib new ++ vis_entry (f :: z).
Proof.
  intros [k s e cs] z new Hk. unfold with_children. cbn [vis_entry f_kind f_children f_start f_end] in *.
  rewrite (vis_up_kind z (mkFrame k s e (cs ++ new)) (mkFrame k s e cs)) by reflexivity.
  rewrite all_contrib_app.
  destruct Hk as [E|[E|[E|E]]]; rewrite E; rewrite <- app_assoc; reflexivity.
Qed.

Lemma vis_entry_add_skip : forall f z new,
  f_kind f = KLocalOrAssign \/ f_kind f = KForRange ->
  vis_entry (with_children f (f_children f ++ new) :: z) = vis_entry (f :: z).
Proof.
  intros [k s e cs] z new Hk. unfold with_children. cbn [vis_entry f_kind f_children f_start f_end] in *.
  rewrite (vis_up_kind z (mkFrame k s e (cs ++ new)) (mkFrame k s e cs)) by reflexivity.
  destruct Hk as [E|E]; rewrite E; reflexivity.
Qed.

Lemma get_repeat_body_app : forall k s e cs new,
  cs <> [] -> get_repeat_body (NScope k s e (cs ++ new)) = get_repeat_body (NScope k s e cs).
Proof. intros k s e cs new H. destruct cs as [|c r]; [congruence|]. reflexivity. Qed.

(** closures added to a Repeat frame (the until condition) change nothing *)
Lemma vis_entry_add_repeat_silent : forall f z new,
  f_kind f = KRepeat -> Forall silent (f_children f) -> Forall silent new ->
  (f_children f = [] -> match new with NScope k _ _ _ :: _ => k = KClosure | _ => True end) ->
  vis_entry (with_children f (f_children f ++ new) :: z) = vis_entry (f :: z).
Proof.
  intros [k s e cs] z new Hk Hs Hn Hfirst. unfold with_children.
  cbn [vis_entry f_kind f_children f_start f_end frame_node] in *. subst k.
  rewrite (vis_up_kind z (mkFrame KRepeat s e (cs ++ new)) (mkFrame KRepeat s e cs)) by reflexivity.
  rewrite (all_contrib_silent (cs ++ new)) by (apply Forall_app; split; assumption).
  rewrite (all_contrib_silent cs) by assumption.
  destruct cs as [|c r].
  - cbn [app]. specialize (Hfirst eq_refl). unfold get_repeat_body. cbn [node_children].
    destruct new as [|c' r']; [reflexivity|].
    destruct c' as [d|k s' e' cs']; [reflexivity|]. rewrite Hfirst. reflexivity.
  - unfold get_repeat_body. cbn [node_children app]. reflexivity.
Qed.

(** the body block of a Repeat frame, once closed, makes its declarations visible to the until condition *)
Lemma vis_entry_repeat_body : forall f z s e cs,
  f_kind f = KRepeat -> f_children f = [] ->
  vis_entry (with_children f [NScope KNormal s e cs] :: z) = all_contrib cs ++ vis_entry (f :: z).
Proof.
  intros [k s0 e0 cs0] z s e cs Hk Hc. unfold with_children.
  cbn [vis_entry f_kind f_children f_start f_end frame_node] in *. subst k cs0.
  rewrite (vis_up_kind z (mkFrame KRepeat s0 e0 [NScope KNormal s e cs]) (mkFrame KRepeat s0 e0 [])) by reflexivity.
  cbn [get_repeat_body node_children kind_eqb].
  rewrite all_contrib_one. cbn [contrib visit_child_scope node_kind app]. reflexivity.
Qed.
