(** C13/Tree.v — stage 1 of the proof of C13: on the tree of the moment (a plugged zipper whose closed parts lie
    before the query position) [find_scope] returns the open scopes, and [visit_visible_decls] enumerates a list
    that no longer mentions positions ([real_entry]). *)
From EV Require Import C13.Model.
Local Open Scope N_scope.

Lemma rposition_app_false : forall f cs n,
  f n = false -> rposition f (cs ++ [n]) = rposition f cs.
Proof.
  induction cs as [|c r IH]; intros n Hn; cbn [app rposition].
  - rewrite Hn. reflexivity.
  - rewrite (IH n Hn). reflexivity.
Qed.

Lemma rposition_all : forall f cs,
  Forall (fun c => f c = true) cs -> cs <> [] -> rposition f cs = Some (pred (List.length cs)).
Proof.
  induction cs as [|c r IH]; intros Hall Hne; [congruence|].
  inversion Hall as [|? ? Hc Hr]; subst. cbn [rposition].
  destruct r as [|c' r'].
  - cbn. rewrite Hc. reflexivity.
  - rewrite (IH Hr) by congruence. reflexivity.
Qed.

Lemma find_app : forall A (f : A -> bool) a b,
  find f (a ++ b) = match find f a with Some v => Some v | None => find f b end.
Proof.
  intros A f a b. induction a as [|c t IH]; [reflexivity|].
  cbn [app find]. destruct (f c); [reflexivity|exact IH].
Qed.

Lemma find_none_all : forall A (f : A -> bool) l, Forall (fun a => f a = false) l -> find f l = None.
Proof. intros A f l H. induction H as [|a t Ha Ht IH]; [reflexivity|]. cbn [find]. rewrite Ha. exact IH. Qed.

Lemma kind_eqb_eq : forall a b, kind_eqb a b = true <-> a = b.
Proof. intros a b. destruct a, b; cbn; split; intro H; try reflexivity; try discriminate. Qed.

Lemma kind_eqb_refl : forall a, kind_eqb a a = true.
Proof. destruct a; reflexivity. Qed.

Lemma kind_eqb_neq : forall a b, a <> b -> kind_eqb a b = false.
Proof.
  intros a b H. destruct (kind_eqb a b) eqn:E; [|reflexivity]. apply kind_eqb_eq in E. contradiction.
Qed.

Definition all_contrib (cs : list node) : list decl := flat_map contrib (rev cs).

Lemma all_contrib_app : forall a b, all_contrib (a ++ b) = all_contrib b ++ all_contrib a.
Proof. intros. unfold all_contrib. rewrite rev_app_distr, flat_map_app. reflexivity. Qed.

Lemma all_contrib_nil : all_contrib [] = [].
Proof. reflexivity. Qed.

Lemma all_contrib_one : forall c, all_contrib [c] = contrib c.
Proof. intros. unfold all_contrib. cbn. apply app_nil_r. Qed.

Lemma decls_of_app : forall a b, decls_of (a ++ b) = decls_of a ++ decls_of b.
Proof. intros. unfold decls_of. apply flat_map_app. Qed.

Lemma search_all : forall k s e cs q,
  Forall (fun c => node_pos c < q) cs ->
  search_scope_children (NScope k s e cs) q = all_contrib cs.
Proof.
  intros k s e cs q H. unfold search_scope_children. cbn [node_children].
  destruct cs as [|c r]; [reflexivity|].
  rewrite rposition_all.
  - replace (S (pred (List.length (c :: r)))) with (List.length (c :: r)) by (cbn; lia).
    rewrite firstn_all. reflexivity.
  - eapply Forall_impl; [|exact H]. intros a Ha. cbv beta. apply N.ltb_lt. exact Ha.
  - congruence.
Qed.

Lemma search_last_excluded : forall k s e cs n q,
  Forall (fun c => node_pos c < q) cs -> q <= node_pos n ->
  search_scope_children (NScope k s e (cs ++ [n])) q = all_contrib cs.
Proof.
  intros k s e cs n q H Hn. unfold search_scope_children. cbn [node_children].
  rewrite rposition_app_false by (apply N.ltb_ge; exact Hn).
  destruct cs as [|c r]; [reflexivity|].
  rewrite rposition_all.
  - replace (S (pred (List.length (c :: r)))) with (List.length (c :: r) + 0)%nat by (cbn; lia).
    rewrite firstn_app_2. cbn [firstn]. rewrite app_nil_r. reflexivity.
  - eapply Forall_impl; [|exact H]. intros a Ha. cbv beta. apply N.ltb_lt. exact Ha.
  - congruence.
Qed.

Lemma search_last_included : forall k s e cs n q,
  Forall (fun c => node_pos c < q) cs -> node_pos n < q ->
  search_scope_children (NScope k s e (cs ++ [n])) q = contrib n ++ all_contrib cs.
Proof.
  intros k s e cs n q H Hn. rewrite search_all.
  - rewrite all_contrib_app, all_contrib_one. reflexivity.
  - apply Forall_app. split; [exact H|]. constructor; [exact Hn|constructor].
Qed.

Lemma search_last_silent : forall k s e cs n q,
  Forall (fun c => node_pos c < q) cs -> contrib n = [] ->
  search_scope_children (NScope k s e (cs ++ [n])) q = all_contrib cs.
Proof.
  intros k s e cs n q H Hn.
  destruct (N.lt_ge_cases (node_pos n) q) as [Hlt|Hge].
  - rewrite search_last_included by assumption. rewrite Hn. reflexivity.
  - apply search_last_excluded; assumption.
Qed.

Definition node_end (n : node) : N := match n with NDecl d => d_pos d + 1 | NScope _ _ e _ => e end.

Definition node_ok (n : node) : Prop :=
  match n with
  | NDecl _ => True
  | NScope _ _ e cs => Forall (fun c => node_pos c < e /\ node_end c <= e) cs
  end.

Definition before (b : N) (cs : list node) : Prop :=
  Forall (fun c => node_pos c < b /\ node_end c <= b /\ node_ok c /\ Forall node_ok (node_children c)) cs.

Definition scopes_before (b : N) (cs : list node) : Prop :=
  Forall (fun c => match c with NScope _ _ e _ => e <= b | NDecl _ => True end) cs.

Lemma before_mono : forall b b' cs, before b cs -> b <= b' -> before b' cs.
Proof.
  intros b b' cs H Hle. eapply Forall_impl; [|exact H]. cbv beta. intros a (H1 & H2 & H3).
  split; [lia|]. split; [lia|exact H3].
Qed.

Lemma before_pos : forall b cs, before b cs -> Forall (fun c => node_pos c < b) cs.
Proof. intros b cs H. eapply Forall_impl; [|exact H]. cbv beta. intros a (H1 & _). exact H1. Qed.

Lemma before_end : forall b cs, before b cs -> Forall (fun c => node_end c <= b) cs.
Proof. intros b cs H. eapply Forall_impl; [|exact H]. cbv beta. intros a (_ & H2 & _). exact H2. Qed.

Lemma before_app : forall b a c, before b a -> before b c -> before b (a ++ c).
Proof. intros. apply Forall_app. split; assumption. Qed.

Lemma before_scopes : forall b cs, before b cs -> scopes_before b cs.
Proof.
  intros b cs H. eapply Forall_impl; [|exact H]. cbv beta. intros a (_ & H2 & _).
  destruct a; [exact I|exact H2].
Qed.

Lemma scopes_before_mono : forall b b' cs, scopes_before b cs -> b <= b' -> scopes_before b' cs.
Proof.
  intros b b' cs H Hle. eapply Forall_impl; [|exact H]. cbv beta. intros a Ha. destruct a; [exact I|lia].
Qed.

Definition is_func (k : kind) : bool := match k with KFuncStat | KMethodStat => true | _ => false end.

Definition repeat_first_ok (cs : list node) : Prop :=
  match cs with
  | NScope k _ _ _ :: _ => k = KNormal \/ k = KClosure
  | _ => True
  end.

(** the children of an open scope lie before [b]; the declarations of a local/assignment statement are never
    searched from inside it (its targets may declare globals at later positions), only its closures matter *)
Definition frame_before (b : N) (g : frame) : Prop :=
  if kind_eqb (f_kind g) KLocalOrAssign then scopes_before b (f_children g) else before b (f_children g).

Lemma frame_before_scopes : forall b g, frame_before b g -> scopes_before b (f_children g).
Proof. intros b g H. unfold frame_before in H. destruct (kind_eqb (f_kind g) KLocalOrAssign); [exact H|apply before_scopes; exact H]. Qed.

Lemma frame_before_all : forall b g, frame_before b g -> f_kind g <> KLocalOrAssign -> before b (f_children g).
Proof.
  intros b g H Hk. unfold frame_before in H. destruct (kind_eqb (f_kind g) KLocalOrAssign) eqn:E; [|exact H].
  destruct (f_kind g); try discriminate. congruence.
Qed.

Lemma frame_before_mono : forall b b' g, frame_before b g -> b <= b' -> frame_before b' g.
Proof.
  intros b b' g H Hle. unfold frame_before in *. destruct (kind_eqb (f_kind g) KLocalOrAssign).
  - eapply scopes_before_mono; eassumption.
  - eapply before_mono; eassumption.
Qed.

(** open frames below [h] (its ancestors): closed children lie before the open child, ranges nest *)
Fixpoint spine_ok (h : frame) (z : list frame) : Prop :=
  match z with
  | [] => True
  | g :: z' =>
      frame_before (f_start h) g /\
      f_start g <= f_start h /\ f_end h <= f_end g /\
      (is_func (f_kind g) = true -> f_start g < f_start h) /\
      (f_kind g = KRepeat ->
         (f_kind h = KNormal \/ f_kind h = KClosure) /\ repeat_first_ok (f_children g)) /\
      spine_ok g z'
  end.

Definition zinv (z : list frame) (q : N) : Prop :=
  match z with
  | [] => False
  | f :: z' =>
      frame_before q f /\ f_start f <= q /\
      (is_func (f_kind f) = true -> f_start f < q) /\
      (f_kind f = KRepeat -> repeat_first_ok (f_children f)) /\
      spine_ok f z'
  end.

Definition wrap (g : frame) (inner : node) : node :=
  NScope (f_kind g) (f_start g) (f_end g) (f_children g ++ [inner]).

Fixpoint chain_above (inner : node) (z : list frame) : list node :=
  match z with
  | [] => []
  | g :: z' => wrap g inner :: chain_above (wrap g inner) z'
  end.

Lemma plug_into_wrap : forall z inner g, plug_into inner (g :: z) = plug_into (wrap g inner) z.
Proof. reflexivity. Qed.

(** closed children that end before [p] are skipped by the descent of find_scope *)
Lemma fold_skip : forall (F : node -> list node) p acc cs rest,
  scopes_before p cs ->
  fold_right (fun c r => match c with
                         | NScope _ s e _ => if contains s e p then F c else r
                         | NDecl _ => r
                         end) acc (cs ++ rest)
  = fold_right (fun c r => match c with
                           | NScope _ s e _ => if contains s e p then F c else r
                           | NDecl _ => r
                           end) acc rest.
Proof.
  induction cs as [|c r IH]; intros rest H; [reflexivity|].
  inversion H as [|? ? Hc Hr]; subst. cbn [app fold_right]. rewrite (IH rest Hr).
  destruct c as [d|k s e cs']; [reflexivity|].
  unfold contains.
  replace (p <? e) with false by (symmetry; apply N.ltb_ge; exact Hc).
  rewrite andb_false_r. reflexivity.
Qed.

Lemma find_scope_wrap : forall g inner p acc,
  scopes_before p (f_children g) ->
  (exists k s e cs, inner = NScope k s e cs /\ contains s e p = true) ->
  find_scope_in (wrap g inner) p acc = find_scope_in inner p (wrap g inner :: acc).
Proof.
  intros g inner p acc Hc (k & s & e & cs & -> & Hin).
  unfold wrap. cbn [find_scope_in].
  rewrite (fold_skip (fun c => find_scope_in c p
             (NScope (f_kind g) (f_start g) (f_end g) (f_children g ++ [NScope k s e cs]) :: acc))) by exact Hc.
  cbn [fold_right]. rewrite Hin. reflexivity.
Qed.

Lemma fold_skip_all : forall (F : node -> list node) p acc cs,
  scopes_before p cs ->
  fold_right (fun c r => match c with
                         | NScope _ s e _ => if contains s e p then F c else r
                         | NDecl _ => r
                         end) acc cs = acc.
Proof.
  intros F p acc cs H. rewrite <- (app_nil_r cs). rewrite fold_skip by exact H. reflexivity.
Qed.

Lemma find_scope_top : forall k s e cs p acc,
  scopes_before p cs ->
  find_scope_in (NScope k s e cs) p acc = NScope k s e cs :: acc.
Proof.
  intros. cbn [find_scope_in].
  apply (fold_skip_all (fun c => find_scope_in c p (NScope k s e cs :: acc))). assumption.
Qed.

Fixpoint spine_contains (z : list frame) (p : N) : Prop :=
  match z with
  | [] => True
  | g :: z' => f_start g <= p /\ p < f_end g /\ spine_contains z' p
  end.

Lemma spine_contains_of : forall z h p,
  spine_ok h z -> f_start h <= p -> p < f_end h -> spine_contains z p.
Proof.
  induction z as [|g z' IH]; intros h p Hs H1 H2; cbn [spine_contains]; [exact I|].
  cbn [spine_ok] in Hs. destruct Hs as (_ & Hs1 & Hs2 & _ & _ & Hs').
  split; [lia|]. split; [lia|]. apply (IH g); [exact Hs'|lia|lia].
Qed.

Lemma find_scope_spine : forall z inner p acc h,
  spine_ok h z -> f_start h <= p -> p < f_end h ->
  (exists k s e cs, inner = NScope k s e cs /\ contains s e p = true) ->
  find_scope_in (plug_into inner z) p acc = find_scope_in inner p (chain_above inner z ++ acc).
Proof.
  induction z as [|g z' IH]; intros inner p acc h Hs H1 H2 Hin; [reflexivity|].
  cbn [spine_ok] in Hs. destruct Hs as (Hb & Hs1 & Hs2 & Hf & Hr & Hs').
  rewrite plug_into_wrap. cbn [chain_above].
  rewrite (IH (wrap g inner) p acc g); try assumption.
  - rewrite find_scope_wrap.
    + rewrite <- app_comm_cons. reflexivity.
    + apply frame_before_scopes in Hb. eapply scopes_before_mono; [exact Hb|lia].
    + exact Hin.
  - lia.
  - lia.
  - unfold wrap. do 4 eexists. split; [reflexivity|]. unfold contains.
    apply andb_true_intro. split; [apply N.leb_le; lia|apply N.ltb_lt; lia].
Qed.

Definition chain_of (f : frame) (z : list frame) : list node :=
  frame_node f :: chain_above (frame_node f) z.

Lemma find_scope_zipper : forall f z p,
  zinv (f :: z) p -> p < f_end f ->
  find_scope_in (plug_into (frame_node f) z) p [] = chain_of f z.
Proof.
  intros f z p (Hb & H1 & _ & _ & Hs) H2.
  rewrite (find_scope_spine z (frame_node f) p [] f); try assumption.
  - unfold frame_node. rewrite find_scope_top.
    + rewrite app_nil_r. reflexivity.
    + apply frame_before_scopes. exact Hb.
  - unfold frame_node. do 4 eexists. split; [reflexivity|]. unfold contains.
    apply andb_true_intro. split; [apply N.leb_le; lia|apply N.ltb_lt; lia].
Qed.

(** what the open child [h] contributes to the search of its parent ([visit_child_scope] of the plugged child):
    only a function statement contributes; a local/assignment statement is always left through its cutoff *)
Definition contrib_open (h : frame) : list decl :=
  if is_func (f_kind h) then decls_of (f_children h) else [].

Definition body_contrib (c : node) : list decl :=
  match c with
  | NScope k _ _ cs => if kind_eqb k KClosure then [] else all_contrib cs
  | NDecl _ => []
  end.

(** the enumeration above the open child [h].  [own_h] is what the search of [h] itself gave: a Repeat parent that
    has no closed child yet takes [h] for its body ([get_repeat_body]) and searches it a second time *)
Fixpoint real_up (h : frame) (own_h : list decl) (z : list frame) : list decl :=
  match z with
  | [] => []
  | g :: z' =>
      if kind_eqb (f_kind g) KForRange && kind_eqb (f_kind h) KClosure then real_up g [] z'
      else
        let own_g := contrib_open h ++ all_contrib (f_children g) in
        match f_kind g with
        | KLocalOrAssign => real_up g [] z'
        | KRepeat =>
            match f_children g with
            | [] => if kind_eqb (f_kind h) KClosure then [] else own_h
            | c :: _ => body_contrib c
            end ++ own_g ++ real_up g own_g z'
        | _ => own_g ++ real_up g own_g z'
        end
  end.

Definition real_entry (z : list frame) : list decl :=
  match z with
  | [] => []
  | f :: z' =>
      match f_kind f with
      | KLocalOrAssign | KForRange => real_up f [] z'
      | KRepeat =>
          match get_repeat_body (frame_node f) with
          | Some b =>
              let ob := all_contrib (node_children b) in
              let own := all_contrib (f_children f) in
              ob ++ (ob ++ own ++ real_up f own z')
          | None => real_up f [] z'
          end
      | _ => let own := all_contrib (f_children f) in own ++ real_up f own z'
      end
  end.

Lemma visit_child_scope_wrap : forall g inner,
  (exists k s e cs, inner = NScope k s e cs) ->
  f_kind g <> KLocalOrAssign ->
  visit_child_scope (wrap g inner) = contrib_open g.
Proof.
  intros g inner (k & s & e & cs & ->) Hk. unfold visit_child_scope, wrap, contrib_open. cbn [node_kind node_children].
  rewrite decls_of_app. cbn [decls_of flat_map]. rewrite !app_nil_r.
  destruct (f_kind g); cbn [is_func]; try reflexivity. congruence.
Qed.

Lemma visit_child_scope_frame : forall f,
  f_kind f <> KLocalOrAssign -> visit_child_scope (frame_node f) = contrib_open f.
Proof.
  intros f Hk. unfold visit_child_scope, frame_node, contrib_open. cbn [node_kind node_children].
  destruct (f_kind f); cbn [is_func]; try reflexivity. congruence.
Qed.

Lemma contrib_scope : forall n, (exists k s e cs, n = NScope k s e cs) -> contrib n = visit_child_scope n.
Proof. intros n (k & s & e & cs & ->). reflexivity. Qed.

(** body of a Repeat node: its first child, when that is a closed scope lying before [q] *)
Lemma body_search : forall c q,
  node_ok c -> node_end c <= q ->
  match c with
  | NScope k _ _ _ => if kind_eqb k KClosure then [] else search_scope_children c q
  | NDecl _ => []
  end = body_contrib c.
Proof.
  intros c q Hok He. destruct c as [d|k s e cs]; [reflexivity|].
  cbn [body_contrib]. destruct (kind_eqb k KClosure); [reflexivity|].
  apply search_all. cbn [node_ok] in Hok. cbn [node_end] in He.
  eapply Forall_impl; [|exact Hok]. cbv beta. intros a (Ha & _). lia.
Qed.

(** the traversal above an open child [h], plugged as [nh].  [q] is the position searched from ([f_start h] when
    [h] is a local/assignment statement: its cutoff); [flag] is the [entry] argument of [visit], which the kinds
    of [h] and its parent determine; [own_h] as in [real_up] *)
Lemma visit_up : forall z h nh q own_h fuel flag,
  spine_ok h z ->
  (exists s e cs, nh = NScope (f_kind h) s e cs) ->
  node_pos nh = f_start h ->
  (f_kind h <> KLocalOrAssign -> visit_child_scope nh = contrib_open h) ->
  (f_kind h = KLocalOrAssign -> q = f_start h) ->
  f_start h <= q ->
  (is_func (f_kind h) = true -> f_start h < q) ->
  (f_kind h = KNormal -> search_scope_children nh q = own_h) ->
  (2 * List.length z + 2 <= fuel)%nat ->
  match z with
  | g :: _ => flag = kind_eqb (f_kind g) KForRange && kind_eqb (f_kind h) KClosure
  | [] => True
  end ->
  visit fuel (chain_above nh z) q flag = real_up h own_h z.
Proof.
  induction z as [|g z' IH]; intros h nh q own_h fuel flag Hs Hnh Hpos Hvc Hcut Hle Hf Hown Hfuel Hflag.
  - cbn [chain_above real_up]. destruct fuel; reflexivity.
  - cbn [spine_ok] in Hs. destruct Hs as (Hb & Hs1 & Hs2 & Hfg & Hr & Hs').
    destruct Hnh as (sh & eh & csh & Hnh).
    assert (Hnhs : exists k s e cs, nh = NScope k s e cs) by (subst nh; do 4 eexists; reflexivity).
    destruct fuel as [|fuel']; [cbn in Hfuel; lia|].
    assert (Hfuel' : (2 * List.length z' + 2 <= fuel')%nat) by (cbn [List.length] in Hfuel; lia).
    set (m := wrap g nh).
    assert (Hm : exists s e cs, m = NScope (f_kind g) s e cs) by (unfold m, wrap; do 3 eexists; reflexivity).
    assert (Hmpos : node_pos m = f_start g) by reflexivity.
    assert (Hmk : node_kind m = f_kind g) by reflexivity.
    assert (Hnk : node_kind nh = f_kind h) by (subst nh; reflexivity).
    pose proof (frame_before_all _ g Hb) as Hbq0.
    assert (Hbq1 : f_kind g <> KLocalOrAssign -> Forall (fun c => node_pos c < q) (f_children g)).
    { intros Hk. specialize (Hbq0 Hk). apply before_pos in Hbq0. eapply Forall_impl; [|exact Hbq0]. cbv beta. intros a Ha. lia. }
    assert (Hown_g : f_kind g <> KLocalOrAssign ->
                     search_scope_children m q = contrib_open h ++ all_contrib (f_children g)).
    { intros Hkg. pose proof (Hbq1 Hkg) as Hbq. unfold m, wrap.
      destruct (kind_eqb (f_kind h) KLocalOrAssign) eqn:Eh.
      - (* arrived through the cutoff of a local/assignment statement: the statement itself is excluded *)
        apply kind_eqb_eq in Eh. unfold contrib_open. rewrite Eh. cbn [is_func app].
        apply search_last_excluded; [exact Hbq|]. rewrite Hpos, (Hcut Eh). apply N.le_refl.
      - assert (Hk : f_kind h <> KLocalOrAssign) by (intros E; rewrite E in Eh; discriminate).
        rewrite <- (Hvc Hk), <- (contrib_scope nh Hnhs).
        destruct (is_func (f_kind h)) eqn:Ef.
        + apply search_last_included; [exact Hbq|]. rewrite Hpos. apply Hf. reflexivity.
        + assert (Hs : contrib nh = [])
            by (rewrite (contrib_scope nh Hnhs), (Hvc Hk); unfold contrib_open; rewrite Ef; reflexivity).
          rewrite Hs. apply search_last_silent; assumption. }
    assert (Hvcm : f_kind g <> KLocalOrAssign -> visit_child_scope m = contrib_open g).
    { intros Hk. apply visit_child_scope_wrap; assumption. }
    cbn [chain_above real_up]. fold m.
    cbn [visit]. rewrite Hmk.
    assert (Hstep : forall own_g,
               (f_kind g = KNormal -> search_scope_children m q = own_g) ->
               f_kind g <> KLocalOrAssign ->
               match chain_above m z' with
               | [] => []
               | parent :: _ =>
                   visit fuel' (chain_above m z') q
                     (kind_eqb (node_kind parent) KForRange && kind_eqb (f_kind g) KClosure)
               end = real_up g own_g z').
    { intros own_g Hog Hk. destruct z' as [|g' z'']; [reflexivity|].
      cbn [chain_above]. cbn [node_kind wrap].
      change (wrap g' m :: chain_above (wrap g' m) z'') with (chain_above m (g' :: z'')).
      apply (IH g m q own_g fuel');
        [exact Hs'|exact Hm|exact Hmpos|exact Hvcm|intros E; contradiction|lia
        |intros E; specialize (Hfg E); lia|exact Hog|exact Hfuel'|reflexivity]. }
    (* a scope that is left without searching it: a local/assignment statement through its cutoff, a for statement
       entered from a closure of its header *)
    assert (Hskip : forall q',
               f_kind g = KLocalOrAssign /\ q' = f_start g \/ f_kind g = KForRange /\ f_start g <= q' ->
               match chain_above m z' with
               | [] => []
               | _ :: _ => visit fuel' (chain_above m z') q' false
               end = real_up g [] z').
    { intros q' Hq'. destruct z' as [|g' z'']; [reflexivity|].
      assert (Hkg : f_kind g = KLocalOrAssign \/ f_kind g = KForRange) by (destruct Hq' as [(E & _)|(E & _)]; auto).
      cbn [chain_above]. change (wrap g' m :: chain_above (wrap g' m) z'') with (chain_above m (g' :: z'')).
      apply (IH g m q' [] fuel'); [exact Hs'|exact Hm|exact Hmpos|exact Hvcm| | | | |exact Hfuel'|].
      - intros E. destruct Hq' as [(_ & Hq')|(E' & _)]; [exact Hq'|congruence].
      - destruct Hq' as [(_ & ->)|(_ & Hq')]; [apply N.le_refl|exact Hq'].
      - intros E. destruct Hkg as [E'|E']; rewrite E' in E; discriminate.
      - intros E. destruct Hkg; congruence.
      - destruct Hkg as [E'|E']; rewrite E'; symmetry; apply andb_false_r. }
    rewrite Hflag.
    destruct (kind_eqb (f_kind g) KForRange && kind_eqb (f_kind h) KClosure) eqn:Efl.
    + apply andb_prop in Efl. destruct Efl as (Eg & _). apply kind_eqb_eq in Eg.
      rewrite Eg. apply Hskip. right. split; [exact Eg|lia].
    + destruct (f_kind g) eqn:Ekg.
      2: { (* Repeat *)
        destruct Hr as (Hhk & Hfirst); [reflexivity|].
        rewrite (Hown_g ltac:(discriminate)).
        assert (Hbody : match get_repeat_body m with
                        | Some body => search_scope_children body q
                        | None => []
                        end = match f_children g with
                              | [] => if kind_eqb (f_kind h) KClosure then [] else own_h
                              | c :: _ => body_contrib c
                              end).
        { unfold get_repeat_body, m, wrap. cbn [node_children].
          destruct (f_children g) as [|c r] eqn:Ec.
          - cbn [app]. rewrite Hnh. destruct (kind_eqb (f_kind h) KClosure) eqn:Eh; [reflexivity|].
            rewrite <- Hnh. apply Hown. destruct Hhk as [E|E]; [exact E|]. rewrite E in Eh. discriminate.
          - cbn [app]. pose proof (Hbq0 ltac:(discriminate)) as Hb'.
            inversion Hb' as [|? ? (Hc1 & Hc2 & Hc3 & _) Hrest]; subst.
            rewrite <- (body_search c q Hc3) by lia.
            destruct c as [d|k s e cs]; [reflexivity|].
            destruct (kind_eqb k KClosure); reflexivity. }
        rewrite Hbody. f_equal. f_equal. apply Hstep; discriminate. }
      2: { (* LocalOrAssign *) apply Hskip. left. split; reflexivity. }
      (* the other kinds *)
      all: rewrite (Hown_g ltac:(discriminate)); f_equal;
        apply Hstep; [intros _; apply Hown_g; discriminate|discriminate].
Qed.

Lemma chain_above_length : forall z inner, List.length (chain_above inner z) = List.length z.
Proof. induction z as [|g z' IH]; intros inner; [reflexivity|]. cbn [chain_above List.length]. rewrite IH. reflexivity. Qed.

Lemma visit_entry : forall f z p fuel,
  zinv (f :: z) p ->
  (2 * List.length z + 6 <= fuel)%nat ->
  visit fuel (chain_of f z) p true = real_entry (f :: z).
Proof.
  intros f z p fuel (Hb & H1 & Hf & Hrep & Hs) Hfuel.
  unfold chain_of.
  destruct fuel as [|fuel']; [lia|].
  assert (Hfn : exists s e cs, frame_node f = NScope (f_kind f) s e cs) by (unfold frame_node; do 3 eexists; reflexivity).
  assert (Hpos : node_pos (frame_node f) = f_start f) by reflexivity.
  assert (Hvc : f_kind f <> KLocalOrAssign -> visit_child_scope (frame_node f) = contrib_open f)
    by (apply visit_child_scope_frame).
  pose proof (frame_before_all _ f Hb) as Hb0.
  assert (Hown : f_kind f <> KLocalOrAssign -> search_scope_children (frame_node f) p = all_contrib (f_children f)).
  { intros Hk. unfold frame_node. apply search_all. apply before_pos. apply Hb0. exact Hk. }
  assert (Hstep : forall own fl, (2 * List.length z + 2 <= fl)%nat ->
             (f_kind f = KNormal -> own = all_contrib (f_children f)) ->
             f_kind f <> KLocalOrAssign ->
             match chain_above (frame_node f) z with
             | [] => []
             | parent :: _ =>
                 visit fl (chain_above (frame_node f) z) p
                   (kind_eqb (node_kind parent) KForRange && kind_eqb (f_kind f) KClosure)
             end = real_up f own z).
  { intros own fl Hfl Ho Hk. destruct z as [|g z']; [reflexivity|].
    cbn [chain_above node_kind wrap].
    change (wrap g (frame_node f) :: chain_above (wrap g (frame_node f)) z') with (chain_above (frame_node f) (g :: z')).
    apply (visit_up (g :: z') f (frame_node f) p own fl);
      [exact Hs|exact Hfn|exact Hpos|exact Hvc|intros E; contradiction|exact H1|exact Hf
      |intros E; rewrite (Ho E); apply Hown; exact Hk|exact Hfl|reflexivity]. }
  (* a local/assignment statement is left through its cutoff, a for statement without its loop variables *)
  assert (Hskip : forall q',
             f_kind f = KLocalOrAssign /\ q' = f_start f \/ f_kind f = KForRange /\ q' = p ->
             match chain_above (frame_node f) z with
             | [] => []
             | _ :: _ => visit fuel' (chain_above (frame_node f) z) q' false
             end = real_up f [] z).
  { intros q' Hq'. destruct z as [|g z']; [reflexivity|].
    assert (Hkf : f_kind f = KLocalOrAssign \/ f_kind f = KForRange) by (destruct Hq' as [(E & _)|(E & _)]; auto).
    cbn [chain_above].
    change (wrap g (frame_node f) :: chain_above (wrap g (frame_node f)) z') with (chain_above (frame_node f) (g :: z')).
    apply (visit_up (g :: z') f (frame_node f) q' [] fuel');
      [exact Hs|exact Hfn|exact Hpos|exact Hvc| | | | |cbn [List.length] in *; lia|].
    - intros E. destruct Hq' as [(_ & Hq')|(E' & _)]; [exact Hq'|congruence].
    - destruct Hq' as [(_ & ->)|(_ & ->)]; [apply N.le_refl|exact H1].
    - intros E. destruct Hkf as [E'|E']; rewrite E' in E; discriminate.
    - intros E. destruct Hkf; congruence.
    - destruct Hkf as [E'|E']; rewrite E'; symmetry; apply andb_false_r. }
  cbn [visit]. change (node_kind (frame_node f)) with (f_kind f).
  destruct (f_kind f) eqn:Ek; cbn [real_entry]; rewrite Ek.
  2: { (* Repeat *)
    specialize (Hrep eq_refl).
    destruct (get_repeat_body (frame_node f)) as [b|] eqn:Eb.
    + assert (Hbody : exists s e cs, b = NScope KNormal s e cs /\ f_children f = b :: tl (f_children f)).
      { unfold get_repeat_body, frame_node in Eb. cbn [node_children] in Eb.
        destruct (f_children f) as [|c r]; [discriminate|].
        destruct c as [d|k s e cs]; [discriminate|].
        cbn [repeat_first_ok] in Hrep.
        destruct (kind_eqb k KClosure) eqn:Ec; [discriminate|].
        injection Eb as <-. destruct Hrep as [->| ->]; [|discriminate].
        do 3 eexists. split; reflexivity. }
      destruct Hbody as (sb & eb & csb & -> & Hch).
      assert (Hbb : node_ok (NScope KNormal sb eb csb) /\ eb <= p).
      { pose proof (Hb0 ltac:(discriminate)) as Hb'. rewrite Hch in Hb'.
        inversion Hb' as [|? ? (Hc1 & Hc2 & Hc3 & _) Hrest]; subst. split; [exact Hc3|exact Hc2]. }
      destruct Hbb as (Hbok & Hbe).
      assert (Hsb : search_scope_children (NScope KNormal sb eb csb) p = all_contrib csb).
      { apply search_all. cbn [node_ok] in Hbok. eapply Forall_impl; [|exact Hbok]. cbv beta. intros a (Ha & _). lia. }
      destruct fuel' as [|fuel'']; [lia|]. cbn [visit node_kind]. rewrite Hsb. cbn [node_children].
      f_equal.
      destruct fuel'' as [|fuel3]; [lia|]. cbn [visit]. change (node_kind (frame_node f)) with (f_kind f).
      rewrite Ek. cbn [kind_eqb andb]. rewrite Eb. rewrite Hsb, Hown by discriminate. f_equal. f_equal.
      apply Hstep; [lia|discriminate|discriminate].
    + apply Hstep; [lia|discriminate|discriminate]. }
  2: { apply Hskip. left. split; reflexivity. }
  2: { apply Hskip. right. split; reflexivity. }
  all: rewrite Hown by discriminate; f_equal; apply Hstep; [lia|reflexivity|discriminate].
Qed.

Definition find_name (x : name) (l : list decl) : option decl := find (fun d => d_name d =? x) l.

Definition top_end (z : list frame) : N := match z with f :: _ => f_end f | [] => 0 end.

(** Stage 1: [find_local_decl] on the tree of the moment *)
Theorem find_local_decl_zipper : forall z x p,
  zinv z p -> p < top_end z ->
  find_local_decl (plug z) x p = find_name x (real_entry z).
Proof.
  intros z x p Hz Hp. destruct z as [|f z']; [destruct Hz|].
  cbn [plug top_end] in *. unfold find_local_decl.
  rewrite (find_scope_zipper f z' p Hz Hp).
  rewrite visit_entry; [reflexivity|exact Hz|].
  unfold visit_fuel, chain_of. cbn [List.length]. rewrite chain_above_length. lia.
Qed.
