(** C41/Props.v — property theorems only.

    The loop fragment: F of C15 plus [while c], [while true], [repeat .. until c], numeric [for] with literal bounds and
    [if c then .. break end]; the semantics [run] bounds every loop execution by [fuel] iterations (a run that exhausts it
    ends with [OStop false]; its trace is the prefix executed so far, so the statements below hold for such prefixes too;
    the same goes for runs ended by a failed assert, an error or a return, [OStop true]).
    Events carry a flag: [false] for probes that are not inside a loop body — the points "after a loop" C41 speaks about.

    The full statement — the target once the analyzer is repaired —

      loop_exit_sound : forall p x o fuel oc env' pos' tr,
        run o fuel p = (oc, env', pos', tr) ->
        forall id v, In (id, x, v, false) tr ->
          exists t, In (id, false, t) (infer_var p x) /\ has v t = true /\ has_tag (tag_of v) t = true

    is false of the faithful model because the code violates the property (refutations below; each is replayed on the real
    analyzer by the check).  What is proved is the same statement outside the decidable class [known_var]. *)
From Coq Require Import List NArith Bool Arith.
From EV Require Import C15.Model C15.Shape C41.Model C41.Proofs.
Import ListNotations.

(** Outside the known class, the type inferred for [x] at a point after the loops contains the type of every value [x] can
    hold there (in the property's words: every type a loop body can assign, and the pre-loop type when the body may run
    zero times). *)
Theorem loop_exit_sound_outside_known : forall p x o fuel oc env' pos' tr,
  known_var p x = false ->
  run o fuel p = (oc, env', pos', tr) ->
  forall id v, In (id, x, v, false) tr ->
    exists t, In (id, false, t) (infer_var p x) /\ has v t = true /\ has_tag (tag_of v) t = true.
Proof. exact Proofs.loop_exit_sound_outside_known. Qed.

(** [local x0 = nil; while not x0 do x0 = 's0' end; probe(x0)] terminates with a string in [x0]; the inferred type at the
    probe is [nil]. *)
Theorem while_exit_refuted : refutes witness_while 0 [] 5 0%N AStr.
Proof. exact Proofs.while_exit_refuted. Qed.

(** [local x0 = nil; for i = 1, 2 do if x0 == nil then x0 = 1 else x0 = 's0' end end; probe(x0)]: string at run time,
    [integer] inferred (only the first pass over the body is analysed). *)
Theorem first_pass_refuted : refutes witness_first_pass 0 [] 5 0%N AStr.
Proof. exact Proofs.first_pass_refuted. Qed.

(** [local x0 = 1; repeat if c0 then break end; x0 = true until type(x0) == "nil"; probe(x0)] with c0 = false, true:
    boolean at run time, [integer?] inferred (a break in a later iteration is not accounted for). *)
Theorem repeat_break_refuted : refutes witness_repeat_break 0 [false; true] 5 0%N ATrue.
Proof. exact Proofs.repeat_break_refuted. Qed.

(** non-vacuity of [loop_exit_sound_outside_known] *)
Example loops_example :
  let p := Proofs.example_loops in
  known_var p 0 = false /\ known_var p 1 = false /\
  map (fun '(id, il, t) => (id, il, map (fun v => has v t) [ANil; ANum; AStr; ATab])) (infer_var p 0 ++ infer_var p 1) =
    [(1%N, true, [false; false; true; true]); (2%N, false, [false; false; true; true]);
     (0%N, true, [true; true; false; false]); (3%N, false, [true; true; false; false])] /\
  map (fun '(id, _, v, il) => (id, v, il)) (snd (run (oracle_of [false; true; false; false; true]) 5 p)) =
    [(0%N, ANum, true); (1%N, AStr, true); (2%N, AStr, false); (3%N, ANum, false)].
Proof. exact Proofs.loops_example. Qed.
