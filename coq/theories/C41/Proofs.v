(** C41/Proofs.v — soundness outside the known class, from the simulation of C15, and the three refutations, by evaluation. *)
From Coq Require Import List NArith Bool Arith.
From EV Require Import C15.Model C15.Shape C15.TypeFacts C15.Sound C15.Proofs C41.Model.
Import ListNotations.

Theorem loop_exit_sound_outside_known : forall p x o fuel oc env' pos' tr,
  known_var p x = false ->
  run o fuel p = (oc, env', pos', tr) ->
  forall id v, In (id, x, v, false) tr ->
    exists t, In (id, false, t) (infer_var p x) /\ has v t = true /\ has_tag (tag_of v) t = true.
Proof.
  intros p x o fuel oc env' pos' tr Hk. apply run_sound. apply negb_false_iff. exact Hk.
Qed.

(** the refutations: a program inside the known class and a run of it that ends normally and reaches the probe with a value
    whose type tag no inferred type at that probe contains *)
Definition refutes (p : prog) (x : nat) (l : list bool) (fuel : nat) (id : N) (v : atom) : Prop :=
  known_var p x = true /\
  In (id, x, v, false) (snd (run (oracle_of l) fuel p)) /\
  fst (fst (fst (run (oracle_of l) fuel p))) = ONormal /\
  forall t, In (id, false, t) (infer_var p x) -> has_tag (tag_of v) t = false.

Lemma while_exit_refuted : refutes witness_while 0 [] 5 0%N AStr.
Proof.
  unfold refutes. split; [vm_compute; reflexivity|]. split; [vm_compute; left; reflexivity|]. split; [vm_compute; reflexivity|].
  intros t H. vm_compute in H. destruct H as [H|[]]. inversion H; subst. reflexivity.
Qed.

Lemma first_pass_refuted : refutes witness_first_pass 0 [] 5 0%N AStr.
Proof.
  unfold refutes. split; [vm_compute; reflexivity|]. split; [vm_compute; left; reflexivity|]. split; [vm_compute; reflexivity|].
  intros t H. vm_compute in H. destruct H as [H|[]]. inversion H; subst. reflexivity.
Qed.

Lemma repeat_break_refuted : refutes witness_repeat_break 0 [false; true] 5 0%N ATrue.
Proof.
  unfold refutes. split; [vm_compute; reflexivity|]. split; [vm_compute; left; reflexivity|]. split; [vm_compute; reflexivity|].
  intros t H. vm_compute in H. destruct H as [H|[]]. inversion H; subst. reflexivity.
Qed.

(** non-vacuity of the positive theorem: a program with all four loop forms and breaks that is outside the known class, and
    one run of it that reaches both probes after the loops *)
Definition example_loops : prog :=
  {| decls := [LNil; LInt 1];
     body := BCons (SWhileTrue (BCons (SAssign 0 (LStr 0)) (BCons (SBreakIf (COpq 0) BNil) (BCons (SAssign 0 (LTable 0)) BNil))))
            (BCons (SFor 1 2 (BCons (SIf (COpq 1) (BCons (SAssign 1 LNil) BNil) RNone) BNil))
            (BCons (SRepeat (BCons (SProbe 0 1) BNil) (CNeNil 0))
            (BCons (SWhile (CVar 1) (BCons (SProbe 1 0) (BCons (SBreakIf (COpq 2) BNil) BNil)))
            (BCons (SProbe 2 0) (BCons (SProbe 3 1) BNil))))) |}.

Lemma loops_example :
  let p := example_loops in
  known_var p 0 = false /\ known_var p 1 = false /\
  map (fun '(id, il, t) => (id, il, map (fun v => has v t) [ANil; ANum; AStr; ATab])) (infer_var p 0 ++ infer_var p 1) =
    [(1%N, true, [false; false; true; true]); (2%N, false, [false; false; true; true]);
     (0%N, true, [true; true; false; false]); (3%N, false, [true; true; false; false])] /\
  map (fun '(id, _, v, il) => (id, v, il)) (snd (run (oracle_of [false; true; false; false; true]) 5 p)) =
    [(0%N, ANum, true); (1%N, AStr, true); (2%N, AStr, false); (3%N, ANum, false)].
Proof. vm_compute. repeat split; reflexivity. Qed.
