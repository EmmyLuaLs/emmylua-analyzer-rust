(** Hash-set / hash-map iteration is an arbitrary permutation ([is_hasher]); the update driver and the
    per-workspace grouping of Model.v sort what they iterate, so their results do not depend on it. *)
From Coq Require Import List NArith Bool Lia Permutation Sorting.Sorted.
From EV Require Import Base.Perm Gen.C11_Sort C11.Model.
Import ListNotations.
Local Open Scope N_scope.

Lemma memN_In : forall x l, memN x l = true <-> In x l.
Proof.
  intros x l. unfold memN. rewrite existsb_exists. split.
  - intros (y & Hy & E). apply N.eqb_eq in E. subst. exact Hy.
  - intros H. exists x. split; [exact H|apply N.eqb_refl].
Qed.

Lemma memN_perm : forall x l l', Permutation l l' -> memN x l = memN x l'.
Proof.
  intros x l l' Hp. apply eq_true_iff_eq. rewrite !memN_In.
  split; apply Permutation_in; [|symmetry]; exact Hp.
Qed.

Lemma map_filter_comm : forall A B (g : A -> B) (p : B -> bool) l,
  map g (filter (fun x => p (g x)) l) = filter p (map g l).
Proof.
  induction l as [|x r IH]; cbn [filter map]; [reflexivity|].
  destruct (p (g x)); cbn [map]; rewrite IH; reflexivity.
Qed.

Lemma perm_short : forall A (l l' : list A), (length l <= 1)%nat -> Permutation l l' -> l = l'.
Proof.
  intros A [|a [|b r]] l' Hl Hp.
  - apply Permutation_nil in Hp. subst. reflexivity.
  - apply Permutation_length_1_inv in Hp. subst. reflexivity.
  - cbn in Hl. lia.
Qed.

Lemma sort_ids_perm : forall l l', NoDup l -> Permutation l l' -> sort_ids l = sort_ids l'.
Proof.
  intros l l' Hnd Hp. unfold sort_ids.
  apply (isort_perm_invariant _ _ (fun x : fid => x) N.compare N_total_order); [|exact Hp].
  rewrite map_id. exact Hnd.
Qed.

Lemma sort_ids_hasher : forall h s, is_hasher h -> NoDup s -> sort_ids (h s) = sort_ids s.
Proof.
  intros h s Hh Hnd. apply sort_ids_perm; [|apply Hh].
  eapply Permutation_NoDup; [apply Permutation_sym; apply Hh|exact Hnd].
Qed.

Lemma set_insert_nodup : forall x s, NoDup s -> NoDup (set_insert x s).
Proof.
  intros x s Hnd. unfold set_insert. destruct (memN x s) eqn:E; [exact Hnd|].
  eapply Permutation_NoDup; [apply Permutation_cons_append|].
  constructor; [|exact Hnd]. intros Hin. apply memN_In in Hin. congruence.
Qed.

Lemma collect_nodup : forall batch v rem upd v' r u,
  NoDup rem -> NoDup upd -> collect v batch rem upd = (v', r, u) -> NoDup r /\ NoDup u.
Proof.
  induction batch as [|[uu b] rest IH]; intros v rem upd v' r u Hr Hu H; cbn [collect] in H.
  - inversion H; subst. split; assumption.
  - destruct (set_file_content v uu b) as [v1 id].
    eapply IH; [| |exact H].
    + apply set_insert_nodup. exact Hr.
    + destruct b; [apply set_insert_nodup|]; exact Hu.
Qed.

Section DriverFacts.
  Variable S : Type.
  Variable remove_index : S -> list fid -> S.
  Variable analyze : S -> list fid -> S.

  Lemma driver_is_spec : forall h1 h2 v st batch,
    is_hasher h1 -> is_hasher h2 ->
    update_files_by_uri S remove_index analyze true true h1 h2 v st batch =
    update_files_spec S remove_index analyze v st batch.
  Proof.
    intros h1 h2 v st batch H1 H2. unfold update_files_by_uri, update_files_spec.
    destruct (collect v batch [] []) as [[v' rem] upd] eqn:E.
    destruct (collect_nodup _ _ _ _ _ _ _ (NoDup_nil _) (NoDup_nil _) E) as [Hr Hu].
    unfold arrange. rewrite (sort_ids_hasher h1 rem H1 Hr), (sort_ids_hasher h2 upd H2 Hu). reflexivity.
  Qed.

  Lemma driver_deterministic : forall h1 h2 h1' h2' v st batch,
    is_hasher h1 -> is_hasher h2 -> is_hasher h1' -> is_hasher h2' ->
    update_files_by_uri S remove_index analyze true true h1 h2 v st batch =
    update_files_by_uri S remove_index analyze true true h1' h2' v st batch.
  Proof.
    intros. rewrite !driver_is_spec; auto.
  Qed.
End DriverFacts.

(** the list handed to [update_index] is strictly ascending: it lists the updated files in registration order *)
Lemma update_order_ascending : forall S rm an h1 h2 v st batch v' st' ids,
  is_hasher h1 -> is_hasher h2 ->
  update_files_by_uri S rm an true true h1 h2 v st batch = (v', st', ids) ->
  StronglySorted N.lt ids.
Proof.
  intros S rm an h1 h2 v st batch v' st' ids H1 H2 H. rewrite driver_is_spec in H by assumption.
  unfold update_files_spec in H.
  destruct (collect v batch [] []) as [[v1 rem] upd] eqn:E. inversion H; subst.
  destruct (collect_nodup _ _ _ _ _ _ _ (NoDup_nil _) (NoDup_nil _) E) as [_ Hu].
  (* [ltk (fun x => x) N.compare] is [N.lt] *)
  apply (isort_sorted _ _ (fun x : fid => x) N.compare N_total_order). rewrite map_id. exact Hu.
Qed.

Lemma nodup_app : forall A (l1 l2 : list A),
  NoDup l1 -> NoDup l2 -> (forall x, In x l1 -> In x l2 -> False) -> NoDup (l1 ++ l2).
Proof.
  induction l1 as [|a r IH]; intros l2 H1 H2 Hd; cbn [app]; [exact H2|].
  inversion H1 as [|? ? Ha Hr]; subst. constructor.
  - intros Hin. apply in_app_or in Hin. destruct Hin as [Hin|Hin]; [contradiction|].
    apply (Hd a); [left; reflexivity|exact Hin].
  - apply IH; [exact Hr|exact H2|]. intros x Hx1 Hx2. apply (Hd x); [right; exact Hx1|exact Hx2].
Qed.

Section GroupingFacts.
  Variable file_ws : fid -> option ws.

  Lemma group_insert_keys : forall w f m x,
    In x (map fst (group_insert w f m)) <-> (w = x \/ In x (map fst m)).
  Proof.
    induction m as [|[w' l] r IH]; intros x; cbn [group_insert map fst In]; [tauto|].
    destruct (N.eqb_spec w' w) as [->|E]; cbn [map fst In]; [|rewrite IH]; tauto.
  Qed.

  Lemma group_insert_nodup : forall w f m, NoDup (map fst m) -> NoDup (map fst (group_insert w f m)).
  Proof.
    induction m as [|[w' l] r IH]; intros Hnd; cbn [group_insert map fst].
    - constructor; [intros []|constructor].
    - cbn [map fst] in Hnd. inversion Hnd as [|? ? Hx Hr]; subst.
      destruct (N.eqb_spec w' w) as [E|E]; cbn [map fst].
      + constructor; assumption.
      + constructor; [|apply IH; exact Hr].
        intros Hin. apply group_insert_keys in Hin. destruct Hin as [Hin|Hin]; [apply E; symmetry; exact Hin|apply Hx; exact Hin].
  Qed.

  Lemma build_map_nodup : forall files, NoDup (map fst (build_map file_ws files)).
  Proof.
    intros files. unfold build_map.
    assert (forall m, NoDup (map fst m) ->
            NoDup (map fst (fold_left (fun m f => match file_ws f with Some w => group_insert w f m | None => m end) files m))) as H.
    { induction files as [|f r IH]; intros m Hm; cbn [fold_left]; [exact Hm|].
      apply IH. destruct (file_ws f); [apply group_insert_nodup|]; exact Hm. }
    apply H. constructor.
  Qed.

  Lemma nodup_keys_filter : forall (q : ws -> bool) (m : list (ws * list fid)),
    NoDup (map fst m) -> NoDup (map fst (filter (fun e => q (fst e)) m)).
  Proof. intros q m H. rewrite (map_filter_comm _ _ fst q). apply NoDup_filter, H. Qed.

  (** the bucket that is NOT sorted holds the MAIN workspace only (constants regenerated from workspace.rs) *)
  Lemma main_bucket_is_main : forall w,
    negb (w =? ws_std) = true -> negb (is_library w || is_remote w) = true -> w = ws_main.
  Proof.
    intros w H1 H2. unfold is_library, is_remote, ws_std, ws_main, ws_remote, ws_library_start in *.
    apply negb_true_iff in H1. apply negb_true_iff in H2. apply orb_false_iff in H2. destruct H2 as [H2 H3].
    apply N.eqb_neq in H1. apply N.eqb_neq in H3. apply N.leb_gt in H2. lia.
  Qed.

  Lemma same_key_short : forall (k : ws) (m : list (ws * list fid)),
    NoDup (map fst m) -> (forall e, In e m -> fst e = k) -> (length m <= 1)%nat.
  Proof.
    intros k [|a [|b r]] Hnd Hk; cbn [length]; try lia.
    exfalso. cbn [map] in Hnd. inversion Hnd as [|? ? Hx _]; subst. apply Hx. left.
    rewrite (Hk a), (Hk b); [reflexivity|right; left; reflexivity|left; reflexivity].
  Qed.

  (** [module_analyze file_ws true h] on anything but a one-file list (that case does not iterate the map) *)
  Definition general_branch (h : list (ws * list fid) -> list (ws * list fid)) (files : list fid) : list (ws * list fid) :=
    let m := build_map file_ws files in
    let std := filter (fun e => fst e =? ws_std) m in
    let rest := h (filter (fun e => negb (fst e =? ws_std)) m) in
    let libs := filter (fun e => is_library (fst e) || is_remote (fst e)) rest in
    let mains := filter (fun e => negb (is_library (fst e) || is_remote (fst e))) rest in
    isort (fun e : ws * list fid => fst e) N.compare (std ++ libs) ++ mains.

  Lemma general_branch_canonical : forall h files,
    is_hasher h -> general_branch h files = general_branch (fun l => l) files.
  Proof.
    intros h files Hh. unfold general_branch. cbv zeta.
    set (m := build_map file_ws files).
    set (L := filter (fun e : ws * list fid => negb (fst e =? ws_std)) m).
    assert (NoDup (map fst m)) as Hm by apply build_map_nodup.
    assert (NoDup (map fst L)) as HL by exact (nodup_keys_filter (fun w => negb (w =? ws_std)) m Hm).
    f_equal; symmetry.
    - apply (isort_perm_invariant _ _ _ _ N_total_order);
        [|apply Permutation_app_head, perm_filter, Permutation_sym, Hh].
      rewrite map_app. apply nodup_app; [exact (nodup_keys_filter (fun w => w =? ws_std) m Hm)
                                       |exact (nodup_keys_filter (fun w => is_library w || is_remote w) _ HL)|].
      intros x Hx1 Hx2.
      apply in_map_iff in Hx1. destruct Hx1 as (e1 & <- & I1). apply filter_In, proj2, N.eqb_eq in I1.
      apply in_map_iff in Hx2. destruct Hx2 as (e2 & E2 & I2). apply filter_In, proj1, filter_In, proj2 in I2.
      apply negb_true_iff, N.eqb_neq in I2. exact (I2 (eq_trans E2 I1)).
    - apply perm_short; [|apply perm_filter, Permutation_sym, Hh].
      apply (same_key_short ws_main); [exact (nodup_keys_filter (fun w => negb (is_library w || is_remote w)) _ HL)|].
      intros e He. apply filter_In in He. destruct He as [He Hpm]. apply filter_In in He.
      apply main_bucket_is_main; tauto.
  Qed.

  Lemma general_branch_deterministic : forall h h' files,
    is_hasher h -> is_hasher h' -> general_branch h files = general_branch h' files.
  Proof.
    intros h h' files Hh Hh'. rewrite (general_branch_canonical h), (general_branch_canonical h'); auto.
  Qed.

  Lemma module_analyze_deterministic : forall h h' files,
    is_hasher h -> is_hasher h' ->
    module_analyze file_ws true h files = module_analyze file_ws true h' files.
  Proof.
    intros h h' files Hh Hh'.
    (* for zero or at least two files [module_analyze] unfolds to [general_branch] *)
    destruct files as [|f [|g r]]; [|reflexivity|].
    - exact (general_branch_deterministic h h' [] Hh Hh').
    - exact (general_branch_deterministic h h' (f :: g :: r) Hh Hh').
  Qed.
End GroupingFacts.

(** * refutation: without the sort two iteration orders give different diagnostics *)
Lemma rev_is_hasher : forall A, is_hasher (@rev A).
Proof. intros A l. apply Permutation_sym, Permutation_rev. Qed.

Lemma id_is_hasher : forall A, is_hasher (fun l : list A => l).
Proof. intros A l. apply Permutation_refl. Qed.

Lemma witness_runs :
  witness_run (fun l => l) = [(2, 1, 0)] /\ witness_run (@rev fid) = [(1, 0, 1)].
Proof. split; vm_compute; reflexivity. Qed.

Lemma driver_order_dependent_refuted :
  exists h h' : list fid -> list fid,
    is_hasher h /\ is_hasher h' /\ witness_run h <> witness_run h'.
Proof.
  exists (fun l => l), (@rev fid). split; [apply id_is_hasher|]. split; [apply rev_is_hasher|].
  destruct witness_runs as [-> ->]. discriminate.
Qed.
