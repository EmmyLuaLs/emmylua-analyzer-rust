(** C11/Pipeline.v — the composed analysis of one batch, and the witnesses of BestOrder *)
From Coq Require Import List NArith Bool Permutation.
From EV Require Import Base.Perm Gen.C11_Sort C11.Model C11.Proofs C11.BestOrder.
Import ListNotations.
Local Open Scope N_scope.

Section PipelineFacts.
  Variable S : Type.
  Variable file_ws : fid -> option ws.
  Variable step_list : S -> fid -> S.
  Variable step_lua : S -> fid -> S.
  Variable step_end : S -> list fid -> S.

  Lemma analyze_groups_ext : forall deps deps' metas metas',
    (forall l, best_order deps metas l = best_order deps' metas' l) ->
    forall gs st,
      analyze_groups S step_list step_lua step_end deps metas st gs =
      analyze_groups S step_list step_lua step_end deps' metas' st gs.
  Proof.
    intros deps deps' metas metas' H. induction gs as [|[w l] r IH]; intros st; cbn [analyze_groups]; [reflexivity|].
    unfold analyze_group. rewrite H. destruct (best_order deps' metas' l); [apply IH|reflexivity].
  Qed.

  Lemma pipeline_deterministic : forall hg hg' deps deps' metas metas' st ids ids',
    is_hasher hg -> is_hasher hg' ->
    NoDup ids -> Permutation ids ids' ->
    (forall f, Permutation (deps f) (deps' f)) -> Permutation metas metas' ->
    analyze_model S file_ws step_list step_lua step_end true hg deps metas st (sort_ids ids) =
    analyze_model S file_ws step_list step_lua step_end true hg' deps' metas' st (sort_ids ids').
  Proof.
    intros hg hg' deps deps' metas metas' st ids ids' Hg Hg' Hnd Hp Hd Hm. unfold analyze_model.
    rewrite (sort_ids_perm ids ids' Hnd Hp).
    rewrite (module_analyze_deterministic file_ws hg hg' (sort_ids ids') Hg Hg').
    apply analyze_groups_ext. intros l. apply best_order_ext; assumption.
  Qed.
End PipelineFacts.

(** two files requiring each other: the order of the pair is the INPUT order *)
Lemma best_order_cycle_input_order_refuted :
  exists (deps : fid -> list fid) (metas ids ids' : list fid),
    NoDup ids /\ Permutation ids ids' /\ best_order deps metas ids <> best_order deps metas ids'.
Proof.
  exists witness_deps, [], [0; 1; 2], [0; 2; 1]. split; [|split].
  - repeat constructor; cbn; intuition discriminate.
  - apply perm_skip. apply perm_swap.
  - vm_compute. discriminate.
Qed.

Lemma driver_example :
  let batch := [(7, true); (3, true); (7, false); (5, true); (3, true)] in
  update_files_by_uri (list (list fid)) (fun st _ => st) (fun st ids => st ++ [ids]) true true (@rev fid) (@rev fid) [] [] batch
  = ([(7, false); (3, true); (5, true)], [[1; 2]], [0; 1; 2])
  /\ recorded_orders 2 batch = [[0; 1; 2]; [1; 2]].
Proof. split; vm_compute; reflexivity. Qed.

Lemma best_order_example :
  (* 5 requires 3 and 1; 3 requires 1; 4 is a meta file; 8 and 9 require each other; 2 requires 8 *)
  let deps := fun f => if f =? 5 then [3; 1] else if f =? 3 then [1] else if f =? 8 then [9] else if f =? 9 then [8]
                       else if f =? 2 then [8] else [] in
  best_order deps [4] [9; 5; 2; 4; 3; 1; 8] = Some [4; 1; 3; 5; 9; 2; 8]
  /\ best_order deps [4] (sort_ids [9; 5; 2; 4; 3; 1; 8]) = Some [4; 1; 3; 5; 2; 8; 9]
  /\ best_order_parts deps [4] [5; 4; 3; 1] = Some ([4; 1; 3; 5], []).
Proof. repeat split; vm_compute; reflexivity. Qed.

Lemma grouping_example :
  let file_ws := fun f => if f <? 2 then Some 0 else if f <? 4 then Some 5 else if f <? 5 then Some 3
                          else if f <? 6 then Some 2 else if f <? 8 then Some 1 else None in
  module_analyze file_ws true (@rev (ws * list fid)) [6; 2; 0; 4; 5; 3; 1; 7; 9]
  = [(0, [0; 1]); (2, [5]); (3, [4]); (5, [2; 3]); (1, [6; 7])].
Proof. vm_compute. reflexivity. Qed.
