(** C11/BestOrderIdx.v — the literal (index based) transcription of get_best_analysis_order equals the closed form *)
From Coq Require Import List NArith Bool Lia Permutation Arith.PeanoNat.
From EV Require Import Base.Perm Gen.C11_Sort C11.Model C11.Proofs C11.BestOrder C11.ModelIdx.
Import ListNotations.
Local Open Scope N_scope.

Definition gidx (ids : list fid) (i : nat) : fid := nth i ids 0.

Lemma idx_last_some : forall f ids b j, idx_last f ids b = Some j ->
  (b <= j)%nat /\ (j < b + length ids)%nat /\ nth_error ids (j - b) = Some f.
Proof.
  induction ids as [|g r IH]; intros b j H; cbn [idx_last] in H; [discriminate|].
  destruct (idx_last f r (S b)) as [j'|] eqn:E.
  - inversion H; subst j'. destruct (IH _ _ E) as (A & B & C). cbn [length]. split; [lia|]. split; [lia|].
    replace (j - b)%nat with (S (j - S b)) by lia. exact C.
  - destruct (N.eqb_spec g f) as [->|]; [|discriminate]. inversion H; subst. cbn [length].
    split; [lia|]. split; [lia|]. rewrite Nat.sub_diag. reflexivity.
Qed.

Lemma idx_last_none : forall f ids b, idx_last f ids b = None -> ~ In f ids.
Proof.
  induction ids as [|g r IH]; intros b H; cbn [idx_last] in H; [intros []|].
  destruct (idx_last f r (S b)) eqn:E; [discriminate|].
  destruct (N.eqb_spec g f) as [->|Hn]; [discriminate|]. intros [Hin|Hin]; [contradiction|]. exact (IH _ E Hin).
Qed.

Lemma idx_last_nodup : forall ids, NoDup ids -> forall i b, (i < length ids)%nat ->
  idx_last (gidx ids i) ids b = Some (b + i)%nat.
Proof.
  induction ids as [|g r IH]; intros Hnd i b Hi; cbn [length] in Hi; [lia|].
  inversion Hnd as [|? ? Hg Hr]; subst. cbn [idx_last]. destruct i as [|i]; unfold gidx; cbn [nth].
  - destruct (idx_last g r (S b)) eqn:E.
    + apply idx_last_some in E. destruct E as (_ & _ & E). apply nth_error_In in E. contradiction.
    + rewrite N.eqb_refl. f_equal. lia.
  - fold (gidx r i). rewrite (IH Hr i (S b)) by lia. f_equal. lia.
Qed.

Lemma gidx_inj : forall ids, NoDup ids -> forall i j, (i < length ids)%nat -> (j < length ids)%nat ->
  gidx ids i = gidx ids j -> i = j.
Proof.
  intros ids Hnd i j Hi Hj E. unfold gidx in E.
  apply (proj1 (NoDup_nth ids 0) Hnd); assumption.
Qed.

Lemma map_gidx_seq : forall ids, map (gidx ids) (seq 0 (length ids)) = ids.
Proof.
  induction ids as [|a r IH]; [reflexivity|]. cbn [length seq map].
  rewrite <- seq_shift, map_map. f_equal. exact IH.
Qed.

Lemma filter_seq_gidx : forall ids (p : fid -> bool) (q : nat -> bool),
  (forall i, (i < length ids)%nat -> q i = p (gidx ids i)) ->
  map (gidx ids) (filter q (seq 0 (length ids))) = filter p ids.
Proof.
  intros ids p q H. rewrite (filter_ext_in q (fun i => p (gidx ids i))).
  - rewrite (map_filter_comm _ _ (gidx ids) p), map_gidx_seq. reflexivity.
  - intros i Hi. apply in_seq in Hi. apply H. lia.
Qed.

Lemma filter_seq_bound : forall q n, Forall (fun i => (i < n)%nat) (filter q (seq 0 n)).
Proof. intros q n. apply Forall_forall. intros i Hi. apply filter_In, proj1, in_seq in Hi. lia. Qed.

Section Build.
  Variable deps : fid -> list fid.
  Variable ids : list fid.
  Hypothesis ids_nodup : NoDup ids.
  Hypothesis deps_nodup : forall f, NoDup (deps f).
  Let n := length ids.
  Let g := gidx ids.

  Lemma build_dep_spec : forall idx st d,
    (forall di, (di < n)%nat ->
       fst (build_dep ids idx st d) di = fst st di ++ (if g di =? d then [idx] else [])) /\
    (forall i, snd (build_dep ids idx st d) i =
               if Nat.eqb i idx then snd st i + (if memN d ids then 1 else 0) else snd st i).
  Proof.
    intros idx st d. unfold build_dep. destruct (idx_last d ids 0) as [j|] eqn:E.
    - destruct (idx_last_some _ _ _ _ E) as (_ & Hj & Hnth). rewrite Nat.sub_0_r in Hnth.
      assert (g j = d) as Hgj by (apply nth_error_nth, Hnth).
      rewrite (proj2 (memN_In d ids) (nth_error_In _ _ Hnth)). cbn [fst snd]. unfold updf.
      split; [|reflexivity]. intros di Hdi. destruct (Nat.eqb_spec di j) as [->|Hne].
      + rewrite Hgj, N.eqb_refl. reflexivity.
      + destruct (N.eqb_spec (g di) d) as [Eq|_]; [|rewrite app_nil_r; reflexivity].
        destruct Hne. apply (gidx_inj ids ids_nodup); [exact Hdi|exact Hj|fold g; congruence].
    - pose proof (idx_last_none _ _ _ E) as Hnin.
      destruct (memN d ids) eqn:M; [apply memN_In in M; contradiction|]. split.
      + intros di Hdi. destruct (N.eqb_spec (g di) d) as [Eq|_]; [|rewrite app_nil_r; reflexivity].
        destruct Hnin. rewrite <- Eq. apply nth_In, Hdi.
      + intros i. rewrite N.add_0_r. destruct (Nat.eqb i idx); reflexivity.
  Qed.

  Lemma build_deps_spec : forall idx ds st, NoDup ds ->
    (forall di, (di < n)%nat ->
       fst (fold_left (build_dep ids idx) ds st) di = fst st di ++ (if memN (g di) ds then [idx] else [])) /\
    (forall i, snd (fold_left (build_dep ids idx) ds st) i =
               if Nat.eqb i idx then snd st i + N.of_nat (length (filter (fun d => memN d ids) ds)) else snd st i).
  Proof.
    intros idx. induction ds as [|d r IH]; intros st Hnd; cbn [fold_left].
    - split; [intros di _; symmetry; apply app_nil_r|]. intros i. cbn [filter length N.of_nat].
      rewrite N.add_0_r. destruct (Nat.eqb i idx); reflexivity.
    - inversion Hnd as [|? ? Hd Hr]; subst.
      destruct (IH (build_dep ids idx st d) Hr) as [I1 I2], (build_dep_spec idx st d) as [S1 S2]. split.
      + intros di Hdi. rewrite (I1 di Hdi), (S1 di Hdi), <- app_assoc. f_equal.
        unfold memN. cbn [existsb]. fold (memN (g di) r).
        destruct (N.eqb_spec (g di) d) as [->|_]; [|reflexivity].
        destruct (memN d r) eqn:M; [apply memN_In in M; contradiction|reflexivity].
      + intros i. rewrite I2, S2. cbn [filter]. destruct (Nat.eqb i idx); [|reflexivity].
        destruct (memN d ids); cbn [length]; lia.
  Qed.

  Lemma build_files_spec : forall rest pre st,
    ids = pre ++ rest ->
    (forall di, (di < n)%nat -> fst st di = filter (fun i => memN (g di) (deps (g i))) (seq 0 (length pre))) ->
    (forall i, snd st i = if Nat.ltb i (length pre) then in_degree deps ids (g i) else 0) ->
    (forall di, (di < n)%nat -> fst (build_files deps ids rest (length pre) st) di =
                                filter (fun i => memN (g di) (deps (g i))) (seq 0 n)) /\
    (forall i, (i < n)%nat -> snd (build_files deps ids rest (length pre) st) i = in_degree deps ids (g i)).
  Proof.
    induction rest as [|f r IH]; intros pre st Hids Hadj Hdeg; cbn [build_files].
    - rewrite app_nil_r in Hids. subst pre. split; [exact Hadj|].
      intros i Hi. rewrite Hdeg. fold n. destruct (Nat.ltb_spec i n); [reflexivity|lia].
    - assert (g (length pre) = f) as Hgf by (unfold g, gidx; rewrite Hids; apply nth_middle).
      destruct (build_deps_spec (length pre) (deps f) st (deps_nodup f)) as [B1 B2].
      assert (S (length pre) = length (pre ++ [f])) as Hl by (rewrite app_length; cbn; lia).
      rewrite Hl. apply IH.
      + rewrite <- app_assoc. exact Hids.
      + intros di Hdi. rewrite <- Hl, seq_S, filter_app. cbn [filter plus]. rewrite Hgf.
        rewrite (B1 di Hdi), (Hadj di Hdi). reflexivity.
      + intros i. rewrite B2, Hdeg, <- Hl.
        destruct (Nat.eqb_spec i (length pre)) as [->|Hne].
        * rewrite Nat.ltb_irrefl. destruct (Nat.ltb_spec (length pre) (S (length pre))); [|lia].
          unfold in_degree. rewrite Hgf. rewrite N.add_0_l. reflexivity.
        * destruct (Nat.ltb_spec i (length pre)); destruct (Nat.ltb_spec i (S (length pre))); try reflexivity; lia.
  Qed.

  Lemma build_idx_spec :
    (forall di, (di < n)%nat -> map g (fst (build_idx deps ids) di) = adjacency deps ids (g di) /\
                                Forall (fun i => (i < n)%nat) (fst (build_idx deps ids) di)) /\
    (forall i, (i < n)%nat -> snd (build_idx deps ids) i = in_degree deps ids (g i)).
  Proof.
    destruct (build_files_spec ids [] (fun _ => [], fun _ => 0) eq_refl) as [S1 S2];
      [intros di _; reflexivity|intros i; reflexivity|].
    split; [|exact S2]. intros di Hdi. unfold build_idx. cbn [length] in S1. rewrite (S1 di Hdi).
    split; [|apply filter_seq_bound]. apply filter_seq_gidx. reflexivity.
  Qed.
End Build.

(** * sorting indices by the key of their file = sorting the files *)
Lemma map_insert : forall A B K (h : A -> B) (key : B -> K) cmp x l,
  map h (insert (fun a => key (h a)) cmp x l) = insert key cmp (h x) (map h l).
Proof.
  induction l as [|y r IH]; cbn [insert map]; [reflexivity|].
  destruct (cmp (key (h x)) (key (h y))); cbn [map]; try reflexivity. rewrite IH. reflexivity.
Qed.

Lemma map_isort : forall A B K (h : A -> B) (key : B -> K) cmp l,
  map h (isort (fun a => key (h a)) cmp l) = isort key cmp (map h l).
Proof.
  induction l as [|x r IH]; cbn [isort map]; [reflexivity|]. rewrite map_insert, IH. reflexivity.
Qed.

Lemma map_sort_idx : forall metas ids l, map (gidx ids) (sort_idx metas ids l) = sort_meta metas (map (gidx ids) l).
Proof. intros. unfold sort_idx, sort_meta, ikey. apply (map_isort _ _ _ (gidx ids) (mkey metas)). Qed.

Lemma map_norm_idx : forall metas ids l, map (gidx ids) (norm_idx metas ids l) = norm metas (map (gidx ids) l).
Proof.
  intros. unfold norm_idx, norm. rewrite map_length. destruct (1 <? N.of_nat (length l)); [apply map_sort_idx|reflexivity].
Qed.

Lemma forall_sort_idx : forall metas ids (P : nat -> Prop) l, Forall P l -> Forall P (sort_idx metas ids l).
Proof. intros metas ids P l. apply Permutation_Forall, Permutation_sym, isort_perm. Qed.

Lemma forall_norm_idx : forall metas ids (P : nat -> Prop) l, Forall P l -> Forall P (norm_idx metas ids l).
Proof.
  intros metas ids P l H. unfold norm_idx. destruct (1 <? N.of_nat (length l)); [apply forall_sort_idx|]; exact H.
Qed.

Lemma relax_idx_cons : forall x r deg,
  relax_idx (x :: r) deg =
  (fst (relax_idx r (updf deg x (fun d => d - 1))),
   if updf deg x (fun d => d - 1) x =? 0 then x :: snd (relax_idx r (updf deg x (fun d => d - 1)))
   else snd (relax_idx r (updf deg x (fun d => d - 1)))).
Proof. intros. cbn [relax_idx]. destruct (relax_idx r _). reflexivity. Qed.

Section Sim.
  Variable metas : list fid.
  Variable ids : list fid.
  Hypothesis ids_nodup : NoDup ids.
  Let n := length ids.
  Let g := gidx ids.

  Definition deg_rel (degI : nat -> N) (deg : fid -> N) : Prop := forall i, (i < n)%nat -> degI i = deg (g i).

  Lemma relax_idx_sim : forall nbrs degI deg,
    Forall (fun i => (i < n)%nat) nbrs -> deg_rel degI deg ->
    deg_rel (fst (relax_idx nbrs degI)) (fst (relax (map g nbrs) deg)) /\
    map g (snd (relax_idx nbrs degI)) = snd (relax (map g nbrs) deg) /\
    Forall (fun i => (i < n)%nat) (snd (relax_idx nbrs degI)).
  Proof.
    induction nbrs as [|x r IH]; intros degI deg Hall Hrel.
    - cbn [relax_idx relax map fst snd]. split; [exact Hrel|]. split; [reflexivity|constructor].
    - inversion Hall as [|? ? Hx Hr]; subst. cbn [map]. rewrite relax_idx_cons, relax_cons. cbn [fst snd].
      assert (deg_rel (updf degI x (fun d => d - 1)) (dec1 deg (g x))) as Hrel1.
      { intros i Hi. unfold updf, dec1. rewrite (Hrel i Hi).
        destruct (Nat.eqb_spec i x) as [->|Hne]; [rewrite N.eqb_refl; reflexivity|].
        destruct (N.eqb_spec (g i) (g x)) as [E|E]; [|reflexivity].
        exfalso. apply Hne. apply (gidx_inj ids ids_nodup); assumption. }
      destruct (IH _ _ Hr Hrel1) as (I1 & I2 & I3).
      split; [exact I1|]. rewrite <- (Hrel1 x Hx).
      destruct (updf degI x (fun d => d - 1) x =? 0); cbn [map].
      + split; [rewrite I2; reflexivity|constructor; assumption].
      + split; assumption.
  Qed.

  Definition sim_rel (a : option (list fid * (nat -> N))) (b : option (list fid * (fid -> N))) : Prop :=
    match a, b with
    | Some (r, dI), Some (r', d) => r = r' /\ deg_rel dI d
    | None, None => True
    | _, _ => False
    end.

  Lemma bfs_idx_sim : forall (adjI : nat -> list nat) (adj : fid -> list fid),
    (forall i, (i < n)%nat -> map g (adjI i) = adj (g i) /\ Forall (fun j => (j < n)%nat) (adjI i)) ->
    forall fuel qI degI deg acc,
      Forall (fun i => (i < n)%nat) qI -> deg_rel degI deg ->
      sim_rel (bfs_idx metas fuel ids adjI qI degI acc) (bfs metas fuel adj (map g qI) deg acc).
  Proof.
    intros adjI adj Hadj. induction fuel as [|k IH]; intros qI degI deg acc Hq Hrel.
    - destruct qI; cbn [bfs_idx bfs map sim_rel]; [split; [reflexivity|exact Hrel]|exact I].
    - destruct qI as [|i q]; cbn [bfs_idx bfs map sim_rel]; [split; [reflexivity|exact Hrel]|].
      inversion Hq as [|? ? Hi Hq']; subst. destruct (Hadj i Hi) as [A1 A2].
      destruct (relax_idx_sim (adjI i) degI deg A2 Hrel) as (R1 & R2 & R3).
      rewrite <- A1.
      destruct (relax_idx (adjI i) degI) as [dI1 nzI]. destruct (relax (map g (adjI i)) deg) as [d1 nz].
      cbn [fst snd] in R1, R2, R3.
      replace (map g q ++ norm metas nz) with (map g (q ++ norm_idx metas ids nzI))
        by (rewrite map_app; unfold g; rewrite map_norm_idx; fold g; rewrite R2; reflexivity).
      apply IH; [|exact R1].
      apply Forall_app. split; [exact Hq'|apply forall_norm_idx; exact R3].
  Qed.
End Sim.

Theorem best_order_idx_equiv : forall deps metas ids,
  NoDup ids -> (forall f, NoDup (deps f)) ->
  best_order_idx deps metas ids = best_order deps metas ids.
Proof.
  intros deps metas ids Hnd Hdeps. unfold best_order_idx, best_order, best_order_parts.
  destruct (N.of_nat (length ids) <? 2); [rewrite app_nil_r; reflexivity|].
  destruct (build_idx_spec deps ids Hnd Hdeps) as [Badj Bdeg].
  destruct (build_idx deps ids) as [adjI degI]. cbn [fst snd] in Badj, Bdeg.
  pose proof (bfs_idx_sim metas ids Hnd adjI (adjacency deps ids) Badj (2 * length ids + 2)
                (sort_idx metas ids (filter (fun i => degI i =? 0) (seq 0 (length ids)))) degI (in_degree deps ids) []
                (forall_sort_idx _ _ _ _ (filter_seq_bound _ _)) Bdeg) as Sim.
  rewrite map_sort_idx, (filter_seq_gidx ids (fun f => in_degree deps ids f =? 0)) in Sim
    by (intros i Hi; rewrite (Bdeg i Hi); reflexivity).
  destruct (bfs_idx metas _ ids adjI _ degI []) as [[r dI]|];
  destruct (bfs metas _ (adjacency deps ids) _ (in_degree deps ids) []) as [[r' d]|];
  cbn [sim_rel] in Sim; try contradiction; [|reflexivity].
  destruct Sim as [-> Hrel]. f_equal.
  destruct (N.of_nat (length r') <? N.of_nat (length ids)); [|rewrite app_nil_r; reflexivity].
  f_equal. apply (filter_seq_gidx ids (fun f => negb (d f =? 0))).
  intros i Hi. rewrite (Hrel i Hi). reflexivity.
Qed.

Lemma sort_ids_nodup : forall l, NoDup l -> NoDup (sort_ids l).
Proof. intros l H. unfold sort_ids. eapply Permutation_NoDup; [apply Permutation_sym, isort_perm|exact H]. Qed.

(** ... hence the determinism results hold for the literal transcription *)
Theorem best_order_idx_deterministic : forall deps deps' metas metas' ids ids',
  NoDup ids -> Permutation ids ids' ->
  (forall f, NoDup (deps f)) -> (forall f, Permutation (deps f) (deps' f)) -> Permutation metas metas' ->
  best_order_idx deps metas (sort_ids ids) = best_order_idx deps' metas' (sort_ids ids').
Proof.
  intros deps deps' metas metas' ids ids' Hnd Hp Hd Hdp Hm.
  assert (NoDup ids') as Hnd' by (eapply Permutation_NoDup; eassumption).
  assert (forall f, NoDup (deps' f)) as Hd' by (intros f; eapply Permutation_NoDup; [apply Hdp|apply Hd]).
  rewrite !best_order_idx_equiv by (try apply sort_ids_nodup; assumption).
  apply best_order_sorted_deterministic; assumption.
Qed.
