(** C11/BestOrder.v — lemmas about the transcription of get_best_analysis_order *)
From Coq Require Import List NArith Bool Lia Permutation.
From EV Require Import Base.Perm Gen.C11_Sort C11.Model C11.Proofs.
Import ListNotations.
Local Open Scope N_scope.

Lemma mcmp_order : total_order mcmp.
Proof. unfold mcmp. apply pair_total_order; [exact bool_total_order|exact N_total_order]. Qed.

Lemma insert_ext : forall A K (key key' : A -> K) cmp, (forall x, key x = key' x) ->
  forall x l, insert key cmp x l = insert key' cmp x l.
Proof.
  intros A K key key' cmp H x. induction l as [|y r IH]; cbn [insert]; [reflexivity|].
  rewrite <- !H. destruct (cmp (key x) (key y)); try reflexivity. rewrite IH. reflexivity.
Qed.

Lemma isort_ext : forall A K (key key' : A -> K) cmp, (forall x, key x = key' x) ->
  forall l, isort key cmp l = isort key' cmp l.
Proof.
  intros A K key key' cmp H. induction l as [|x r IH]; cbn [isort]; [reflexivity|].
  rewrite IH. apply insert_ext. exact H.
Qed.

Lemma sort_meta_ext : forall metas metas' l, Permutation metas metas' -> sort_meta metas l = sort_meta metas' l.
Proof.
  intros metas metas' l Hp. unfold sort_meta. apply isort_ext. intros x. unfold mkey.
  rewrite (memN_perm x _ _ Hp). reflexivity.
Qed.

Lemma mkey_nodup : forall metas l, NoDup l -> NoDup (map (mkey metas) l).
Proof.
  intros metas l. apply FinFun.Injective_map_NoDup. intros x y E. injection E as _ E. exact E.
Qed.

Lemma sort_meta_perm : forall metas l l', NoDup l -> Permutation l l' -> sort_meta metas l = sort_meta metas l'.
Proof.
  intros metas l l' Hnd Hp. unfold sort_meta.
  apply (isort_perm_invariant _ _ _ _ mcmp_order); [apply mkey_nodup; exact Hnd|exact Hp].
Qed.

Lemma norm_ext : forall metas metas' l, Permutation metas metas' -> norm metas l = norm metas' l.
Proof. intros. unfold norm. rewrite (sort_meta_ext metas metas'); [reflexivity|assumption]. Qed.

Lemma norm_perm : forall metas l l', NoDup l -> Permutation l l' -> norm metas l = norm metas l'.
Proof.
  intros metas l l' Hnd Hp. unfold norm. rewrite <- (Permutation_length Hp).
  destruct (N.ltb_spec 1 (N.of_nat (length l))) as [H|H].
  - apply sort_meta_perm; assumption.
  - apply perm_short; [lia|exact Hp].
Qed.

Definition dec1 (deg : fid -> N) (x : fid) : fid -> N := fun y => if y =? x then deg y - 1 else deg y.

Lemma relax_cons : forall x r deg,
  relax (x :: r) deg =
  (fst (relax r (dec1 deg x)),
   if dec1 deg x x =? 0 then x :: snd (relax r (dec1 deg x)) else snd (relax r (dec1 deg x))).
Proof. intros. unfold dec1. cbn [relax]. destruct (relax r _). reflexivity. Qed.

Lemma relax_ext : forall l deg deg', (forall x, deg x = deg' x) ->
  (forall y, fst (relax l deg) y = fst (relax l deg') y) /\ snd (relax l deg) = snd (relax l deg').
Proof.
  induction l as [|x r IH]; intros deg deg' H.
  - cbn [relax fst snd]. split; [exact H|reflexivity].
  - rewrite !relax_cons. cbn [fst snd].
    assert (forall y, dec1 deg x y = dec1 deg' x y) as H1 by (intros y; unfold dec1; rewrite H; reflexivity).
    destruct (IH _ _ H1) as [I1 I2].
    split; [exact I1|]. rewrite H1, I2. reflexivity.
Qed.

Lemma relax_spec : forall l deg, NoDup l ->
  (forall y, fst (relax l deg) y = if memN y l then deg y - 1 else deg y) /\
  snd (relax l deg) = filter (fun y => deg y - 1 =? 0) l.
Proof.
  induction l as [|x r IH]; intros deg Hnd.
  - cbn [relax fst snd memN existsb filter]. split; reflexivity.
  - inversion Hnd as [|? ? Hx Hr]; subst.
    rewrite relax_cons. cbn [fst snd].
    destruct (IH (dec1 deg x) Hr) as [I1 I2]. split.
    + intros y. rewrite I1. unfold memN. cbn [existsb]. fold (memN y r). unfold dec1.
      destruct (N.eqb_spec y x) as [E|E].
      * subst y. destruct (memN x r) eqn:M; [apply memN_In in M; contradiction|]. reflexivity.
      * cbn [orb]. reflexivity.
    + cbn [filter]. unfold dec1 at 1. rewrite N.eqb_refl, I2.
      rewrite (filter_ext_in _ (fun y => deg y - 1 =? 0) r); [reflexivity|].
      intros y Hy. unfold dec1. destruct (N.eqb_spec y x) as [->|E]; [contradiction|reflexivity].
Qed.

Lemma relax_perm : forall l l' deg deg', NoDup l -> Permutation l l' -> (forall x, deg x = deg' x) ->
  (forall y, fst (relax l deg) y = fst (relax l' deg') y) /\
  Permutation (snd (relax l deg)) (snd (relax l' deg')) /\ NoDup (snd (relax l deg)).
Proof.
  intros l l' deg deg' Hnd Hp H.
  assert (NoDup l') as Hnd' by (eapply Permutation_NoDup; eassumption).
  destruct (relax_spec l deg Hnd) as [A1 A2]. destruct (relax_spec l' deg' Hnd') as [B1 B2].
  split; [|split].
  - intros y. rewrite A1, B1, (memN_perm y l l' Hp), H. reflexivity.
  - rewrite A2, B2. rewrite (filter_ext (fun y => deg y - 1 =? 0) (fun y => deg' y - 1 =? 0)) by (intros; rewrite H; reflexivity).
    apply perm_filter. exact Hp.
  - rewrite A2. apply NoDup_filter. exact Hnd.
Qed.

(** * the queue loop respects every relation that the relaxation respects *)
Definition res_rel (a b : option (list fid * (fid -> N))) : Prop :=
  match a, b with
  | Some (r, d), Some (r', d') => r = r' /\ forall x, d x = d' x
  | None, None => True
  | _, _ => False
  end.

Lemma bfs_rel : forall metas metas' (adj adj' : fid -> list fid),
  (forall d deg deg', (forall x, deg x = deg' x) ->
     (forall y, fst (relax (adj d) deg) y = fst (relax (adj' d) deg') y) /\
     norm metas (snd (relax (adj d) deg)) = norm metas' (snd (relax (adj' d) deg'))) ->
  forall fuel queue deg deg' acc, (forall x, deg x = deg' x) ->
  res_rel (bfs metas fuel adj queue deg acc) (bfs metas' fuel adj' queue deg' acc).
Proof.
  intros metas metas' adj adj' Hr. induction fuel as [|k IH]; intros queue deg deg' acc H.
  - destruct queue; cbn [bfs res_rel]; [split; [reflexivity|exact H]|exact I].
  - destruct queue as [|f q]; cbn [bfs res_rel]; [split; [reflexivity|exact H]|].
    destruct (Hr f deg deg' H) as [H1 H2].
    destruct (relax (adj f) deg) as [d1 nz]. destruct (relax (adj' f) deg') as [d1' nz']. cbn [fst snd] in *.
    rewrite H2. apply IH. exact H1.
Qed.

Lemma filter_false : forall A (l : list A), filter (fun _ => false) l = [].
Proof. induction l; cbn [filter]; auto. Qed.

(** * two runs whose relaxation steps agree: the queue part is the same, the cyclic rest is the same
    selection from the respective input list *)
Lemma best_order_parts_rel : forall deps deps' metas metas' ids ids',
  length ids = length ids' -> ((length ids < 2)%nat -> ids = ids') ->
  (forall f, in_degree deps ids f = in_degree deps' ids' f) ->
  sort_meta metas (filter (fun f => in_degree deps ids f =? 0) ids) =
  sort_meta metas' (filter (fun f => in_degree deps' ids' f =? 0) ids') ->
  (forall d deg deg', (forall x, deg x = deg' x) ->
     (forall y, fst (relax (adjacency deps ids d) deg) y = fst (relax (adjacency deps' ids' d) deg') y) /\
     norm metas (snd (relax (adjacency deps ids d) deg)) = norm metas' (snd (relax (adjacency deps' ids' d) deg'))) ->
  exists p : fid -> bool,
  match best_order_parts deps metas ids, best_order_parts deps' metas' ids' with
  | Some (top, rest), Some (top', rest') => top = top' /\ rest = filter p ids /\ rest' = filter p ids'
  | None, None => True
  | _, _ => False
  end.
Proof.
  intros deps deps' metas metas' ids ids' Hlen Hshort Hdeg Hzero Hstep. unfold best_order_parts.
  rewrite <- Hlen, <- Hzero.
  destruct (N.ltb_spec (N.of_nat (length ids)) 2) as [Hn|Hn].
  - exists (fun _ => false). rewrite !filter_false. split; [apply Hshort; lia|split; reflexivity].
  - pose proof (bfs_rel metas metas' _ _ Hstep (2 * length ids + 2)%nat
                  (sort_meta metas (filter (fun f => in_degree deps ids f =? 0) ids)) _ _ [] Hdeg) as B.
    destruct (bfs metas _ _ _ _ _) as [[r d]|]; destruct (bfs metas' _ _ _ _ _) as [[r' d']|];
      cbn [res_rel] in B; try contradiction; [|exists (fun _ => false); exact I].
    destruct B as [-> B2].
    destruct (N.of_nat (length r') <? N.of_nat (length ids)).
    + exists (fun f => negb (d f =? 0)). split; [reflexivity|split; [reflexivity|]].
      apply filter_ext. intros f. rewrite B2. reflexivity.
    + exists (fun _ => false). rewrite !filter_false. repeat split.
Qed.

(** * independence from the iteration order of the inner hash sets and of the meta set *)
Lemma best_order_parts_ext : forall deps deps' metas metas' ids,
  (forall f, Permutation (deps f) (deps' f)) -> Permutation metas metas' ->
  best_order_parts deps metas ids = best_order_parts deps' metas' ids.
Proof.
  intros deps deps' metas metas' ids Hd Hm.
  assert (forall f, in_degree deps ids f = in_degree deps' ids f) as Hdeg.
  { intros f. unfold in_degree. f_equal. apply Permutation_length. apply perm_filter. apply Hd. }
  assert (forall d, adjacency deps ids d = adjacency deps' ids d) as Hadj.
  { intros d. unfold adjacency. apply filter_ext. intros f. apply memN_perm. apply Hd. }
  destruct (best_order_parts_rel deps deps' metas metas' ids ids eq_refl (fun _ => eq_refl) Hdeg) as [p H].
  - rewrite (sort_meta_ext metas metas') by exact Hm. f_equal.
    apply filter_ext. intros f. rewrite Hdeg. reflexivity.
  - intros d deg deg' H. rewrite <- Hadj.
    destruct (relax_ext (adjacency deps ids d) deg deg' H) as [E1 E2].
    split; [exact E1|rewrite E2; apply norm_ext; exact Hm].
  - destruct (best_order_parts deps metas ids) as [[top rest]|];
    destruct (best_order_parts deps' metas' ids) as [[top' rest']|]; try contradiction; [|reflexivity].
    destruct H as (-> & -> & ->). reflexivity.
Qed.

Lemma best_order_ext : forall deps deps' metas metas' ids,
  (forall f, Permutation (deps f) (deps' f)) -> Permutation metas metas' ->
  best_order deps metas ids = best_order deps' metas' ids.
Proof. intros. unfold best_order. rewrite (best_order_parts_ext deps deps' metas metas'); auto. Qed.

(** * permuting the input list: the queue part is invariant, the cyclic rest keeps the input order *)
Lemma best_order_parts_perm : forall deps metas ids ids',
  NoDup ids -> Permutation ids ids' ->
  exists p : fid -> bool,
  match best_order_parts deps metas ids, best_order_parts deps metas ids' with
  | Some (top, rest), Some (top', rest') => top = top' /\ rest = filter p ids /\ rest' = filter p ids'
  | None, None => True
  | _, _ => False
  end.
Proof.
  intros deps metas ids ids' Hnd Hp.
  assert (forall f, in_degree deps ids f = in_degree deps ids' f) as Hdeg.
  { intros f. unfold in_degree. f_equal. f_equal. apply filter_ext. intros d. apply memN_perm. exact Hp. }
  apply best_order_parts_rel.
  - apply Permutation_length, Hp.
  - intros H. apply perm_short; [lia|exact Hp].
  - exact Hdeg.
  - rewrite (filter_ext (fun f => in_degree deps ids' f =? 0) (fun f => in_degree deps ids f =? 0))
      by (intros; rewrite Hdeg; reflexivity).
    apply sort_meta_perm; [apply NoDup_filter; exact Hnd|apply perm_filter; exact Hp].
  - intros d deg deg' H.
    destruct (relax_perm (adjacency deps ids d) (adjacency deps ids' d) deg deg') as (E1 & E2 & E3);
      [apply NoDup_filter; exact Hnd|apply perm_filter; exact Hp|exact H|].
    split; [exact E1|apply norm_perm; assumption].
Qed.

(** when no file is left over (no dependency cycle among the listed files) the whole order is invariant *)
Lemma best_order_acyclic_perm : forall deps metas ids ids' top,
  NoDup ids -> Permutation ids ids' ->
  best_order_parts deps metas ids = Some (top, []) ->
  best_order deps metas ids' = best_order deps metas ids.
Proof.
  intros deps metas ids ids' top Hnd Hp H.
  destruct (best_order_parts_perm deps metas ids ids' Hnd Hp) as [p Hm].
  unfold best_order. rewrite H in *.
  destruct (best_order_parts deps metas ids') as [[top' rest']|]; [|contradiction].
  destruct Hm as (-> & E1 & ->).
  assert (filter p ids' = []) as ->; [|reflexivity].
  apply Permutation_nil. rewrite E1. apply perm_filter. exact Hp.
Qed.

(** with the sorted id list the order is a function of the file SET, the dependency relation and the meta set *)
Lemma best_order_sorted_deterministic : forall deps deps' metas metas' ids ids',
  NoDup ids -> Permutation ids ids' ->
  (forall f, Permutation (deps f) (deps' f)) -> Permutation metas metas' ->
  best_order deps metas (sort_ids ids) = best_order deps' metas' (sort_ids ids').
Proof.
  intros deps deps' metas metas' ids ids' Hnd Hp Hd Hm.
  rewrite (sort_ids_perm ids ids' Hnd Hp). apply best_order_ext; assumption.
Qed.
