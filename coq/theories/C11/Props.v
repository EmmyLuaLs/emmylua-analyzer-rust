(** C11/Props.v — property theorems only.
    A "hasher" [h] stands for the iteration order of a HashSet/HashMap — any function whose result
    is a permutation of its argument ([is_hasher]); every theorem quantifies over ALL hashers, i.e. over every hash
    seed, and over EVERY remove/analyze function of the driver. *)
From Coq Require Import List NArith Bool Permutation Sorting.Sorted.
From EV Require Import Base.Perm Gen.C11_Sort C11.Model C11.ModelIdx C11.Proofs C11.BestOrder C11.BestOrderIdx C11.Pipeline.
Import ListNotations.
Local Open Scope N_scope.

(** With the id lists sorted before [remove_index]/[update_index], the result of a batch update (Vfs, index, id list)
    does not depend on the iteration order of the two hash sets — for every [remove_index] and every [analyze]
    (not assumed commutative) — and equals [update_files_spec], a function of the registered files only; the id
    list is strictly ascending, i.e. registration order. *)
Theorem driver_deterministic :
  forall (S : Type) (remove_index analyze : S -> list fid -> S) (h1 h2 h1' h2' : list fid -> list fid)
         (v : vfs) (st : S) (batch : list (uri * bool)),
    is_hasher h1 -> is_hasher h2 -> is_hasher h1' -> is_hasher h2' ->
    update_files_by_uri S remove_index analyze true true h1 h2 v st batch =
    update_files_by_uri S remove_index analyze true true h1' h2' v st batch
    /\ update_files_by_uri S remove_index analyze true true h1 h2 v st batch =
       update_files_spec S remove_index analyze v st batch
    /\ StronglySorted N.lt (snd (update_files_by_uri S remove_index analyze true true h1 h2 v st batch)).
Proof.
  intros S rm an h1 h2 h1' h2' v st batch H1 H2 H1' H2'. split; [|split].
  - exact (Proofs.driver_deterministic S rm an h1 h2 h1' h2' v st batch H1 H2 H1' H2').
  - exact (Proofs.driver_is_spec S rm an h1 h2 v st batch H1 H2).
  - destruct (update_files_by_uri S rm an true true h1 h2 v st batch) as [[v' st'] ids] eqn:E.
    exact (Proofs.update_order_ascending S rm an h1 h2 v st batch v' st' ids H1 H2 E).
Qed.

(** The same for the sort flags READ OFF TODAY'S SOURCE (Gen/C11_Sort.v, regenerated on every run): this theorem
    stops compiling when a sort disappears from an update entry point, when [update_files_by_path] stops delegating,
    when the single-file entry point or [reindex] change shape, when a new caller of [update_index] appears, or when
    a HashMap/HashSet iteration site of compilation/, db_index/, semantic/ or diagnostic/ is new (unreviewed) or
    reviewed as order-sensitive ([hash_sites], 60 sites today). *)
Theorem driver_current_source_deterministic :
  forall (S : Type) (remove_index analyze : S -> list fid -> S) (h1 h2 h1' h2' : list fid -> list fid)
         (v : vfs) (st : S) (batch : list (uri * bool)),
    is_hasher h1 -> is_hasher h2 -> is_hasher h1' -> is_hasher h2' ->
    update_files_by_uri S remove_index analyze uri_sorts_removed uri_sorts_updated h1 h2 v st batch =
    update_files_by_uri S remove_index analyze uri_sorts_removed uri_sorts_updated h1' h2' v st batch
    /\ path_delegates_to_uri = true /\ single_update_is_singleton = true /\ reindex_ids_in_vec_order = true
    /\ other_update_index_callers = 0
    /\ best_order_tiebreak_by_file_id = true /\ lua_pipeline_uses_best_order = true
    /\ hash_sites_all_reviewed = true.
Proof.
  intros S rm an h1 h2 h1' h2' v st batch H1 H2 H1' H2'.
  split; [exact (Proofs.driver_deterministic S rm an h1 h2 h1' h2' v st batch H1 H2 H1' H2')|].
  repeat split; reflexivity.
Qed.

(** Without the sort the property fails: the transcribed "first assignment types the member" step folded in
    best-analysis order over two files that require each other reports the assign-type-mismatch in file 2 under
    one iteration order and in file 1 under another (the witness of the property text, confirmed on the code). *)
Theorem driver_order_dependent_refuted :
  exists h h' : list fid -> list fid,
    is_hasher h /\ is_hasher h' /\ witness_run h <> witness_run h'.
Proof. exact Proofs.driver_order_dependent_refuted. Qed.

(** The per-workspace grouping does not depend on the iteration order of the workspace map (sort flag and workspace-id
    constants read off today's source). *)
Theorem grouping_deterministic :
  forall (file_ws : fid -> option ws) (h h' : list (ws * list fid) -> list (ws * list fid)) (files : list fid),
    is_hasher h -> is_hasher h' ->
    module_analyze_std_removed_first = true /\ is_library_is_ge_start = true /\ is_remote_is_eq_remote = true /\
    module_analyze file_ws module_analyze_sorts_contexts h files =
    module_analyze file_ws module_analyze_sorts_contexts h' files.
Proof.
  intros file_ws h h' files Hh Hh'. repeat split.
  exact (Proofs.module_analyze_deterministic file_ws h h' files Hh Hh').
Qed.

(** The best analysis order is a function of the dependency RELATION and the meta SET (not of the iteration order
    of the hash sets that hold them), and with the sorted id list of the driver a function of the file SET. *)
Theorem best_order_deterministic :
  forall (deps deps' : fid -> list fid) (metas metas' ids ids' : list fid),
    NoDup ids -> Permutation ids ids' ->
    (forall f, Permutation (deps f) (deps' f)) -> Permutation metas metas' ->
    best_order deps metas ids = best_order deps' metas' ids /\
    best_order deps metas (sort_ids ids) = best_order deps' metas' (sort_ids ids').
Proof.
  intros deps deps' metas metas' ids ids' Hnd Hp Hd Hm. split.
  - exact (BestOrder.best_order_ext deps deps' metas metas' ids Hd Hm).
  - exact (BestOrder.best_order_sorted_deterministic deps deps' metas metas' ids ids' Hnd Hp Hd Hm).
Qed.

(** Permuting the (duplicate-free) input list: the part produced by the queue is unchanged because the tie-break
    (meta first, then FileId) is total; the files left in dependency cycles are the same SET but are emitted in
    input order; when nothing is left over the whole order is unchanged. *)
Theorem best_order_acyclic_permutation_invariant :
  forall (deps : fid -> list fid) (metas ids ids' : list fid),
    NoDup ids -> Permutation ids ids' ->
    (exists p : fid -> bool,
       match best_order_parts deps metas ids, best_order_parts deps metas ids' with
       | Some (top, rest), Some (top', rest') => top = top' /\ rest = filter p ids /\ rest' = filter p ids'
       | None, None => True
       | _, _ => False
       end) /\
    (forall top, best_order_parts deps metas ids = Some (top, []) ->
                 best_order deps metas ids' = best_order deps metas ids).
Proof.
  intros deps metas ids ids' Hnd Hp. split.
  - exact (BestOrder.best_order_parts_perm deps metas ids ids' Hnd Hp).
  - intros top H. exact (BestOrder.best_order_acyclic_perm deps metas ids ids' top Hnd Hp H).
Qed.

(** The LITERAL transcription of get_best_analysis_order (ModelIdx.v: file_to_idx map, in_degree / adjacency vectors
    filled by the nested build loop over the HashSets in their iteration order, index queue, sort_by on indices,
    leftover scan over in_degree) computes exactly the closed form used above, for every duplicate-free id list and
    every iteration order of the dependency sets ... *)
Theorem best_order_literal_is_closed_form :
  forall (deps : fid -> list fid) (metas ids : list fid),
    NoDup ids -> (forall f, NoDup (deps f)) ->
    best_order_idx deps metas ids = best_order deps metas ids.
Proof. exact BestOrderIdx.best_order_idx_equiv. Qed.

(** ... so with the driver's sorted id list the literal algorithm is a function of the file set, the dependency
    relation and the meta set. *)
Theorem best_order_literal_deterministic :
  forall (deps deps' : fid -> list fid) (metas metas' ids ids' : list fid),
    NoDup ids -> Permutation ids ids' ->
    (forall f, NoDup (deps f)) -> (forall f, Permutation (deps f) (deps' f)) -> Permutation metas metas' ->
    best_order_idx deps metas (sort_ids ids) = best_order_idx deps' metas' (sort_ids ids').
Proof. exact BestOrderIdx.best_order_idx_deterministic. Qed.

(** ... and with a cycle the input order does show through (why the driver has to sort). *)
Theorem best_order_cycle_input_order_refuted :
  exists (deps : fid -> list fid) (metas ids ids' : list fid),
    NoDup ids /\ Permutation ids ids' /\ best_order deps metas ids <> best_order deps metas ids'.
Proof. exact Pipeline.best_order_cycle_input_order_refuted. Qed.

(** The composed analysis of a batch (grouping, then per group the list-ordered pipelines, the Lua pipeline in
    best-analysis order, the unresolve pipeline) for EVERY per-file step: with the sorted id list it is a function
    of the file set, the dependency relation and the meta set. *)
Theorem pipeline_deterministic :
  forall (S : Type) (file_ws : fid -> option ws) (step_list step_lua : S -> fid -> S) (step_end : S -> list fid -> S)
         (hg hg' : list (ws * list fid) -> list (ws * list fid)) (deps deps' : fid -> list fid)
         (metas metas' : list fid) (st : S) (ids ids' : list fid),
    is_hasher hg -> is_hasher hg' -> NoDup ids -> Permutation ids ids' ->
    (forall f, Permutation (deps f) (deps' f)) -> Permutation metas metas' ->
    analyze_model S file_ws step_list step_lua step_end module_analyze_sorts_contexts hg deps metas st (sort_ids ids) =
    analyze_model S file_ws step_list step_lua step_end module_analyze_sorts_contexts hg' deps' metas' st (sort_ids ids').
Proof. exact Pipeline.pipeline_deterministic. Qed.

(** non-vacuity *)
Example driver_example :
  let batch := [(7, true); (3, true); (7, false); (5, true); (3, true)] in
  update_files_by_uri (list (list fid)) (fun st _ => st) (fun st ids => st ++ [ids]) true true (@rev fid) (@rev fid) [] [] batch
  = ([(7, false); (3, true); (5, true)], [[1; 2]], [0; 1; 2])
  /\ recorded_orders 2 batch = [[0; 1; 2]; [1; 2]].
Proof. exact Pipeline.driver_example. Qed.

Example best_order_example :
  let deps := fun f => if f =? 5 then [3; 1] else if f =? 3 then [1] else if f =? 8 then [9] else if f =? 9 then [8]
                       else if f =? 2 then [8] else [] in
  best_order deps [4] [9; 5; 2; 4; 3; 1; 8] = Some [4; 1; 3; 5; 9; 2; 8]
  /\ best_order deps [4] (sort_ids [9; 5; 2; 4; 3; 1; 8]) = Some [4; 1; 3; 5; 2; 8; 9]
  /\ best_order_parts deps [4] [5; 4; 3; 1] = Some ([4; 1; 3; 5], []).
Proof. exact Pipeline.best_order_example. Qed.

Example grouping_example :
  let file_ws := fun f => if f <? 2 then Some 0 else if f <? 4 then Some 5 else if f <? 5 then Some 3
                          else if f <? 6 then Some 2 else if f <? 8 then Some 1 else None in
  module_analyze file_ws true (@rev (ws * list fid)) [6; 2; 0; 4; 5; 3; 1; 7; 9]
  = [(0, [0; 1]); (2, [5]); (3, [4]); (5, [2; 3]); (1, [6; 7])].
Proof. exact Pipeline.grouping_example. Qed.
