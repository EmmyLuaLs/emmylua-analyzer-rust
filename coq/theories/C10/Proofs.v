(** Removal in the module index as instances of Base/StoreSM.v; state-level removal lemmas for the
    diagnostic, global, property, type and reference index transcriptions. *)
From EV Require Import Base.StoreSM C33.Model C33.Spec C33.Lemmas C33.Proofs C08.Module C08.PropertyModel C08.SimpleModels C08.RefModel C10.TypeModel.
Local Open Scope N_scope.

Lemma remove_no_mention : forall (c : cfg) (ops : list (hop mfacts)) (f : N),
  mod_mentions (state _ _ _ _ (mod_store c) (ops ++ [HRemove _ f])) f = false.
Proof. intro c. exact (StoreSM.remove_no_mention _ _ _ _ (mod_store c) (mod_refinement c)). Qed.

Lemma remove_frees : forall (c : cfg) (ops : list (hop mfacts)) (f : N),
  (forall q, mod_obs c (state _ _ _ _ (mod_store c) (ops ++ [HRemove _ f])) q
             = mod_obs c (state _ _ _ _ (mod_store c) (without _ f ops)) q) /\
  mod_size (state _ _ _ _ (mod_store c) (ops ++ [HRemove _ f])) = mod_size (state _ _ _ _ (mod_store c) (without _ f ops)).
Proof. intro c. exact (StoreSM.remove_frees _ _ _ _ (mod_store c) (mod_refinement c)). Qed.

Lemma adel_no_key : forall (V : Type) f (m : list (N * V)), existsb (fun kv => fst kv =? f) (ndelN f m) = false.
Proof. intros V f m. apply no_key_of_aget_none. rewrite nget_del, N.eqb_refl. reflexivity. Qed.

Lemma diagnostic_remove_no_mention : forall s f, d_mentions (d_remove f s) f = false.
Proof. intros s f. unfold d_mentions, d_remove. cbn [d_dis d_en]. rewrite !adel_no_key. reflexivity. Qed.

Lemma global_remove_no_mention : forall s f, g_mentions (g_remove f s) f = false.
Proof.
  intros s f. unfold g_mentions. induction s as [|[nm l] s IH]; cbn [g_remove existsb]; [reflexivity|].
  destruct (is_nil (filter (fun d => negb (fst d =? f)) l)); [exact IH|].
  cbn [existsb snd]. rewrite IH, orb_false_r.
  induction l as [|d l IHl]; cbn [filter existsb]; [reflexivity|].
  destruct (N.eqb_spec (fst d) f) as [E|Hne]; cbn [negb]; [exact IHl|].
  cbn [existsb]. destruct (N.eqb_spec (fst d) f); [contradiction | exact IHl].
Qed.

Lemma global_remove_no_empty : forall s f nm l, In (nm, l) (g_remove f s) -> l <> [].
Proof.
  induction s as [|[nm0 l0] s IH]; intros f nm l Hin; cbn [g_remove] in Hin; [destruct Hin|].
  destruct (filter (fun d => negb (fst d =? f)) l0) as [|d r] eqn:E; cbn [is_nil] in Hin; [eauto|].
  destruct Hin as [Heq|Hin]; [inversion Heq; discriminate | eauto].
Qed.

Lemma property_remove_no_file : forall s f, ngetN f (px_infile (p_remove f s)) = None.
Proof.
  intros s f. unfold p_remove. destruct (ngetN f (px_infile s)) as [l|] eqn:E; [|exact E].
  destruct (fold_left _ l (px_props s, px_owners s)) as [props omap]. cbn [px_infile].
  rewrite nget_del, N.eqb_refl. reflexivity.
Qed.

(** LuaTypeIndex: no surviving location or super clause of the type [id] carries the removed file *)
Definition clean_at (f id : N) (s : tidx) : Prop :=
  (forall l, ngetN id (t_supers s) = Some l -> forall x, In x l -> fst x <> f) /\
  (forall l, ngetN id (t_decls s) = Some l -> forall x, In x l -> fst x <> f).

(** what the loop body does to each of the two maps at the type [id] *)
Definition prune_at (f id : N) (m : list (N * list (N * N))) : list (N * list (N * N)) :=
  match ngetN id m with
  | Some l => if is_nil (keep_not f l) then ndelN id m else nsetN id (keep_not f l) m
  | None => m
  end.

Lemma rm_id_maps : forall f s id,
  t_decls (t_rm_id f s id) = prune_at f id (t_decls s) /\ t_supers (t_rm_id f s id) = prune_at f id (t_supers s).
Proof.
  intros f s id. unfold t_rm_id, prune_at.
  destruct (ngetN id (t_decls s)) as [locs|]; [destruct (is_nil (keep_not f locs))|]; split; reflexivity.
Qed.

Lemma prune_at_get : forall f id m id', ngetN id' (prune_at f id m) =
  if id' =? id then match ngetN id m with
                    | Some l => if is_nil (keep_not f l) then None else Some (keep_not f l)
                    | None => None
                    end
  else ngetN id' m.
Proof.
  intros f id m id'. unfold prune_at.
  destruct (ngetN id m) as [l|] eqn:E; [destruct (is_nil (keep_not f l)); [apply nget_del | apply nget_set]|].
  destruct (N.eqb_spec id' id) as [->|_]; [exact E | reflexivity].
Qed.

(** the lists under [id] carry no location of [f]: either [id] is the type just pruned, or it was so before *)
Lemma prune_at_clean : forall f id' m id,
  id = id' \/ (forall l, ngetN id m = Some l -> forall x, In x l -> fst x <> f) ->
  forall l, ngetN id (prune_at f id' m) = Some l -> forall x, In x l -> fst x <> f.
Proof.
  intros f id' m id H l Hl x Hx. rewrite prune_at_get in Hl. destruct (N.eqb_spec id id') as [->|Hne].
  - destruct (ngetN id' m) as [l0|]; [destruct (is_nil (keep_not f l0))|]; try discriminate.
    inversion Hl; subst l. apply in_drop_key in Hx. tauto.
  - destruct H as [H|H]; [contradiction | exact (H l Hl x Hx)].
Qed.

Lemma rm_id_clean : forall f s id id', id = id' \/ clean_at f id s -> clean_at f id (t_rm_id f s id').
Proof.
  intros f s id id' H. destruct (rm_id_maps f s id') as [Ed Es]. unfold clean_at. rewrite Ed, Es.
  split; apply prune_at_clean; (destruct H as [H|[H1 H2]]; [left; exact H | right; assumption]).
Qed.

Lemma rm_fold_clean : forall f ids s id, In id ids \/ clean_at f id s -> clean_at f id (fold_left (t_rm_id f) ids s).
Proof.
  induction ids as [|i ids IH]; intros s id H; cbn [fold_left].
  - destruct H as [[]|H]; exact H.
  - apply IH. destruct H as [[->|H]|H]; [right; apply rm_id_clean; left; reflexivity | left; exact H |].
    right. apply rm_id_clean. right. exact H.
Qed.

Lemma type_remove_clean : forall s f ids id,
  ngetN f (t_ftypes s) = Some ids -> In id ids -> clean_at f id (t_remove f s).
Proof. intros s f ids id H Hin. unfold t_remove. rewrite H. apply rm_fold_clean. left. exact Hin. Qed.

Lemma type_remove_file_maps : forall s f,
  ngetN f (t_ns (t_remove f s)) = None /\ ngetN f (t_using (t_remove f s)) = None /\ ngetN f (t_ftypes (t_remove f s)) = None.
Proof.
  intros s f. unfold t_remove.
  assert (H : forall ids s0, t_ns (fold_left (t_rm_id f) ids s0) = t_ns s0 /\ t_using (fold_left (t_rm_id f) ids s0) = t_using s0
                             /\ t_ftypes (fold_left (t_rm_id f) ids s0) = t_ftypes s0).
  { induction ids as [|i ids IH]; intro s0; cbn [fold_left]; [auto|].
    destruct (IH (t_rm_id f s0 i)) as [A [B C]]. rewrite A, B, C. unfold t_rm_id.
    destruct (ngetN i (t_decls s0)) as [locs|]; [destruct (is_nil (keep_not f locs))|]; cbn; auto. }
  destruct (ngetN f (t_ftypes s)) as [ids|].
  - destruct (H ids (mkTidx (ndelN f (t_ns s)) (ndelN f (t_using s)) (ndelN f (t_ftypes s)) (t_decls s) (t_supers s) (t_names s))) as [A [B C]].
    rewrite A, B, C. cbn [t_ns t_using t_ftypes]. rewrite !nget_del, N.eqb_refl. auto.
  - cbn [t_ns t_using t_ftypes]. rewrite !nget_del, N.eqb_refl. auto.
Qed.

(** LuaReferenceIndex (global_references / index_reference): after remove(f) no key lists f, no key is left empty *)
Lemma rmap_remove_no_mention : forall f m, rmap_mentions (rmap_remove f m) f = false.
Proof.
  intros f m. unfold rmap_mentions. induction m as [|[k files] m IH]; cbn [rmap_remove existsb]; [reflexivity|].
  destruct (is_nil (ndelN f files)); [exact IH|]. cbn [existsb snd]. rewrite IH, orb_false_r. apply adel_no_key.
Qed.

Lemma reference_remove_no_mention : forall s f,
  rmap_mentions (r_glob (r_remove f s)) f = false /\ rmap_mentions (r_idx (r_remove f s)) f = false.
Proof. intros s f. split; apply rmap_remove_no_mention. Qed.

Lemma reference_remove_no_empty : forall f m k files, In (k, files) (rmap_remove f m) -> files <> [].
Proof.
  induction m as [|[k0 fs] m IH]; intros k files Hin; cbn [rmap_remove] in Hin; [destruct Hin|].
  destruct (ndelN f fs) as [|x r] eqn:E; cbn [is_nil] in Hin; [eauto|].
  destruct Hin as [Heq|Hin]; [inversion Heq; discriminate | eauto].
Qed.

Lemma remove_example :
  let c := ex_cfg in
  let ops := [HUpdate mfacts 1 ([97; 46; 98], 1, false); HUpdate _ 2 ([97; 46; 99], 1, false); HUpdate _ 1 ([97; 46; 98], 1, false)] in
  mod_obs c (state _ _ _ _ (mod_store c) ops) [98] = Some (1, [97; 46; 98], 1, false) /\
  mod_obs c (state _ _ _ _ (mod_store c) (ops ++ [HRemove _ 1])) [98] = None /\
  mod_size (state _ _ _ _ (mod_store c) ops) = [4; 2; 2] /\
  mod_size (state _ _ _ _ (mod_store c) (ops ++ [HRemove _ 1])) = [3; 1; 1] /\
  without _ 1 ops = [HUpdate _ 2 ([97; 46; 99], 1, false)].
Proof. cbv zeta. repeat split; vm_compute; reflexivity. Qed.
