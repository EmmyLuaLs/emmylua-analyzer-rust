(** The property theorems: removed files leave no trace. *)
From EV Require Import Base.StoreSM C33.Model C33.Spec C08.Module C08.PropertyModel C33.Proofs C08.SimpleModels C08.Global C08.Diag C08.Product C08.RefModel C10.TypeModel C10.Proofs.
Local Open Scope N_scope.

(** After [remove_file_by_uri f], no container of the module index holds the file id [f] (file map keys and
    records, node file lists, fuzzy-name lists) — after ANY history. *)
Theorem remove_no_mention : forall (c : cfg) (ops : list (hop mfacts)) (f : N),
  mod_mentions (state _ _ _ _ (mod_store c) (ops ++ [HRemove _ f])) f = false.
Proof. exact Proofs.remove_no_mention. Qed.

(** ... and the index is, observably and in size, what it would be had the file never been submitted:
    every answer and every container count equals those of the history with all operations on [f] deleted. *)
Theorem remove_frees : forall (c : cfg) (ops : list (hop mfacts)) (f : N),
  (forall q, mod_obs c (state _ _ _ _ (mod_store c) (ops ++ [HRemove _ f])) q
             = mod_obs c (state _ _ _ _ (mod_store c) (without _ f ops)) q) /\
  mod_size (state _ _ _ _ (mod_store c) (ops ++ [HRemove _ f])) = mod_size (state _ _ _ _ (mod_store c) (without _ f ops)).
Proof. exact Proofs.remove_frees. Qed.

(** The product store (LuaModuleIndex x LuaGlobalIndex x DiagnosticIndex = the modelled part of DbIndex): after
    remove_file_by_uri(f) no container of any of the three indexes holds f, and the whole store is what it would be
    had f never been submitted — after ANY history. *)
Theorem product_remove_no_mention : forall c ops f, db_mentions c (db_state c (ops ++ [HRemove _ f])) f = false.
Proof. intro c. exact (StoreSM.remove_no_mention _ _ _ _ (db_store c) (db_refinement c)). Qed.
Theorem product_remove_frees : forall c ops f,
  (forall q, db_obs c (db_state c (ops ++ [HRemove _ f])) q = db_obs c (db_state c (without _ f ops)) q) /\
  db_size c (db_state c (ops ++ [HRemove _ f])) = db_size c (db_state c (without _ f ops)).
Proof. intro c. exact (StoreSM.remove_frees _ _ _ _ (db_store c) (db_refinement c)). Qed.
Theorem global_remove_frees : forall ops f,
  (forall q, g_get (state _ _ _ _ glob_store (ops ++ [HRemove _ f])) q = g_get (state _ _ _ _ glob_store (without _ f ops)) q) /\
  length (state _ _ _ _ glob_store (ops ++ [HRemove _ f])) = length (state _ _ _ _ glob_store (without _ f ops)).
Proof.
  intros ops f. destruct (StoreSM.remove_frees _ _ _ _ glob_store glob_refinement ops f) as [H1 H2]. split; [exact H1|].
  cbn [s_size glob_store] in H2. inversion H2 as [H3]. apply Nnat.Nat2N.inj in H3. exact H3.
Qed.

(** the simple indexes, for every state *)
Theorem diagnostic_remove_no_mention : forall s f, d_mentions (d_remove f s) f = false.
Proof. exact Proofs.diagnostic_remove_no_mention. Qed.
Theorem global_remove_no_mention : forall s f, g_mentions (g_remove f s) f = false.
Proof. exact Proofs.global_remove_no_mention. Qed.
Theorem global_remove_no_empty : forall s f nm l, In (nm, l) (g_remove f s) -> l <> [].
Proof. exact Proofs.global_remove_no_empty. Qed.
Theorem property_remove_no_file : forall s f, ngetN f (px_infile (p_remove f s)) = None.
Proof. exact Proofs.property_remove_no_file. Qed.

(** LuaTypeIndex (transcribed part: namespaces, file_types, declaration locations, super clauses): after remove(f), for
    every type the file declared, no surviving declaration location and no surviving super clause carries f — also
    when another file still declares the type; and f has no namespace / using / file_types entry. *)
Theorem type_remove_no_mention : forall s f ids id,
  ngetN f (t_ftypes s) = Some ids -> In id ids -> clean_at f id (t_remove f s).
Proof. exact Proofs.type_remove_clean. Qed.
Theorem type_remove_file_maps : forall s f,
  ngetN f (t_ns (t_remove f s)) = None /\ ngetN f (t_using (t_remove f s)) = None /\ ngetN f (t_ftypes (t_remove f s)) = None.
Proof. exact Proofs.type_remove_file_maps. Qed.

(** LuaReferenceIndex (transcribed: global_references and index_reference): after remove(f) no key lists the file, and
    no key is left with an empty file map. *)
Theorem reference_remove_no_mention : forall s f,
  rmap_mentions (r_glob (r_remove f s)) f = false /\ rmap_mentions (r_idx (r_remove f s)) f = false.
Proof. exact Proofs.reference_remove_no_mention. Qed.
Theorem reference_remove_no_empty : forall f m k files, In (k, files) (rmap_remove f m) -> files <> [].
Proof. exact Proofs.reference_remove_no_empty. Qed.

Example remove_example :
  let c := ex_cfg in
  let ops := [HUpdate mfacts 1 ([97; 46; 98], 1, false); HUpdate _ 2 ([97; 46; 99], 1, false); HUpdate _ 1 ([97; 46; 98], 1, false)] in
  mod_obs c (state _ _ _ _ (mod_store c) ops) [98] = Some (1, [97; 46; 98], 1, false) /\
  mod_obs c (state _ _ _ _ (mod_store c) (ops ++ [HRemove _ 1])) [98] = None /\
  mod_size (state _ _ _ _ (mod_store c) ops) = [4; 2; 2] /\
  mod_size (state _ _ _ _ (mod_store c) (ops ++ [HRemove _ 1])) = [3; 1; 1] /\
  without _ 1 ops = [HUpdate _ 2 ([97; 46; 99], 1, false)].
Proof. exact Proofs.remove_example. Qed.
