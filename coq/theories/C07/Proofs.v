From EV Require Import C07.Model C07.RangeFacts C07.IndentFacts.
From Coq Require Import PeanoNat.
Local Open Scope N_scope.

Lemma selected_covers : forall (t : bytes_t) (nodes : list lnode) (sel0 : range),
  wf_plan (blen_t t) nodes = true ->
  let sel := clamp_range sel0 (blen_t t) in
  exists R, select_format_range t nodes sel = Val R /\
    fst R <= snd R /\ snd R <= blen_t t /\
    line_aligned t (fst R) = true /\ (line_aligned t (snd R) = true \/ snd R = blen_t t) /\
    ((exists lvl, Level sel nodes lvl /\
        forall n r, In n lvl -> node_range n = Some r -> intersects_range r sel = true -> contains_range R r = true) \/
     ((forall n r, In n nodes -> node_range n = Some r -> intersects_range r sel = false) /\ contains_range R sel = true)).
Proof.
  intros t nodes sel0 Hwf sel. destruct (clamp_ok sel0 (blen_t t)) as [H1 H2].
  apply (select_spec t nodes sel Hwf H1 H2).
Qed.

Lemma splice_outside_untouched : forall (t : bytes_t) (r : range) (new : bytes_t),
  fst r <= snd r -> snd r <= blen_t t ->
  firstn (N.to_nat (fst r)) (splice t r new) = firstn (N.to_nat (fst r)) t /\
  skipn (N.to_nat (fst r) + length new) (splice t r new) = skipn (N.to_nat (snd r)) t.
Proof.
  intros t [a b] new H1 H2. unfold splice, blen_t in *. cbn [fst snd] in *.
  assert (length (firstn (N.to_nat a) t) = N.to_nat a) as L by (apply firstn_length_le; lia).
  split.
  - rewrite firstn_app, L, Nat.sub_diag, firstn_all2 by lia. apply app_nil_r.
  - rewrite app_assoc, <- L at 1. rewrite <- app_length, skipn_app, skipn_all, Nat.sub_diag. reflexivity.
Qed.

Lemma reindent_changes_only_leading_blank : forall x p q, all_blank p = true -> all_blank q = true ->
  ltrim_lines (apply_base_indent (strip_base_indent x q) p) = ltrim_lines x.
Proof. intros x p q Hp Hq. rewrite apply_ltrim by exact Hp. apply strip_ltrim. exact Hq. Qed.

Lemma reindent_roundtrip : forall x p q, all_blank p = true -> all_blank q = true ->
  nonblank_b (apply_base_indent (strip_base_indent x q) p) = nonblank_b x.
Proof.
  intros x p q Hp Hq. rewrite <- (nb_ltrim_lines (apply_base_indent _ _)), <- (nb_ltrim_lines x).
  rewrite reindent_changes_only_leading_blank by assumption. reflexivity.
Qed.

(** "    local s = [[a" / "b]]": the continuation line of the long string gets the base indent *)
Definition witness : bytes_t :=
  [32;32;32;32;108;111;99;97;108;32;115;32;61;32;91;91;97;10;98;93;93;10].

Lemma reindent_preserves_tokens_refuted :
  exists x p q, all_blank p = true /\ all_blank q = true /\
    long_bodies (apply_base_indent (strip_base_indent x q) p) false [] <> long_bodies x false [].
Proof.
  exists witness, [32;32;32;32], [32;32;32;32].
  split; [reflexivity|]. split; [reflexivity|]. vm_compute. discriminate.
Qed.

(** a document of three lines, a plan with a block, every selection class *)
Definition ex_text : bytes_t :=
  (* "do\n  x = 1\nend\ny = 2" *)
  [100;111;10;32;32;120;32;61;32;49;10;101;110;100;10;121;32;61;32;50].
Definition ex_plan : list lnode :=
  [LNode (Some (0, 14)) true false [LNode (Some (5, 10)) true true [LNode (Some (5, 10)) true false []]];
   LNode (Some (15, 20)) true false []].

Lemma range_example :
  wf_plan (blen_t ex_text) ex_plan = true /\
  (* inside the block statement: the statement's line *)
  select_format_range ex_text ex_plan (clamp_range (7, 7) 20) = Val (3, 11) /\
  (* partial token of the second root statement *)
  select_format_range ex_text ex_plan (clamp_range (16, 17) 20) = Val (15, 20) /\
  (* beyond the end: clamped to the empty range at the end, which touches the last statement *)
  select_format_range ex_text ex_plan (clamp_range (40, 90) 20) = Val (15, 20) /\
  (* whole document *)
  select_format_range ex_text ex_plan (clamp_range (0, 20) 20) = Val (0, 20) /\
  strip_base_indent [32;32;97;10;32;98;10;10] [32;32] = [97;10;32;98;10;10] /\
  apply_base_indent [97;10;10;98] [9] = [9;97;10;10;9;98].
Proof. vm_compute. repeat split; reflexivity. Qed.
