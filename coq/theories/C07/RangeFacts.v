(** C07/RangeFacts.v — the range selected for formatting is in bounds, line-aligned, and covers every node the
    selection intersects at some level of the layout tree ([select_spec]). *)
From EV Require Import C07.Model.
From Coq Require Import PeanoNat.
Local Open Scope N_scope.

Lemma clamp_ok : forall r ub, fst (clamp_range r ub) <= snd (clamp_range r ub) /\ snd (clamp_range r ub) <= ub.
Proof. intros [a b] ub. unfold clamp_range. cbn [fst snd]. lia. Qed.

Definition AlignedP (whole : bytes_t) (o : N) : Prop :=
  o = 0 \/ nth_error whole (N.to_nat (o - 1)) = Some NLb.

Lemma line_aligned_iff : forall t o, line_aligned t o = true <-> AlignedP t o.
Proof.
  intros t o. unfold line_aligned, AlignedP. rewrite orb_true_iff, N.eqb_eq.
  destruct (nth_error t (N.to_nat (o - 1))) as [b|]; [rewrite N.eqb_eq|];
    split; (intros [H|H]; [left; exact H|right; congruence]).
Qed.

Lemma blen_app : forall a b, blen_t (a ++ b) = blen_t a + blen_t b.
Proof. intros. unfold blen_t. rewrite app_length. lia. Qed.

Lemma app_snoc : forall (pre : bytes_t) b t, pre ++ b :: t = (pre ++ [b]) ++ t.
Proof. intros. rewrite <- app_assoc. reflexivity. Qed.

Lemma blen_snoc : forall pre b, blen_t (pre ++ [b]) = blen_t pre + 1.
Proof. intros. apply blen_app. Qed.

Lemma aligned_after : forall pre r, AlignedP ((pre ++ [NLb]) ++ r) (blen_t pre + 1).
Proof.
  intros. right. replace (blen_t pre + 1 - 1) with (blen_t pre) by lia.
  unfold blen_t. rewrite Nat2N.id, <- app_assoc, nth_error_app2, Nat.sub_diag by lia. reflexivity.
Qed.

(** both scans are read with the text already passed as an explicit prefix [pre] *)
Lemma ls_aux_spec : forall t pre limit cur,
  AlignedP (pre ++ t) cur ->
  let r := line_start_aux t (blen_t pre) limit cur in
  AlignedP (pre ++ t) r /\ r <= N.max cur limit.
Proof.
  induction t as [|b t IH]; intros pre limit cur Ha; cbn [line_start_aux].
  - split; [exact Ha|lia].
  - destruct (N.leb_spec limit (blen_t pre)) as [L|L]; [split; [exact Ha|lia]|].
    rewrite app_snoc in *. pose proof (blen_snoc pre b) as E. rewrite <- E.
    destruct (N.eqb_spec b NLb) as [->|Hb]; [|exact (IH (pre ++ [b]) limit cur Ha)].
    destruct (IH (pre ++ [NLb]) limit (blen_t (pre ++ [NLb]))) as [H1 H2]; [rewrite E; apply aligned_after|].
    split; [exact H1|lia].
Qed.

Lemma le_aux_spec : forall t pre index,
  let r := line_end_aux t (blen_t pre) index in
  r <= blen_t (pre ++ t) /\ N.min index (blen_t (pre ++ t)) <= r /\
  (r = blen_t (pre ++ t) \/ AlignedP (pre ++ t) r).
Proof.
  induction t as [|b t IH]; intros pre index; cbn [line_end_aux].
  - rewrite app_nil_r. repeat split; lia.
  - rewrite app_snoc.
    assert (blen_t ((pre ++ [b]) ++ t) = blen_t pre + 1 + blen_t t) as E by (rewrite blen_app, blen_snoc; reflexivity).
    destruct ((index <=? blen_t pre) && (b =? NLb)) eqn:C.
    + rewrite andb_true_iff, N.leb_le, N.eqb_eq in C. destruct C as [C1 ->].
      repeat split; try lia. right. apply aligned_after.
    + rewrite <- (blen_snoc pre b). apply IH.
Qed.

Lemma expand_spec : forall t r, fst r <= snd r ->
  let R := expand_to_full_lines t r in
  fst R <= snd R /\ snd R <= blen_t t /\
  line_aligned t (fst R) = true /\ (line_aligned t (snd R) = true \/ snd R = blen_t t) /\
  fst R <= fst r /\ N.min (snd r) (blen_t t) <= snd R.
Proof.
  intros t [a b] Hab. unfold expand_to_full_lines, line_start_offset, line_end_offset. cbn [fst snd] in *.
  destruct (ls_aux_spec t [] (N.min a (blen_t t)) 0) as (S1 & S2); [left; reflexivity|].
  destruct (le_aux_spec t [] (N.min b (blen_t t))) as (E1 & E2 & E3).
  cbn [app] in *. change (blen_t []) with 0 in *.
  split; [lia|]. split; [exact E1|]. split; [apply line_aligned_iff, S1|].
  split; [destruct E3 as [E3|E3]; [right; exact E3|left; apply line_aligned_iff, E3]|]. lia.
Qed.

Lemma sorted_cons : forall len lo n rest, sorted_from len lo (n :: rest) = true <->
  match node_range n with
  | Some r => (lo <= fst r /\ fst r <= snd r /\ snd r <= len) /\ sorted_from len (snd r) rest = true
  | None => sorted_from len lo rest = true
  end.
Proof.
  intros. cbn [sorted_from]. destruct (node_range n); [|reflexivity].
  rewrite !andb_true_iff, !N.leb_le. tauto.
Qed.

Lemma sorted_weaken : forall len nodes lo lo', lo' <= lo -> sorted_from len lo nodes = true -> sorted_from len lo' nodes = true.
Proof.
  induction nodes as [|n nodes IH]; intros lo lo' Hl H; [reflexivity|].
  rewrite sorted_cons in *. destruct (node_range n) as [r|]; [|exact (IH _ _ Hl H)].
  split; [lia|apply H].
Qed.

(** the accumulators of [overlapping_aux] only supply defaults *)
Lemma overlapping_acc : forall sel nodes first last,
  overlapping_aux nodes sel first last =
  (match first with Some _ => first | None => fst (overlapping_aux nodes sel None None) end,
   match snd (overlapping_aux nodes sel None None) with Some l => Some l | None => last end).
Proof.
  intros sel. induction nodes as [|n nodes IH]; intros first last; cbn [overlapping_aux].
  - destruct first; reflexivity.
  - destruct (node_range n) as [r|]; [destruct (intersects_range r sel)|]; try apply IH.
    rewrite IH, (IH (Some r) (Some r)). cbn [fst snd].
    destruct first, (snd (overlapping_aux nodes sel None None)); reflexivity.
Qed.

(** what the scan of ordered siblings starting at or after [lo] yields: nothing, or the start of the
    first and the end of the last node the selection intersects *)
Definition Slice (len : N) (sel : range) (lo : N) (nodes : list lnode) (res : option range * option range) : Prop :=
  match res with
  | (Some f, Some l) =>
      lo <= fst f /\ fst f <= snd l /\ snd l <= len /\
      forall n r, In n nodes -> node_range n = Some r -> intersects_range r sel = true -> fst f <= fst r /\ snd r <= snd l
  | (None, None) => forall n r, In n nodes -> node_range n = Some r -> intersects_range r sel = false
  | _ => False
  end.

Lemma slice_skip : forall len sel lo lo' n nodes res,
  lo <= lo' -> (forall r, node_range n = Some r -> intersects_range r sel = false) ->
  Slice len sel lo' nodes res -> Slice len sel lo (n :: nodes) res.
Proof.
  intros len sel lo lo' n nodes [[f|] [l|]] Hlo Hn H; cbn [Slice] in *; try contradiction.
  - destruct H as (A & B & C & D). split; [lia|]. split; [exact B|]. split; [exact C|].
    intros m rm [<-|Hm] Hrm Him; [rewrite (Hn rm Hrm) in Him; discriminate Him|exact (D m rm Hm Hrm Him)].
  - intros m rm [<-|Hm] Hrm; [exact (Hn rm Hrm)|exact (H m rm Hm Hrm)].
Qed.

Lemma overlapping_spec : forall len sel nodes lo, sorted_from len lo nodes = true ->
  Slice len sel lo nodes (overlapping_aux nodes sel None None).
Proof.
  intros len sel. induction nodes as [|n nodes IH]; intros lo Hs; cbn [overlapping_aux]; [intros n r []|].
  apply sorted_cons in Hs. destruct (node_range n) as [r|] eqn:Hr.
  - destruct Hs as [Hb Hs]. specialize (IH _ Hs). destruct (intersects_range r sel) eqn:Hi.
    + rewrite overlapping_acc.
      destruct (overlapping_aux nodes sel None None) as [[f|] [l|]]; cbn [fst snd Slice] in *; try contradiction.
      * destruct IH as (A & B & C & D). split; [lia|]. split; [lia|]. split; [exact C|].
        intros m rm [<-|Hm] Hrm Him; [rewrite Hr in Hrm; inversion Hrm; subst rm; lia|].
        destruct (D m rm Hm Hrm Him). lia.
      * split; [lia|]. split; [lia|]. split; [lia|].
        intros m rm [<-|Hm] Hrm Him; [rewrite Hr in Hrm; inversion Hrm; subst rm; lia|].
        rewrite (IH m rm Hm Hrm) in Him. discriminate Him.
    + apply (slice_skip _ _ _ (snd r)); [lia| |exact IH]. intros r' E. congruence.
  - apply (slice_skip _ _ _ lo); [lia| |exact (IH _ Hs)]. intros r' E. congruence.
Qed.

Lemma overlapping_covers : forall len sel nodes, sorted_from len 0 nodes = true ->
  match find_overlapping_slice nodes sel with
  | Val R => fst R <= snd R /\ snd R <= len /\
             (forall n r, In n nodes -> node_range n = Some r -> intersects_range r sel = true -> contains_range R r = true)
  | Nothing => forall n r, In n nodes -> node_range n = Some r -> intersects_range r sel = false
  | Panic => False
  end.
Proof.
  intros len sel nodes Hs. unfold find_overlapping_slice. pose proof (overlapping_spec len sel nodes 0 Hs) as H.
  destruct (overlapping_aux nodes sel None None) as [[f|] [l|]]; cbn [Slice] in H; try contradiction; [|exact H].
  destruct H as (_ & B & C & D). destruct (N.leb_spec (fst f) (snd l)) as [_|L]; [|lia].
  cbn [fst snd]. split; [exact B|]. split; [exact C|]. intros n r H1 H2 H3.
  unfold contains_range. cbn [fst snd]. rewrite andb_true_iff, !N.leb_le. exact (D n r H1 H2 H3).
Qed.

Section LnodeInd.
  Variable P : lnode -> Prop.
  Variable PL : list lnode -> Prop.
  Hypothesis H_node : forall r sy bl ch, PL ch -> P (LNode r sy bl ch).
  Hypothesis H_nil : PL [].
  Hypothesis H_cons : forall n l, P n -> PL l -> PL (n :: l).
  Fixpoint lnode_ind2 (n : lnode) : P n :=
    match n with
    | LNode r sy bl ch =>
        H_node r sy bl ch ((fix go (l : list lnode) : PL l :=
                              match l with [] => H_nil | c :: rest => H_cons c rest (lnode_ind2 c) (go rest) end) ch)
    end.
  Fixpoint lnodes_ind2 (l : list lnode) : PL l :=
    match l with [] => H_nil | c :: rest => H_cons c rest (lnode_ind2 c) (lnodes_ind2 rest) end.
End LnodeInd.

Lemma wf_node_unfold : forall len r sy bl ch,
  wf_node len (LNode r sy bl ch) = sorted_from len 0 ch && wf_list len ch.
Proof.
  intros. cbn [wf_node]. f_equal.
  induction ch as [|c ch IH]; [reflexivity|]. cbn [wf_list]. rewrite <- IH. reflexivity.
Qed.

Lemma deepest_node_unfold : forall r sy bl ch sel,
  deepest_node (LNode r sy bl ch) sel =
  if negb sy then Nothing
  else match r with
       | None => Nothing
       | Some nr =>
           if negb (contains_range nr sel) then Nothing
           else match deepest_list ch sel with
                | Nothing => if bl then find_overlapping_slice ch sel else Nothing
                | x => x
                end
       end.
Proof.
  intros. cbn [deepest_node]. destruct (negb sy); [reflexivity|]. destruct r as [nr|]; [|reflexivity].
  destruct (negb (contains_range nr sel)); [reflexivity|].
  match goal with |- match ?A with _ => _ end = match ?B with _ => _ end => assert (A = B) as E end.
  { clear. induction ch as [|c ch IH]; [reflexivity|]. cbn [deepest_list]. rewrite <- IH. reflexivity. }
  rewrite E. reflexivity.
Qed.

(** what a deepest-block slice is: the overlapping slice of an ordered sibling list one can reach
    from [nodes] through syntax nodes containing the selection *)
Definition DeepOk (len : N) (sel : range) (nodes : list lnode) (R : range) : Prop :=
  exists lvl, Level sel nodes lvl /\ sorted_from len 0 lvl = true /\ find_overlapping_slice lvl sel = Val R.

(** a slice found below a node of [l] is a deepest-block slice of every list that holds [l] *)
Lemma deepest_list_spec : forall len sel l, wf_list len l = true ->
  match deepest_list l sel with
  | Val R => forall nodes, incl l nodes -> DeepOk len sel nodes R
  | Nothing => True
  | Panic => False
  end.
Proof.
  intros len sel l0. pattern l0.
  apply (lnodes_ind2
           (fun n => wf_node len n = true ->
              match deepest_node n sel with
              | Val R => forall nodes, In n nodes -> DeepOk len sel nodes R
              | Nothing => True
              | Panic => False
              end)).
  - intros r sy bl ch IH Hwf. rewrite wf_node_unfold, andb_true_iff in Hwf. destruct Hwf as [Hs Hw].
    rewrite deepest_node_unfold. destruct sy; cbn [negb]; [|exact I].
    destruct r as [nr|]; [|exact I].
    destruct (contains_range nr sel) eqn:Hc; cbn [negb]; [|exact I].
    assert (forall R, DeepOk len sel ch R ->
              forall nodes, In (LNode (Some nr) true bl ch) nodes -> DeepOk len sel nodes R) as Down.
    { intros R (lvl & L1 & L2) nodes Hin. exists lvl. split; [eapply Level_down; eassumption|exact L2]. }
    specialize (IH Hw). destruct (deepest_list ch sel) as [R| |]; [|destruct bl; [|exact I]|exact IH].
    + apply Down, IH, incl_refl.
    + pose proof (overlapping_covers len sel ch Hs) as Ho.
      destruct (find_overlapping_slice ch sel) as [R| |] eqn:Eo; [|exact I|exact Ho].
      apply Down. exists ch. split; [apply Level_here|]. split; [exact Hs|exact Eo].
  - intros _. exact I.
  - intros n l IHn IHl Hwf. cbn [wf_list] in Hwf. rewrite andb_true_iff in Hwf. destruct Hwf as [Hw1 Hw2].
    cbn [deepest_list]. specialize (IHn Hw1). specialize (IHl Hw2).
    destruct (deepest_node n sel) as [R| |]; [| |exact IHn].
    + intros nodes Hi. apply IHn, Hi, in_eq.
    + destruct (deepest_list l sel) as [R| |]; [|exact I|exact IHl].
      intros nodes Hi. apply IHl. intros x Hx. apply Hi, in_cons, Hx.
Qed.

Definition Covers (sel R : range) (lvl : list lnode) : Prop :=
  forall n r, In n lvl -> node_range n = Some r -> intersects_range r sel = true -> contains_range R r = true.

(** the range that is expanded to full lines: a slice that covers what the selection intersects
    at some level, or the selection itself when it touches no root node *)
Lemma select_slice : forall t nodes sel,
  wf_plan (blen_t t) nodes = true -> fst sel <= snd sel -> snd sel <= blen_t t ->
  exists R0, select_format_range t nodes sel = Val (expand_to_full_lines t R0) /\
    fst R0 <= snd R0 /\ snd R0 <= blen_t t /\
    ((exists lvl, Level sel nodes lvl /\ Covers sel R0 lvl) \/
     ((forall n r, In n nodes -> node_range n = Some r -> intersects_range r sel = false) /\ R0 = sel)).
Proof.
  intros t nodes sel Hwf Hsel1 Hsel2. unfold wf_plan in Hwf. rewrite andb_true_iff in Hwf. destruct Hwf as [Hs Hw].
  unfold select_format_range.
  pose proof (deepest_list_spec (blen_t t) sel nodes Hw) as Hd.
  destruct (deepest_list nodes sel) as [R0| |]; [| |destruct Hd].
  - destruct (Hd nodes (incl_refl _)) as (lvl & L1 & L2 & L3).
    pose proof (overlapping_covers (blen_t t) sel lvl L2) as Ho. rewrite L3 in Ho. destruct Ho as (O1 & O2 & O3).
    exists R0. repeat split; try assumption. left. exists lvl. split; assumption.
  - pose proof (overlapping_covers (blen_t t) sel nodes Hs) as Ho.
    destruct (find_overlapping_slice nodes sel) as [R0| |]; [| |destruct Ho].
    + destruct Ho as (O1 & O2 & O3).
      exists R0. repeat split; try assumption. left. exists nodes. split; [apply Level_here|exact O3].
    + exists sel. repeat split; try assumption. right. split; [exact Ho|reflexivity].
Qed.

Lemma select_spec : forall t nodes sel,
  wf_plan (blen_t t) nodes = true -> fst sel <= snd sel -> snd sel <= blen_t t ->
  exists R, select_format_range t nodes sel = Val R /\
    fst R <= snd R /\ snd R <= blen_t t /\
    line_aligned t (fst R) = true /\ (line_aligned t (snd R) = true \/ snd R = blen_t t) /\
    ((exists lvl, Level sel nodes lvl /\ Covers sel R lvl) \/
     ((forall n r, In n nodes -> node_range n = Some r -> intersects_range r sel = false) /\ contains_range R sel = true)).
Proof.
  intros t nodes sel Hwf Hsel1 Hsel2.
  destruct (select_slice t nodes sel Hwf Hsel1 Hsel2) as (R0 & E & H1 & H2 & Hc).
  exists (expand_to_full_lines t R0). destruct (expand_spec t R0 H1) as (A & B & C & D & E1 & E2).
  do 5 (split; [assumption|]).
  assert (forall r, contains_range R0 r = true -> contains_range (expand_to_full_lines t R0) r = true) as Hw.
  { intros r. unfold contains_range. rewrite !andb_true_iff, !N.leb_le. lia. }
  destruct Hc as [(lvl & HL & HC)|[Hn ->]]; [left|right].
  - exists lvl. split; [exact HL|]. intros n r Hn Hr Hi. apply Hw, (HC n r Hn Hr Hi).
  - split; [exact Hn|]. apply Hw. unfold contains_range. rewrite andb_true_iff, !N.leb_le. lia.
Qed.
