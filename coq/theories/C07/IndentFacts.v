(** C07/IndentFacts.v — line splitting and re-indentation ([strip_base_indent],
    [apply_base_indent]) change only the leading blanks of lines. *)
From EV Require Import C07.Model.
Local Open Scope N_scope.

Definition nlfree (c : bytes_t) : Prop := ~ In NLb c.

Lemma nlfree_app : forall a b, nlfree (a ++ b) <-> nlfree a /\ nlfree b.
Proof. intros a b. unfold nlfree. rewrite in_app_iff. tauto. Qed.

Lemma nlfree_cons : forall x a, nlfree (x :: a) <-> x <> NLb /\ nlfree a.
Proof. intros x a. unfold nlfree. cbn [In]. tauto. Qed.

Lemma nlfree_rev : forall a, nlfree (rev a) <-> nlfree a.
Proof. intros a. unfold nlfree. rewrite <- in_rev. reflexivity. Qed.

Lemma nlfree_nil : nlfree []. Proof. intros []. Qed.

Lemma si_concat : forall t cur, concat (split_inclusive t cur) = rev cur ++ t.
Proof.
  induction t as [|b t IH]; intros cur; cbn [split_inclusive].
  - destruct cur as [|x cur]; [reflexivity|]. cbn [concat]. rewrite !app_nil_r. reflexivity.
  - destruct (b =? NLb).
    + cbn [concat]. rewrite IH. cbn [rev app]. rewrite <- app_assoc. reflexivity.
    + rewrite IH. cbn [rev]. rewrite <- app_assoc. reflexivity.
Qed.

Lemma lines_concat : forall t, concat (lines_of t) = t.
Proof. intros t. unfold lines_of. rewrite si_concat. reflexivity. Qed.

Lemma si_prefix : forall c X cur, nlfree c ->
  split_inclusive (c ++ NLb :: X) cur = (rev cur ++ c ++ [NLb]) :: split_inclusive X [].
Proof.
  induction c as [|x c IH]; intros X cur Hc; cbn [app split_inclusive].
  - rewrite N.eqb_refl. cbn [rev]. reflexivity.
  - apply nlfree_cons in Hc. destruct Hc as [Hx Hc].
    destruct (N.eqb_spec x NLb) as [E|_]; [contradiction|].
    rewrite IH by exact Hc. cbn [rev]. rewrite <- app_assoc. reflexivity.
Qed.

Lemma si_partial : forall c cur, nlfree c ->
  split_inclusive c cur = match rev cur ++ c with [] => [] | l => [l] end.
Proof.
  induction c as [|x c IH]; intros cur Hc; cbn [split_inclusive].
  - rewrite app_nil_r. destruct cur as [|y cur]; [reflexivity|]. cbn [rev]. destruct (rev cur); reflexivity.
  - apply nlfree_cons in Hc. destruct Hc as [Hx Hc].
    destruct (N.eqb_spec x NLb) as [E|_]; [contradiction|].
    rewrite IH by exact Hc. cbn [rev]. rewrite <- app_assoc. reflexivity.
Qed.

Definition full (l : bytes_t) : Prop := exists c, l = c ++ [NLb] /\ nlfree c.

Fixpoint lines_ok (L : list bytes_t) : Prop :=
  match L with
  | [] => True
  | l :: rest => match rest with [] => full l \/ nlfree l | _ => full l /\ lines_ok rest end
  end.

Lemma si_ok : forall t cur, nlfree (rev cur) -> lines_ok (split_inclusive t cur).
Proof.
  induction t as [|b t IH]; intros cur Hc; cbn [split_inclusive].
  - destruct cur as [|x cur]; [exact I|]. right. exact Hc.
  - destruct (N.eqb_spec b NLb) as [E|E].
    + subst b. assert (full (rev (NLb :: cur))) as Hf.
      { exists (rev cur). split; [reflexivity|exact Hc]. }
      specialize (IH [] nlfree_nil).
      cbn [lines_ok]. destruct (split_inclusive t []); [left; exact Hf|split; [exact Hf|exact IH]].
    + apply IH. cbn [rev]. apply nlfree_app. split; [exact Hc|]. apply nlfree_cons. split; [exact E|exact nlfree_nil].
Qed.

Lemma lines_of_ok : forall t, lines_ok (lines_of t).
Proof. intros t. apply si_ok, nlfree_nil. Qed.

Lemma sle_concat : forall l, fst (split_line_ending l) ++ snd (split_line_ending l) = l.
Proof.
  intros l. unfold split_line_ending. destruct (rev l) as [|a [|b r]] eqn:E;
    apply (f_equal (@rev N)) in E; rewrite rev_involutive in E; subst l; cbn [rev app].
  - reflexivity.
  - destruct (N.eqb_spec a NLb) as [->|_]; reflexivity.
  - destruct (N.eqb_spec a NLb) as [->|_]; cbn [andb fst snd]; [|apply app_nil_r].
    destruct (N.eqb_spec b CRb) as [->|_]; cbn [fst snd rev]; [rewrite <- app_assoc|]; reflexivity.
Qed.

Lemma sle_full : forall l, full l ->
  nlfree (fst (split_line_ending l)) /\
  (snd (split_line_ending l) = [NLb] \/ snd (split_line_ending l) = [CRb; NLb]).
Proof.
  intros l [c [El Hc]]. subst l. unfold split_line_ending. rewrite rev_app_distr. cbn [rev app].
  apply nlfree_rev in Hc. destruct (rev c) as [|b r] eqn:Er.
  - rewrite N.eqb_refl. cbn [fst snd]. split; [exact nlfree_nil|left; reflexivity].
  - rewrite N.eqb_refl. cbn [andb]. apply nlfree_cons in Hc. destruct Hc as [Hb Hr].
    destruct (b =? CRb); cbn [fst snd].
    + split; [apply nlfree_rev; exact Hr|right; reflexivity].
    + split; [|left; reflexivity]. apply nlfree_app. split; [apply nlfree_rev; exact Hr|].
      apply nlfree_cons. split; [exact Hb|exact nlfree_nil].
Qed.

Lemma sle_partial : forall l, nlfree l -> split_line_ending l = (l, []).
Proof.
  intros l Hl. unfold split_line_ending. apply nlfree_rev in Hl.
  destruct (rev l) as [|a r]; [reflexivity|]. apply nlfree_cons in Hl. destruct Hl as [Ha _].
  destruct (N.eqb_spec a NLb); [contradiction|]. destruct r; reflexivity.
Qed.

Lemma ltrim_blank_app : forall p x, all_blank p = true -> ltrim (p ++ x) = ltrim x.
Proof.
  induction p as [|b p IH]; intros x H; [reflexivity|].
  cbn [all_blank forallb] in H. apply andb_true_iff in H. destruct H as [H1 H2].
  cbn [app ltrim]. rewrite H1. apply IH. exact H2.
Qed.

Lemma strip_prefix_some : forall p s r, strip_prefix s p = Some r -> s = p ++ r.
Proof.
  induction p as [|x p IH]; intros s r H.
  - destruct s; cbn [strip_prefix] in H; inversion H; reflexivity.
  - destruct s as [|y s]; cbn [strip_prefix] in H; [discriminate|]. destruct (N.eqb_spec x y) as [E|E]; [|discriminate].
    subst y. cbn [app]. f_equal. apply IH. exact H.
Qed.

Lemma nb_ltrim : forall l, nonblank_b (ltrim l) = nonblank_b l.
Proof.
  induction l as [|b l IH]; [reflexivity|]. cbn [ltrim]. destruct (is_blank_b b) eqn:E.
  - rewrite IH. unfold nonblank_b. cbn [filter]. rewrite E. reflexivity.
  - reflexivity.
Qed.

Lemma nb_app : forall a b, nonblank_b (a ++ b) = nonblank_b a ++ nonblank_b b.
Proof. intros. unfold nonblank_b. apply filter_app. Qed.

Lemma nb_ltrim_lines : forall t, nonblank_b (ltrim_lines t) = nonblank_b t.
Proof.
  intros t. unfold ltrim_lines. rewrite <- (lines_concat t) at 2.
  induction (lines_of t) as [|l L IH]; [reflexivity|].
  cbn [flat_map concat]. rewrite !nb_app, nb_ltrim, IH. reflexivity.
Qed.

Lemma all_blank_nlfree : forall p, all_blank p = true -> nlfree p.
Proof.
  intros p Hp Hin. unfold all_blank in Hp. rewrite forallb_forall in Hp. discriminate (Hp NLb Hin).
Qed.

Section MapLines.
  Variable f : bytes_t -> bytes_t -> bytes_t.
  Variable h : bytes_t -> bytes_t.
  Hypothesis H_shape : forall c nl, f c nl = h c ++ nl.
  Hypothesis H_nlfree : forall c, nlfree c -> nlfree (h c).
  Hypothesis H_ltrim : forall c nl, ltrim (h c ++ nl) = ltrim (c ++ nl).

  (** what [map_lines f] does to one line *)
  Definition on_line (l : bytes_t) : bytes_t := let '(c, nl) := split_line_ending l in f c nl.

  Lemma on_line_ltrim : forall l, ltrim (on_line l) = ltrim l.
  Proof.
    intros l. unfold on_line. pose proof (sle_concat l) as E. destruct (split_line_ending l) as [c nl].
    cbn [fst snd] in E. rewrite H_shape, H_ltrim, E. reflexivity.
  Qed.

  Lemma on_line_full : forall l, full l -> exists c', on_line l = c' ++ [NLb] /\ nlfree c'.
  Proof.
    intros l Hf. unfold on_line. destruct (sle_full l Hf) as [Hc Hnl]. destruct (split_line_ending l) as [c nl].
    cbn [fst snd] in *. rewrite H_shape. destruct Hnl as [E|E]; subst nl.
    - exists (h c). split; [reflexivity|apply H_nlfree; exact Hc].
    - exists (h c ++ [CRb]). split; [rewrite <- app_assoc; reflexivity|].
      apply nlfree_app. split; [apply H_nlfree; exact Hc|]. intros [E|[]]. discriminate E.
  Qed.

  Lemma on_line_partial : forall l, nlfree l -> nlfree (on_line l).
  Proof.
    intros l Hp. unfold on_line. rewrite (sle_partial l Hp), H_shape, app_nil_r. apply H_nlfree, Hp.
  Qed.

  Lemma resplit : forall L, lines_ok L ->
    flat_map ltrim (lines_of (flat_map on_line L)) = flat_map ltrim L.
  Proof.
    induction L as [|l rest IH]; intros Hok; [reflexivity|].
    cbn [lines_ok] in Hok. cbn [flat_map]. destruct rest as [|l2 rest].
    - rewrite app_nil_r. destruct Hok as [Hf|Hp].
      + destruct (on_line_full l Hf) as [c' [Eg Hc']]. rewrite <- (on_line_ltrim l). rewrite Eg.
        unfold lines_of. replace (c' ++ [NLb]) with (c' ++ NLb :: []) by reflexivity.
        rewrite si_prefix by exact Hc'. cbn [rev app split_inclusive flat_map]. reflexivity.
      + pose proof (on_line_partial l Hp) as Hg. unfold lines_of. rewrite si_partial by exact Hg.
        cbn [rev app]. rewrite <- (on_line_ltrim l). destruct (on_line l); reflexivity.
    - destruct Hok as [Hf Hok]. destruct (on_line_full l Hf) as [c' [Eg Hc']].
      specialize (IH Hok). cbn [flat_map] in IH. rewrite Eg. rewrite <- app_assoc. cbn [app].
      unfold lines_of in *. rewrite si_prefix by exact Hc'. cbn [rev app flat_map].
      rewrite IH. rewrite <- Eg, on_line_ltrim. reflexivity.
  Qed.

  Lemma map_lines_ltrim : forall t, ltrim_lines (map_lines f t) = ltrim_lines t.
  Proof.
    intros t. unfold ltrim_lines, map_lines. apply resplit, lines_of_ok.
  Qed.
End MapLines.

Lemma strip_ltrim : forall t q, all_blank q = true -> ltrim_lines (strip_base_indent t q) = ltrim_lines t.
Proof.
  intros t q Hq. unfold strip_base_indent.
  apply (map_lines_ltrim _ (fun c => match strip_prefix c q with Some r => r | None => c end)).
  - reflexivity.
  - intros c Hc. destruct (strip_prefix c q) as [r|] eqn:E; [|exact Hc].
    apply strip_prefix_some in E. subst c. apply nlfree_app in Hc. apply Hc.
  - intros c nl. destruct (strip_prefix c q) as [r|] eqn:E; [|reflexivity].
    apply strip_prefix_some in E. subst c. rewrite <- app_assoc. rewrite (ltrim_blank_app q (r ++ nl) Hq). reflexivity.
Qed.

Lemma apply_ltrim : forall t p, all_blank p = true -> ltrim_lines (apply_base_indent t p) = ltrim_lines t.
Proof.
  intros t p Hp. unfold apply_base_indent. destruct p as [|x p]; [reflexivity|].
  set (pp := x :: p) in *.
  apply (map_lines_ltrim _ (fun c => match c with [] => [] | _ :: _ => pp ++ c end)).
  - intros [|y c] nl; [reflexivity|]. rewrite <- app_assoc. reflexivity.
  - intros [|y c] Hc; [exact nlfree_nil|]. apply nlfree_app. split; [apply all_blank_nlfree, Hp|exact Hc].
  - intros [|y c] nl; [reflexivity|]. rewrite <- app_assoc. apply ltrim_blank_app. exact Hp.
Qed.
