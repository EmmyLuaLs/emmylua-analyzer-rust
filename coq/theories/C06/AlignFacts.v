(** C06/AlignFacts.v — the alignment kernel is a fixpoint on its own output. *)
From EV Require Import C06.Model Base.TextFacts.
Local Open Scope N_scope.

Lemma rtrim_rev_spaces : forall k r, rtrim_rev (repeat SPc k ++ r) = rtrim_rev r.
Proof.
  induction k as [|k IH]; intros r; [reflexivity|].
  cbn [repeat app rtrim_rev]. replace (SPc =? SPc) with true by reflexivity. apply IH.
Qed.

Lemma rev_repeat : forall (x : cp) k, rev (repeat x k) = repeat x k.
Proof.
  intros x. induction k as [|k IH]; [reflexivity|]. cbn [repeat rev]. rewrite IH. symmetry. apply repeat_cons.
Qed.

Lemma rtrim_rev_trimmed : forall r, match r with c :: _ => negb (c =? SPc) | [] => true end = true -> rtrim_rev r = r.
Proof. intros [|c r] H; [reflexivity|]. cbn [rtrim_rev]. destruct (c =? SPc); [discriminate|reflexivity]. Qed.

Lemma rtrim_pad : forall c k, trimmed c = true -> rtrim (c ++ spaces k) = c.
Proof.
  intros c k H. unfold rtrim, spaces. rewrite rev_app_distr, rev_repeat, rtrim_rev_spaces.
  unfold trimmed in H. rewrite (rtrim_rev_trimmed _ H). apply rev_involutive.
Qed.

Lemma rtrim_trimmed : forall c, trimmed c = true -> rtrim c = c.
Proof. intros c H. rewrite <- (app_nil_r c) at 1. apply (rtrim_pad c 0 H). Qed.

Lemma pad_row_retrim : forall ws cols, forallb trimmed cols = true -> map rtrim (pad_row ws cols) = cols.
Proof.
  intros ws cols. revert ws. induction cols as [|c rest IH]; intros ws H; [reflexivity|].
  cbn [forallb] in H. apply andb_true_iff in H. destruct H as [Hc Hr].
  cbn [pad_row]. destruct rest as [|c2 rest].
  - cbn [map]. rewrite rtrim_trimmed by exact Hc. reflexivity.
  - destruct ws as [|w ws]; cbn [map].
    + rewrite rtrim_trimmed by exact Hc. f_equal. apply IH. exact Hr.
    + rewrite rtrim_pad by exact Hc. f_equal. apply IH. exact Hr.
Qed.

Lemma pad_rows_retrim : forall rows, forallb (forallb trimmed) rows = true ->
  map (map rtrim) (pad_rows rows) = rows.
Proof.
  intros rows H. unfold pad_rows. generalize (widths rows) as ws. intros ws.
  induction rows as [|r rows IH]; [reflexivity|].
  cbn [forallb] in H. apply andb_true_iff in H. destruct H as [H1 H2].
  cbn [map]. rewrite pad_row_retrim by exact H1. f_equal. apply IH. exact H2.
Qed.

Lemma align_idempotent : forall rows, forallb (forallb trimmed) rows = true ->
  pad_rows (map (map rtrim) (pad_rows rows)) = pad_rows rows.
Proof. intros rows H. rewrite pad_rows_retrim by exact H. reflexivity. Qed.

Lemma nospace_app : forall a b, nospace (a ++ b) = nospace a ++ nospace b.
Proof. intros. unfold nospace. apply filter_app. Qed.

Lemma nospace_spaces : forall k, nospace (spaces k) = [].
Proof.
  intros k. unfold spaces. induction (N.to_nat k) as [|n IH]; [reflexivity|].
  cbn [repeat]. unfold nospace in *. cbn [filter]. unfold is_space. replace (SPc =? SPc) with true by reflexivity.
  cbn [negb]. exact IH.
Qed.

Lemma join_nospace : forall cols b, nospace (join_cols b cols) = nospace (concat cols).
Proof.
  induction cols as [|c rest IH]; intros b; [reflexivity|].
  cbn [join_cols concat]. rewrite !nospace_app, IH. destruct b; reflexivity.
Qed.

Lemma pad_row_cons2 : forall ws c c2 rest,
  pad_row ws (c :: c2 :: rest) =
  match ws with
  | w :: ws' => (c ++ spaces (w - bytes c)) :: pad_row ws' (c2 :: rest)
  | [] => c :: pad_row [] (c2 :: rest)
  end.
Proof. intros. destruct ws; reflexivity. Qed.

Lemma pad_row_nospace : forall ws cols, nospace (concat (pad_row ws cols)) = nospace (concat cols).
Proof.
  intros ws cols. revert ws. induction cols as [|c rest IH]; intros ws; [reflexivity|].
  destruct rest as [|c2 rest]; [reflexivity|].
  rewrite pad_row_cons2.
  destruct ws as [|w ws]; rewrite 2 concat_cons, !nospace_app, IH; [reflexivity|].
  rewrite nospace_spaces, app_nil_r. reflexivity.
Qed.

Lemma align_only_adds_spaces : forall ws b cols, nospace (render_row ws b cols) = nospace (concat cols).
Proof. intros. unfold render_row. rewrite join_nospace. apply pad_row_nospace. Qed.

Fixpoint le_widths (cols : list text) (ws : list N) : Prop :=
  match cols, ws with
  | c :: rest, w :: ws' => bytes c <= w /\ le_widths rest ws'
  | _, _ => True
  end.

Lemma bytes_spaces : forall k, bytes (spaces k) = k.
Proof.
  intros k. unfold spaces. rewrite <- (N2Nat.id k) at 2. induction (N.to_nat k) as [|n IH]; [reflexivity|].
  cbn [repeat bytes]. rewrite IH. change (blen SPc) with 1. lia.
Qed.

(** [S i < length cols]: the last column is not padded *)
Lemma pad_row_widths : forall cols ws i c w,
  le_widths cols ws -> nth_error (pad_row ws cols) i = Some c -> nth_error ws i = Some w ->
  (S i < length cols)%nat -> bytes c = w.
Proof.
  induction cols as [|c0 rest IH]; intros ws i c w Hle Hc Hw Hi; [cbn [length] in Hi; lia|].
  destruct rest as [|c1 rest]; [cbn [length] in Hi; lia|].
  destruct ws as [|w0 ws]; [destruct i; discriminate|].
  cbn [le_widths] in Hle. destruct Hle as [H0 Hle].
  rewrite pad_row_cons2 in Hc.
  destruct i as [|i].
  - cbn [nth_error] in Hc, Hw. inversion Hc; inversion Hw; subst. rewrite bytes_app, bytes_spaces. lia.
  - cbn [nth_error] in Hc, Hw. eapply IH; [exact Hle|exact Hc|exact Hw|cbn [length] in *; lia].
Qed.

Lemma align_example :
  let rows := [[[112;97;114;97;109]; [97]; [115;116;114;105;110;103]; [100;101;115;99]];
               [[112;97;114;97;109]; [108;111;110;103;101;114]; [84]]] in
  widths rows = [5; 6; 6; 4] /\
  render_row (widths rows) false (nth 1 rows []) = [112;97;114;97;109;32;108;111;110;103;101;114;32;84] /\
  render_row (widths rows) false (nth 0 rows []) =
    [112;97;114;97;109;32;97;32;32;32;32;32;32;115;116;114;105;110;103;32;100;101;115;99] /\
  pad_rows (map (map rtrim) (pad_rows rows)) = pad_rows rows.
Proof. vm_compute. repeat split; reflexivity. Qed.
