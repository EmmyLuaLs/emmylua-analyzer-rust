(** C06/Stable.v — lock-step simulation of two printer runs on IRs with the same metrics: every
    layout decision is the same. *)
From EV Require Import C05.Model C05.Facts C05.Total C06.StableModel.
From Coq Require Import ZArith.
Local Open Scope N_scope.

Definition SIM (st st' : state) : Prop :=
  col st = col st' /\ level st = level st' /\ pending st = pending st' /\ gmap st = gmap st' /\
  Forall2 MSL (sfx st) (sfx st') /\ map erase (evs st) = map erase (evs st').

Definition ORel (o o' : option state) : Prop :=
  match o, o' with
  | Some s, Some s' => SIM s s'
  | None, None => True
  | _, _ => False
  end.

Lemma orel_bind : forall (a a' : option state) (k k' : state -> option state),
  ORel a a' -> (forall s s', SIM s s' -> ORel (k s) (k' s')) -> ORel (bind a k) (bind a' k').
Proof.
  intros [s|] [s'|] k k' H Hk; cbn [ORel bind] in *; try contradiction; [apply Hk; exact H|exact I].
Qed.

Lemma orel_let : forall A (o o' : option A) (k k' : A -> option state),
  o = o' -> (forall a, ORel (k a) (k' a)) -> ORel (bind o k) (bind o' k').
Proof. intros A [a|] o' k k' <- H; [apply H|exact I]. Qed.

Lemma orel_some : forall s s', SIM s s' -> ORel (Some s) (Some s').
Proof. intros s s' H. exact H. Qed.

Lemma sim_flush_pending : forall c s s' st st', SIM st st' -> isnil s = isnil s' ->
  SIM (flush_pending c s st) (flush_pending c s' st').
Proof.
  intros c s s' st st' H Hn. pose proof H as [H1 [H2 [H3 [H4 [H5 H6]]]]]. unfold flush_pending. rewrite <- H3.
  destruct (pending st) as [w|] eqn:Ep; [|exact H].
  destruct s as [|x s], s' as [|x' s']; try discriminate; [exact H|].
  unfold SIM. cbn [col level pending gmap sfx evs map erase]. rewrite H6.
  split; [reflexivity|]. split; [exact H2|]. split; [reflexivity|]. split; [exact H4|]. split; [exact H5|reflexivity].
Qed.

Lemma sim_push_atom : forall c s s' st st', SIM st st' -> metrics s = metrics s' ->
  SIM (push_text c true s st) (push_text c true s' st').
Proof.
  intros c s s' st st' H Hm. unfold metrics in Hm. inversion Hm as [[Hb Ha Hn]].
  pose proof (sim_flush_pending c s s' st st' H Hn) as [H1 [H2 [H3 [H4 [H5 H6]]]]].
  unfold push_text, SIM. cbn [col level pending gmap sfx evs map erase]. unfold metrics.
  rewrite Ha, Hb, Hn, H1, H6. repeat split; try assumption.
Qed.

Lemma sim_push_blank : forall c s st st', SIM st st' -> SIM (push_text c false s st) (push_text c false s st').
Proof.
  intros c s st st' H.
  pose proof (sim_flush_pending c s s st st' H eq_refl) as [H1 [H2 [H3 [H4 [H5 H6]]]]].
  unfold push_text, SIM. cbn [col level pending gmap sfx evs map erase].
  rewrite H1, H6. repeat split; try assumption.
Qed.

Lemma sim_push_spaces : forall c k st st', SIM st st' -> SIM (push_spaces c k st) (push_spaces c k st').
Proof. intros c k st st' H. unfold push_spaces. destruct (0 <? k); [apply sim_push_blank|]; exact H. Qed.

Lemma sim_newline : forall c st st', SIM st st' -> SIM (push_newline c st) (push_newline c st').
Proof.
  intros c st st' [H1 [H2 [H3 [H4 [H5 H6]]]]]. unfold push_newline, SIM.
  cbn [col level pending gmap sfx evs map erase]. rewrite H2, H6. repeat split; try assumption.
Qed.

Lemma sim_set_level : forall l st st', SIM st st' -> SIM (set_level l st) (set_level l st').
Proof. intros l st st' [H1 [H2 [H3 [H4 [H5 H6]]]]]. unfold set_level, SIM. cbn. repeat split; assumption. Qed.

Lemma sim_gm_insert : forall g b st st', SIM st st' -> SIM (gm_insert g b st) (gm_insert g b st').
Proof.
  intros g b st st' [H1 [H2 [H3 [H4 [H5 H6]]]]]. unfold gm_insert, SIM. cbn [col level pending gmap sfx evs].
  rewrite H4. repeat split; assumption.
Qed.

Lemma sim_set_sfx : forall x x' st st', SIM st st' -> Forall2 MSL x x' -> SIM (set_sfx x st) (set_sfx x' st').
Proof. intros x x' st st' [H1 [H2 [H3 [H4 [H5 H6]]]]] Hx. unfold set_sfx, SIM. cbn. repeat split; assumption. Qed.

Inductive MS1 : entry -> entry -> Prop :=
| MS1_aligned : forall b b' a a' t t', MSL b b' -> MSL a a' -> MSO t t' -> MS1 (Aligned b a t) (Aligned b' a' t')
| MS1_line : forall ct ct' t t', MSL ct ct' -> MSO t t' -> MS1 (ALine ct t) (ALine ct' t').

Lemma mse_forall2 : forall es es', MSE es es' -> Forall2 MS1 es es'.
Proof. induction 1; constructor; try assumption; constructor; assumption. Qed.

Section Pointwise.
  Variables (A : Type) (R : A -> A -> Prop).

  Lemma max_opt_rel : forall f f' l l', Forall2 R l l' -> (forall e e', R e e' -> f e = f' e') -> max_opt f l = max_opt f' l'.
  Proof. intros f f' l l' H Hf. induction H; cbn [max_opt]; [reflexivity|]. rewrite (Hf _ _ H), IHForall2. reflexivity. Qed.

  Lemma existsb_rel : forall f f' l l', Forall2 R l l' -> (forall e e', R e e' -> f e = f' e') -> existsb f l = existsb f' l'.
  Proof. intros f f' l l' H Hf. induction H; cbn [existsb]; [reflexivity|]. rewrite (Hf _ _ H), IHForall2. reflexivity. Qed.

  Lemma fits_rev_rel : forall f f' l l', Forall2 R l l' -> (forall e e' rem, R e e' -> f e rem = f' e' rem) ->
    forall rem, fits_rev f l rem = fits_rev f' l' rem.
  Proof.
    intros f f' l l' H Hf. induction H; intros rem; cbn [fits_rev]; [reflexivity|]. rewrite IHForall2.
    destruct (fits_rev f' l' rem) as [[b|r]|]; cbn [bind]; [reflexivity|apply Hf; assumption|reflexivity].
  Qed.
End Pointwise.

Lemma sum_opt_ms : forall f f' ds ds', MSL ds ds' -> (forall d d', MS d d' -> f d = f' d') -> sum_opt f ds = sum_opt f' ds'.
Proof.
  intros f f' ds ds' H Hf. induction H; [reflexivity|]. cbn [sum_opt]. rewrite (Hf _ _ H), IHMSL. reflexivity.
Qed.

Lemma any_opt_ms : forall f f' ds ds', MSL ds ds' -> (forall d d', MS d d' -> f d = f' d') -> any_opt f ds = any_opt f' ds'.
Proof.
  intros f f' ds ds' H Hf. induction H; [reflexivity|]. cbn [any_opt]. rewrite (Hf _ _ H), IHMSL. reflexivity.
Qed.

Lemma fits_list_ms : forall f f' ds ds', MSL ds ds' -> (forall d d' m rem, MS d d' -> f d m rem = f' d' m rem) ->
  forall m rem, fits_list f ds m rem = fits_list f' ds' m rem.
Proof.
  intros f f' ds ds' H Hf. induction H; intros m rem; [reflexivity|]. cbn [fits_list]. rewrite (Hf _ _ _ _ H).
  destruct (f' d' m rem) as [[b|r0]|]; cbn [bind]; [reflexivity|apply IHMSL|reflexivity].
Qed.

Lemma fw_ms : forall n d d', MS d d' -> fw_doc n d = fw_doc n d'.
Proof.
  induction n as [|n IH]; intros d d' H; [reflexivity|].
  assert (forall ds ds', MSL ds ds' -> sum_opt (fw_doc n) ds = sum_opt (fw_doc n) ds') as HL.
  { intros ds ds' Hl. apply sum_opt_ms; [exact Hl|exact IH]. }
  destruct H as [? ? ? ? Hm| | | | | | | |? ? ? ? ? ? Hf| | |? ? He]; cbn [fw_doc]; try reflexivity; try (apply HL; assumption).
  - (* MS_atom *) unfold metrics in Hm. inversion Hm. reflexivity.
  - (* MS_ifb *) apply IH, Hf.
  - (* MS_ag *) apply (max_opt_rel _ MS1); [apply mse_forall2, He|].
    intros e e' [b b' a a' t t' Hb Ha Ht|ct ct' t t' Hc Ht];
      [rewrite (HL _ _ Hb), (HL _ _ Ha)|rewrite (HL _ _ Hc)];
      (destruct Ht as [|l l' Hl]; [reflexivity|rewrite (HL _ _ Hl); reflexivity]).
Qed.

Lemma flat_width_ms : forall n ds ds', MSL ds ds' -> flat_width n ds = flat_width n ds'.
Proof. intros n ds ds' H. apply sum_opt_ms; [exact H|apply fw_ms]. Qed.

Lemma mse_length : forall es es', MSE es es' -> length es = length es'.
Proof. induction 1; cbn [length]; congruence. Qed.

Lemma hh_ms : forall n d d', MS d d' -> hh_doc n d = hh_doc n d'.
Proof.
  induction n as [|n IH]; intros d d' H; [reflexivity|].
  destruct H as [| | | | | | | | | | |? ? He];
    cbn [hh_doc]; try reflexivity; try (apply any_opt_ms; [assumption|exact IH]).
  rewrite (mse_length _ _ He). reflexivity.
Qed.

Lemma has_hard_line_ms : forall n ds ds', MSL ds ds' -> has_hard_line n ds = has_hard_line n ds'.
Proof. intros n ds ds' H. apply any_opt_ms; [exact H|apply hh_ms]. Qed.

Lemma fseq_ext : forall x x' k k', x = x' -> (forall r, k r = k' r) -> fseq x k = fseq x' k'.
Proof. intros x [[b|r]|] k k' -> H; cbn [fseq bind]; [reflexivity|apply H|reflexivity]. Qed.

Lemma fits_ms : forall n gm d d' m rem, MS d d' -> fits_doc n gm d m rem = fits_doc n gm d' m rem.
Proof.
  induction n as [|n IH]; intros gm d d' m rem H; [reflexivity|].
  assert (forall ds ds' m rem, MSL ds ds' -> fits_list (fits_doc n gm) ds m rem = fits_list (fits_doc n gm) ds' m rem) as HL.
  { intros ds ds' m0 r0 Hl. apply fits_list_ms; [exact Hl|]. intros x x' m1 r1 Hx. apply IH. exact Hx. }
  cbn [fits_doc]. destruct (rem <? 0)%Z; [reflexivity|].
  destruct H as [? ? ? ? Hm| | | | | | | |? ? ? ? g ? ?| | |? ? He]; try reflexivity; try (apply HL; assumption).
  - (* MS_atom *) unfold metrics in Hm. inversion Hm. reflexivity.
  - (* MS_ifb *) destruct (match g with Some g0 => gm_get gm g0 | None => mode_eqb m Break end); apply IH; assumption.
  - (* MS_ag *) apply (fits_rev_rel _ MS1); [apply mse_forall2, He|].
    intros e e' r [b b' a a' t t' Hb Ha Ht|ct ct' t t' Hc Ht];
      (apply fseq_ext; [destruct Ht as [|l l' Hl]; [reflexivity|apply HL, Hl]|]); intros r1.
    + apply fseq_ext; [apply HL, Ha|]. intros r2. apply HL, Hb.
    + apply HL, Hc.
Qed.

Lemma fits_impl_ms : forall n gm ds ds' rem, MSL ds ds' -> fits_impl n gm ds rem = fits_impl n gm ds' rem.
Proof.
  intros n gm ds ds' rem H. unfold fits_impl.
  rewrite (fits_list_ms (fits_doc n gm) (fits_doc n gm) ds ds' H); [reflexivity|].
  intros d d' m r Hd. apply fits_ms. exact Hd.
Qed.

Section LockStep.
  Variable c : cfg.
  Variables pd pd' : doc -> mode -> state -> option state.
  Variables fw fw' : list doc -> option N.
  Variables fit fit' : list (N * bool) -> list doc -> Z -> option bool.
  Variables hh hh' : list doc -> option bool.
  Hypothesis Hpd : forall d d' m st st', MS d d' -> SIM st st' -> ORel (pd d m st) (pd' d' m st').
  Hypothesis Hfw : forall ds ds', MSL ds ds' -> fw ds = fw' ds'.
  Hypothesis Hfit : forall gm ds ds' rem, MSL ds ds' -> fit gm ds rem = fit' gm ds' rem.
  Hypothesis Hhh : forall ds ds', MSL ds ds' -> hh ds = hh' ds'.

  Lemma docs_sim : forall ds ds' m st st', MSL ds ds' -> SIM st st' ->
    ORel (docs_with pd ds m st) (docs_with pd' ds' m st').
  Proof.
    unfold docs_with. intros ds ds' m st st' H. revert st st'. induction H; intros st st' Hs; cbn [fold_docs].
    - exact Hs.
    - apply orel_bind; [apply Hpd; assumption|exact IHMSL].
  Qed.

  Lemma flush_fold_sim : forall L L' st st', Forall2 MSL L L' -> SIM st st' ->
    ORel (fold_lists (fun s st => docs_with pd s Break st) L st) (fold_lists (fun s st => docs_with pd' s Break st) L' st').
  Proof.
    intros L L' st st' H. revert st st'. induction H; intros st st' Hs; cbn [fold_lists]; [exact Hs|].
    apply orel_bind; [apply docs_sim; assumption|exact IHForall2].
  Qed.

  Lemma flush_sim : forall st st', SIM st st' -> ORel (flush_with pd st) (flush_with pd' st').
  Proof.
    intros st st' Hs. unfold flush_with. pose proof Hs as [_ [_ [_ [_ [H5 _]]]]].
    destruct (sfx st) as [|x L], (sfx st') as [|x' L']; try (inversion H5; fail); [exact Hs|].
    apply flush_fold_sim; [exact H5|]. apply sim_set_sfx; [exact Hs|constructor].
  Qed.

  Lemma newline_sim : forall st st', SIM st st' -> ORel (newline_with c pd st) (newline_with c pd' st').
  Proof.
    intros st st' Hs. unfold newline_with. apply orel_bind; [apply flush_sim; exact Hs|].
    intros s s' Hss. apply sim_newline. exact Hss.
  Qed.

  Lemma fit_sim : forall ds ds' st st', MSL ds ds' -> SIM st st' ->
    fit (gmap st) ds (remaining c st) = fit' (gmap st') ds' (remaining c st').
  Proof.
    intros ds ds' st st' Hl [H1 [_ [_ [H4 _]]]]. unfold remaining. rewrite H1, H4. apply Hfit, Hl.
  Qed.

  Lemma fill_sim : forall l l' st st', MSL l l' -> SIM st st' ->
    ORel (fill_with c pd fit l st) (fill_with c pd' fit' l' st').
  Proof.
    induction l as [|x rest IH] using fill_ind; intros l0 st st' Hl Hs;
      inversion Hl as [|? x' ? rest' Hx Hr]; subst; [exact Hs|].
    cbn [fill_with]. apply orel_let; [apply fit_sim; [repeat constructor; assumption|exact Hs]|]. intros cf.
    apply orel_bind; [apply Hpd; assumption|]. intros s1 s1' Hs1.
    destruct Hr as [|y y' l l' Hy Hl']; [exact Hs1|].
    apply orel_let.
    { destruct Hl' as [|n n' ? ? Hn _]; [reflexivity|]. apply fit_sim; [repeat constructor; assumption|exact Hs1]. }
    intros nf. apply orel_bind; [apply Hpd; assumption|]. intros s2 s2' Hs2. apply IH; assumption.
  Qed.

  Lemma trail_sim : forall m mc t t' cw st st', MSO t t' -> SIM st st' ->
    ORel (trail_with c pd m mc t cw st) (trail_with c pd' m mc t' cw st').
  Proof.
    intros m mc t t' cw st st' Ht Hs. unfold trail_with. destruct Ht as [|l l' Hl]; [exact Hs|].
    apply docs_sim; [exact Hl|]. apply sim_push_spaces. exact Hs.
  Qed.

  Lemma entry_sim : forall m mb mc e e' st st', MS1 e e' -> SIM st st' ->
    ORel (entry_with c pd fw m mb mc e st) (entry_with c pd' fw' m mb mc e' st').
  Proof.
    intros m mb mc e e' st st' [b b' a a' t t' Hb Ha Ht|ct ct' t t' Hc Ht] Hs; unfold entry_with.
    - apply orel_let; [apply Hfw, Hb|]. intros bw.
      apply orel_bind; [apply docs_sim; assumption|]. intros s1 s1' Hs1.
      apply orel_bind; [apply docs_sim; [assumption|]; apply sim_push_blank, sim_push_spaces, Hs1|].
      intros s3 s3' Hs3. apply orel_let; [apply Hfw, Ha|]. intros aw. apply trail_sim; assumption.
    - apply orel_bind; [apply docs_sim; assumption|]. intros s1 s1' Hs1.
      apply orel_let; [apply Hfw, Hc|]. intros cw. apply trail_sim; assumption.
  Qed.

  Lemma align_sim : forall m mb mc l l' first st st', Forall2 MS1 l l' -> SIM st st' ->
    ORel (align_with c pd fw m mb mc l first st) (align_with c pd' fw' m mb mc l' first st').
  Proof.
    intros m mb mc l l' first st st' H. revert first st st'.
    induction H as [|e e' l l' He _ IH]; intros first st st' Hs; cbn [align_with]; [exact Hs|].
    apply orel_bind; [destruct first; [exact Hs|apply newline_sim, Hs]|]. intros s0 s0' Hs0.
    apply orel_bind; [apply entry_sim; assumption|]. intros s1 s1' Hs1. apply IH, Hs1.
  Qed.

  Lemma step_sim : forall d d' m st st', MS d d' -> SIM st st' ->
    ORel (step c pd fw fit hh d m st) (step c pd' fw' fit' hh' d' m st').
  Proof.
    intros d d' m st st' H Hs.
    destruct H as [| | | | | |? ? ? ? Hl| |? ? ? ? g ? ?| | |es es' He]; cbn [step].
    - (* MS_atom *) apply sim_push_atom; assumption.
    - (* MS_hard *) apply newline_sim; exact Hs.
    - (* MS_soft *) destruct m; [apply sim_push_blank; exact Hs|apply newline_sim; exact Hs].
    - (* MS_softe *) destruct m; [exact Hs|apply newline_sim; exact Hs].
    - (* MS_space *) apply sim_push_blank; exact Hs.
    - (* MS_indent *) assert (level st = level st') as Hlv by apply Hs. rewrite Hlv.
      apply orel_bind; [apply docs_sim; [assumption|apply sim_set_level; exact Hs]|].
      intros s1 s1' Hs1. assert (level s1 = level s1') as Hl1 by apply Hs1. rewrite Hl1.
      apply sim_set_level. exact Hs1.
    - (* MS_group *) apply orel_let; [apply Hhh, Hl|]. intros h.
      apply orel_let; [rewrite (fit_sim _ _ _ _ Hl Hs); reflexivity|]. intros child.
      apply docs_sim; [assumption|]. destruct id; [apply sim_gm_insert|]; exact Hs.
    - (* MS_list *) apply docs_sim; assumption.
    - (* MS_ifb *) assert (gmap st = gmap st') as Hg by apply Hs. rewrite Hg.
      destruct (match g with Some g0 => gm_get (gmap st') g0 | None => mode_eqb m Break end); apply Hpd; assumption.
    - (* MS_fill *) apply fill_sim; assumption.
    - (* MS_ls *) apply sim_set_sfx; [exact Hs|]. apply Forall2_app; [apply Hs|]. constructor; [assumption|constructor].
    - (* MS_ag *) apply mse_forall2 in He.
      apply orel_let.
      { apply (max_opt_rel _ MS1); [exact He|]. intros e e' [? ? ? ? ? ? Hb _ _|]; [apply Hfw, Hb|reflexivity]. }
      intros mb. apply orel_let.
      { unfold max_content_of. rewrite (existsb_rel _ MS1 has_trailing has_trailing es es' He).
        - destruct (existsb has_trailing es'); [|reflexivity]. apply (max_opt_rel _ MS1); [exact He|].
          intros e e' [? ? ? ? ? ? _ Ha _|? ? ? ? Hc _]; [rewrite (Hfw _ _ Ha); reflexivity|apply Hfw, Hc].
        - intros e e' [? ? ? ? ? ? _ _ []|? ? ? ? _ []]; reflexivity. }
      intros mc. apply align_sim; assumption.
  Qed.
End LockStep.

Lemma print_doc_sim : forall n c d d' m st st', MS d d' -> SIM st st' ->
  ORel (print_doc n c d m st) (print_doc n c d' m st').
Proof.
  induction n as [|n IH]; intros c d d' m st st' H Hs; cbn [print_doc]; [exact I|].
  apply step_sim; try assumption.
  - intros x x' m0 s s' Hx Hss. apply IH; assumption.
  - apply flat_width_ms.
  - intros gm ds ds' rem. apply fits_impl_ms.
  - apply has_hard_line_ms.
Qed.

Scheme MS_mut := Induction for MS Sort Prop
  with MSL_mut := Induction for MSL Sort Prop
  with MSO_mut := Induction for MSO Sort Prop
  with MSE_mut := Induction for MSE Sort Prop.

Lemma msl_size : forall ds ds', MSL ds ds' -> size_list ds = size_list ds'.
Proof.
  apply (MSL_mut
           (fun d d' _ => size d = size d')
           (fun l l' _ => size_list l = size_list l')
           (fun t t' _ => osize t = osize t')
           (fun es es' _ => size_entries es = size_entries es'));
    intros; autorewrite with size; cbn [size size_list osize size_entries entry_size]; congruence.
Qed.

Lemma sim_init : SIM init init.
Proof. unfold SIM, init. cbn. repeat split; try reflexivity. constructor. Qed.

Lemma run_sim : forall c ds ds', MSL ds ds' -> ORel (run c ds) (run c ds').
Proof.
  intros c ds ds' H. unfold run, print_docs. rewrite <- (msl_size _ _ H).
  set (n := S (S (size_list ds))).
  assert (forall d d' m st st', MS d d' -> SIM st st' -> ORel (print_doc n c d m st) (print_doc n c d' m st')) as Hpd.
  { intros d d' m st st'. apply print_doc_sim. }
  apply orel_bind; [apply (docs_sim _ _ Hpd); [exact H|exact sim_init]|apply (flush_sim _ _ Hpd)].
Qed.

Lemma print_stable : forall c ds ds', MSL ds ds' -> layout c ds = layout c ds'.
Proof.
  intros c ds ds' H. pose proof (run_sim c ds ds' H) as R. unfold layout.
  destruct (run c ds) as [st|], (run c ds') as [st'|]; cbn [ORel bind] in *; try contradiction; [|reflexivity].
  destruct R as [_ [_ [_ [_ [_ R]]]]]. rewrite R. reflexivity.
Qed.

Definition rout_rendered (c : cfg) (st : state) : Prop := rout st = rrender c (evs st).

Lemma rout_rendered_flush_pending : forall c s st, rout_rendered c st -> rout_rendered c (flush_pending c s st).
Proof.
  intros c s st H. unfold flush_pending. destruct (pending st); [|exact H]. destruct s; [exact H|].
  unfold rout_rendered in *. cbn [rout evs rrender]. rewrite H. reflexivity.
Qed.

Lemma run_rendered : forall c ds st, run c ds = Some st -> rout st = rrender c (evs st).
Proof.
  (* [set_level], [set_sfx], [gm_insert] change neither [rout] nor [evs] *)
  intros c. apply (run_pres c (rout_rendered c)); try (intros; assumption).
  - (* atom *) intros s st H. unfold push_text, rout_rendered. cbn [rout evs rrender]. rewrite (rout_rendered_flush_pending c s st H). reflexivity.
  - (* blank *) intros s st _ H. unfold push_text, rout_rendered. cbn [rout evs rrender]. rewrite (rout_rendered_flush_pending c s st H). reflexivity.
  - intros st H. unfold push_newline, rout_rendered in *. cbn [rout evs rrender]. rewrite H. reflexivity.
  - (* init *) reflexivity.
Qed.

Lemma stable_example :
  let a := [Group [Atom KText [97; 98]; SoftLine;
                                Atom KText [99]] false None] in
  let b := [Group [Atom KSourceToken [120; 121]; SoftLine;
                                Atom KText [122]] false None] in
  MSL a b /\
  layout (mkCfg 3 false 4 false 1 0) a =
    Some [LAtom (2, None, false); LNewline; LBlank [];
          LAtom (1, None, false)] /\
  print (mkCfg 3 false 4 false 1 0) b = Some [120; 121; 10; 122].
Proof. split; [repeat constructor|]. split; vm_compute; reflexivity. Qed.
