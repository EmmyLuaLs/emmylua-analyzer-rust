(** A step of the dispatcher rewrites the stage and the two message queues and, independently, does at most one thing
    ([effect]) to the answering side (tasks, cancellation map, responses): [step_trans].  After it the life-cycle,
    liveness and termination arguments are about stages and lists of messages only ([mtrans]). *)
From Coq Require Import List NArith Bool String Arith Lia.
Import ListNotations.
From EV Require Import Base.LTS Gen.C24_Dispatch C24.Model.
Local Open Scope string_scope.
Local Open Scope list_scope.

Arguments String.eqb : simpl never.
Arguments N.eqb : simpl never.

Definition unit_of (j i : rid) : nat := if N.eqb j i then 1 else 0.
Definition req_unit (i : rid) (m : msg) : nat := if is_req_id i m then 1 else 0.

Lemma count_req_app : forall i a b, count_req i (a ++ b) = count_req i a + count_req i b.
Proof. intros. unfold count_req. rewrite filter_app, app_length. reflexivity. Qed.

Lemma count_req_cons : forall i m l, count_req i (m :: l) = req_unit i m + count_req i l.
Proof. intros. unfold count_req, req_unit. cbn [filter]. destruct (is_req_id i m); reflexivity. Qed.

Lemma not_req_unit : forall i m, is_req m = false -> req_unit i m = 0.
Proof. intros i [j meth pok|meth t|j]; cbn; congruence. Qed.

Lemma not_req_shutdown : forall m, is_req m = false -> is_shutdown m = false.
Proof. intros [i meth pok|meth t|i]; cbn; congruence. Qed.

Lemma can_init_not_req : forall c m, can_init c m = true -> is_req m = false.
Proof. intros c [i meth pok|meth t|i]; cbn; congruence. Qed.

Lemma no_reqs_cons : forall m l, no_reqs (m :: l) = negb (is_req m) && no_reqs l.
Proof. reflexivity. Qed.

Lemma no_reqs_app : forall a b, no_reqs (a ++ b) = no_reqs a && no_reqs b.
Proof. intros. unfold no_reqs. apply forallb_app. Qed.

Lemma no_reqs_tl : forall l, no_reqs l = true -> no_reqs (tl l) = true.
Proof. intros [|m r] H; [reflexivity|]. rewrite no_reqs_cons in H. apply andb_true_iff in H. apply H. Qed.

Lemma no_reqs_count : forall i l, no_reqs l = true -> count_req i l = 0.
Proof.
  intros i l. induction l as [|m r IH]; intros H; [reflexivity|].
  rewrite no_reqs_cons in H. apply andb_true_iff in H as [Hm Hr]. apply negb_true_iff in Hm.
  rewrite count_req_cons, (IH Hr), (not_req_unit i m Hm). reflexivity.
Qed.

Lemma app_snoc : forall {A} (p : list A) m r, (p ++ [m]) ++ r = p ++ m :: r.
Proof. intros. rewrite <- app_assoc. reflexivity. Qed.

Lemma lc_main_cons : forall m l, lc_main (m :: l) = if is_shutdown m then no_reqs l else lc_main l.
Proof. reflexivity. Qed.

Lemma lc_main_del : forall p m r, is_req m = false -> lc_main (p ++ m :: r) = true -> lc_main (p ++ r) = true.
Proof.
  induction p as [|x p IH]; intros m r Hm H; cbn [app] in *.
  - rewrite lc_main_cons, (not_req_shutdown m Hm) in H. exact H.
  - rewrite lc_main_cons in *. destruct (is_shutdown x); [|eapply IH; eassumption].
    rewrite no_reqs_app in *. rewrite no_reqs_cons in H.
    apply andb_true_iff in H as [Ha Hb]. apply andb_true_iff in Hb as [_ Hb]. rewrite Ha, Hb. reflexivity.
Qed.

Lemma kr_main_app : forall a b, kr_main (a ++ b) = kr_main a && kr_main b.
Proof. intros. unfold kr_main. apply forallb_app. Qed.

Lemma kr_main_cons : forall m l, kr_main (m :: l) = negb (is_shutdown m) && kr_main l.
Proof. reflexivity. Qed.

Lemma count_tasks_app : forall i a b, count_tasks i (a ++ b) = count_tasks i a + count_tasks i b.
Proof. intros. unfold count_tasks. rewrite filter_app, app_length. reflexivity. Qed.

Lemma count_tasks_cons : forall i t l, count_tasks i (t :: l) = unit_of (t_id t) i + count_tasks i l.
Proof. intros. unfold count_tasks, unit_of. cbn [filter]. destruct (N.eqb (t_id t) i); reflexivity. Qed.

Lemma count_tasks_remove_nth : forall i k ts t,
  nth_error ts k = Some t -> count_tasks i ts = unit_of (t_id t) i + count_tasks i (remove_nth k ts).
Proof.
  intros i. induction k as [|k IH]; intros [|x r] t H; cbn [nth_error] in H; try discriminate.
  - inversion H; subst. apply count_tasks_cons.
  - cbn [remove_nth]. rewrite !count_tasks_cons, (IH r t H). lia.
Qed.

Lemma count_tasks_map_id : forall i (f : task -> task) ts,
  (forall t, t_id (f t) = t_id t) -> count_tasks i (map f ts) = count_tasks i ts.
Proof.
  intros i f ts Hf. induction ts as [|t r IH]; [reflexivity|].
  cbn [map]. rewrite !count_tasks_cons, Hf, IH. reflexivity.
Qed.

Lemma length_remove_nth : forall {A} k (l : list A) x,
  nth_error l k = Some x -> List.length l = S (List.length (remove_nth k l)).
Proof.
  intros A. induction k as [|k IH]; intros [|y r] x H; cbn [nth_error] in H; try discriminate.
  - reflexivity.
  - cbn [remove_nth List.length]. f_equal. eapply IH; eassumption.
Qed.

Lemma count_out_cons : forall i j r o, count_out i ((j, r) :: o) = unit_of j i + count_out i o.
Proof. intros. unfold count_out, unit_of. cbn [filter fst]. destruct (N.eqb j i); reflexivity. Qed.

Inductive effect :=
| ENone
| EEmit (i : rid) (r : rclass)
| ESpawn (i : rid)
| ECancel (i : rid).

Definition run_eff (e : effect) (s : state) : state :=
  match e with
  | ENone => s
  | EEmit i r => emit i r s
  | ESpawn i => spawn i s
  | ECancel i => cancel i s
  end.

Definition set_queues (g : stage) (inp pend : list msg) (s : state) : state :=
  {| st_stage := g; st_input := inp; st_pending := pend; st_tasks := st_tasks s;
     st_cmap := st_cmap s; st_next := st_next s; st_out := st_out s |}.

Lemma cancel_fields : forall j s,
  st_stage (cancel j s) = st_stage s /\ st_input (cancel j s) = st_input s /\
  st_pending (cancel j s) = st_pending s /\ st_out (cancel j s) = st_out s /\
  List.length (st_tasks (cancel j s)) = List.length (st_tasks s).
Proof.
  intros. unfold cancel. destruct (cmap_get j (st_cmap s)); cbn [set_tasks st_stage st_input st_pending st_out st_tasks];
    repeat split. apply map_length.
Qed.

Lemma eff_queues : forall e s,
  st_stage (run_eff e s) = st_stage s /\ st_input (run_eff e s) = st_input s /\
  st_pending (run_eff e s) = st_pending s.
Proof.
  intros [|i r|i|i] s; cbn [run_eff]; try (repeat split; reflexivity).
  destruct (cancel_fields i s) as [H1 [H2 [H3 _]]]. auto.
Qed.

(** responses and tasks for id [i]: a request that was taken off the queues is in here *)
Definition answers (i : rid) (s : state) : nat := count_out i (st_out s) + count_tasks i (st_tasks s).
Definition eunit (i : rid) (e : effect) : nat :=
  match e with EEmit j _ | ESpawn j => unit_of j i | _ => 0 end.
Definition espawn (e : effect) : nat := match e with ESpawn _ => 1 | _ => 0 end.

Lemma answers_eff : forall i e s, answers i (run_eff e s) = eunit i e + answers i s.
Proof.
  intros i [|j r|j|j] s; unfold answers; cbn [run_eff eunit].
  - reflexivity.
  - cbn [emit st_out st_tasks]. rewrite count_out_cons. lia.
  - cbn [spawn st_out st_tasks]. rewrite count_tasks_app, count_tasks_cons. cbn [t_id count_tasks filter List.length]. lia.
  - unfold cancel. destruct (cmap_get j (st_cmap s)) as [k|]; [|reflexivity].
    cbn [set_tasks st_out st_tasks]. rewrite count_tasks_map_id; [reflexivity|].
    intros t. destruct (N.eqb (t_tok t) k); reflexivity.
Qed.

Lemma tasks_eff : forall e s, List.length (st_tasks (run_eff e s)) = espawn e + List.length (st_tasks s).
Proof.
  intros [|j r|j|j] s; cbn [run_eff espawn]; try reflexivity.
  - cbn [spawn st_tasks]. rewrite app_length. cbn [List.length]. lia.
  - apply cancel_fields.
Qed.

Definition heff (c : cfg) (m : msg) : effect :=
  match m with
  | MReq i meth pok =>
      if meth =? "shutdown" then EEmit i COk
      else if known c meth then
        if pok then ESpawn i else if c_extract_err c then EEmit i CInvalidParams else ENone
      else EEmit i CMethodNotFound
  | MNotif meth (Some i) => if meth =? "$/cancelRequest" then ECancel i else ENone
  | _ => ENone
  end.
Definition hstage (g : stage) (m : msg) : stage := if is_shutdown m then SShutdownWait else g.
Definition hpend (m : msg) (p : list msg) : list msg := if is_shutdown m then [] else p.

Lemma handle_eff : forall c m g inp pend s,
  handle c m (set_queues g inp pend s) = run_eff (heff c m) (set_queues (hstage g m) inp (hpend m pend) s).
Proof.
  intros c [i meth pok|meth [i|]|i] g inp pend s; unfold hstage, hpend; cbn [handle heff is_shutdown]; try reflexivity.
  - destruct (meth =? "shutdown"); [reflexivity|]. destruct (known c meth); [|reflexivity].
    destruct pok; [reflexivity|]. destruct (c_extract_err c); reflexivity.
  - destruct (meth =? "$/cancelRequest"); reflexivity.
  - destruct (meth =? "$/cancelRequest"); reflexivity.
Qed.

Lemma heff_unit_le : forall c i m, eunit i (heff c m) <= req_unit i m.
Proof.
  intros c i [j meth pok|meth [j|]|j]; cbn [heff]; try (cbn; lia).
  - change (req_unit i (MReq j meth pok)) with (unit_of j i).
    destruct (meth =? "shutdown"); [reflexivity|]. destruct (known c meth); [|reflexivity].
    destruct pok; [reflexivity|]. destruct (c_extract_err c); cbn [eunit]; lia.
  - destruct (meth =? "$/cancelRequest"); cbn; lia.
Qed.

Lemma heff_not_req : forall c m, is_req m = false -> forall i, eunit i (heff c m) = 0.
Proof. intros c m H i. pose proof (heff_unit_le c i m). rewrite (not_req_unit i m H) in *. lia. Qed.

(** [mtrans c g inp pend g' inp' pend' e]: in stage [g] with input [inp] and pending list [pend], the
    main loop (or the end of the initialization task) moves to [g'], [inp'], [pend'] and has effect [e]. *)
Inductive mtrans (c : cfg) : stage -> list msg -> list msg -> stage -> list msg -> list msg -> effect -> Prop :=
| M_init_ok : forall i meth r p, meth =? "initialize" = true ->
    mtrans c SPreInit (MReq i meth true :: r) p SAwaitInitialized r p (EEmit i COk)
| M_init_crash : forall i meth r p, meth =? "initialize" = true -> c_init_unwrap c = true ->
    mtrans c SPreInit (MReq i meth false :: r) p SCrashed r p ENone
| M_pre_err : forall i meth pok r p, (meth =? "initialize") && pok = false ->
    (meth =? "initialize" = true -> c_init_unwrap c = false) ->
    mtrans c SPreInit (MReq i meth pok :: r) p SPreInit r p
           (EEmit i (if meth =? "initialize" then CInvalidParams else CNotInitialized))
| M_pre_notif : forall meth tgt r p,
    mtrans c SPreInit (MNotif meth tgt :: r) p (if meth =? "exit" then SStopped else SPreInit) r p ENone
| M_pre_resp : forall i r p, mtrans c SPreInit (MResp i :: r) p SStopped r p ENone
| M_await : forall m r p,
    mtrans c SAwaitInitialized (m :: r) p
           (match m with MNotif meth _ => if meth =? "initialized" then SInit else SStopped | _ => SStopped end)
           r p ENone
| M_defer : forall m r p, can_init c m = false -> mtrans c SInit (m :: r) p SInit r (p ++ [m]) ENone
| M_init_handle : forall m r p, can_init c m = true ->
    mtrans c SInit (m :: r) p (hstage SInit m) r (hpend m p) (heff c m)
| M_init_done : forall inp p, mtrans c SInit inp p SReplay inp p ENone
| M_replay_done : forall inp, mtrans c SReplay inp [] SRun inp [] ENone
| M_replay : forall m p inp, mtrans c SReplay inp (m :: p) (hstage SReplay m) inp (hpend m p) (heff c m)
| M_run : forall m r p, mtrans c SRun (m :: r) p (hstage SRun m) r (hpend m p) (heff c m)
| M_stop : forall inp p, mtrans c SShutdownWait inp p SStopped (tl inp) p ENone.

(** the end of a handler task *)
Definition finish (c : cfg) (k : nat) (t : task) (o : outcome) (s : state) : state :=
  let s1 := set_tasks (remove_nth k (st_tasks s)) s in
  match resp_of c (t_cancel t) o with
  | Some r => set_cmap (cmap_remove (t_id t) (st_cmap s1)) (emit (t_id t) r s1)
  | None => s1
  end.

Inductive trans (c : cfg) (s : state) : state -> Prop :=
| T_main : forall g inp pend e,
    mtrans c (st_stage s) (st_input s) (st_pending s) g inp pend e ->
    trans c s (run_eff e (set_queues g inp pend s))
| T_task : forall k t o, nth_error (st_tasks s) k = Some t -> trans c s (finish c k t o s).

Lemma step_trans : forall c l s s', step c l s = Some s' -> trans c s s'.
Proof.
  intros c l s s' H.
  assert (Hmain : forall g inp pend e,
            mtrans c (st_stage s) (st_input s) (st_pending s) g inp pend e ->
            s' = run_eff e (set_queues g inp pend s) -> trans c s s').
  { intros g inp pend e M ->. apply T_main. exact M. }
  destruct l as [| |k o]; cbn [step] in H.
  - unfold main_step in H. destruct (st_stage s) eqn:Eg.
    + (* SPreInit *) destruct (st_input s) as [|m r] eqn:Ei; [discriminate|]. injection H as <-.
      destruct m as [i meth pok|meth tgt|i].
      * destruct (meth =? "initialize") eqn:Em; [destruct pok; [|destruct (c_init_unwrap c) eqn:Eu]|].
        -- eapply Hmain; [apply M_init_ok; exact Em|reflexivity].
        -- eapply Hmain; [apply M_init_crash; assumption|reflexivity].
        -- eapply Hmain; [apply M_pre_err; [rewrite Em; reflexivity|intros _; exact Eu]|rewrite Em, <- Eg; reflexivity].
        -- eapply Hmain; [apply M_pre_err; [rewrite Em; reflexivity|congruence]|rewrite Em, <- Eg; reflexivity].
      * eapply Hmain; [apply M_pre_notif|]. destruct (meth =? "exit"); [|rewrite <- Eg]; reflexivity.
      * eapply Hmain; [apply M_pre_resp|reflexivity].
    + (* SAwaitInitialized *) destruct (st_input s) as [|m r] eqn:Ei; [discriminate|]. injection H as <-.
      eapply Hmain; [apply M_await|].
      destruct m as [i meth pok|meth tgt|i]; [|destruct (meth =? "initialized")|]; reflexivity.
    + (* SInit *) destruct (st_input s) as [|m r] eqn:Ei; [discriminate|]. injection H as <-.
      destruct (can_init c m) eqn:Ec.
      * eapply Hmain; [apply M_init_handle; exact Ec|].
        rewrite <- Eg. exact (handle_eff c m (st_stage s) r (st_pending s) s).
      * eapply Hmain; [apply M_defer; exact Ec|rewrite <- Eg; reflexivity].
    + (* SReplay *) destruct (st_pending s) as [|m p] eqn:Ep; injection H as <-.
      * eapply Hmain; [apply M_replay_done|rewrite <- Ep; reflexivity].
      * eapply Hmain; [apply M_replay|].
        rewrite <- Eg. exact (handle_eff c m (st_stage s) (st_input s) p s).
    + (* SRun *) destruct (st_input s) as [|m r] eqn:Ei; [discriminate|]. injection H as <-.
      eapply Hmain; [apply M_run|].
      rewrite <- Eg. exact (handle_eff c m (st_stage s) r (st_pending s) s).
    + (* SShutdownWait *) injection H as <-. eapply Hmain; [apply M_stop|reflexivity].
    + (* SStopped *) discriminate.
    + (* SCrashed *) discriminate.
  - destruct (st_stage s) eqn:Eg; try discriminate. injection H as <-.
    eapply Hmain; [apply M_init_done|reflexivity].
  - destruct (nth_error (st_tasks s) k) as [t|] eqn:En; [|discriminate]. injection H as <-.
    exact (T_task c s k t o En).
Qed.

Lemma trans_invariant : forall c (I : state -> Prop) msgs sched s,
  (forall s s', I s -> trans c s s' -> I s') -> I (init msgs) ->
  run (step c) (init msgs) sched = Some s -> I s.
Proof.
  intros c I msgs sched s Hstep H0 Hr. eapply (run_invariant _ _ (step c) I); [|exact H0|exact Hr].
  intros l s1 s2 H1 H2. eapply Hstep; [exact H1|]. eapply step_trans; exact H2.
Qed.

Definition rest (s : state) : list msg := st_pending s ++ st_input s.

Lemma main_queues : forall e g inp pend s,
  st_stage (run_eff e (set_queues g inp pend s)) = g /\
  st_input (run_eff e (set_queues g inp pend s)) = inp /\
  st_pending (run_eff e (set_queues g inp pend s)) = pend.
Proof. intros. apply (eff_queues e (set_queues g inp pend s)). Qed.

(** messages are queued only while the initialization task runs *)
Definition pend_ok (g : stage) (p : list msg) : Prop := g = SInit \/ g = SReplay \/ p = [].

Lemma pend_ok_nil : forall g p, pend_ok g p -> g <> SInit -> g <> SReplay -> p = [].
Proof. intros g p [H|[H|H]] H1 H2; [contradiction|contradiction|exact H]. Qed.

Lemma mtrans_pend : forall c g inp p g' inp' p' e,
  mtrans c g inp p g' inp' p' e -> pend_ok g p -> pend_ok g' p'.
Proof.
  intros c g inp p g' inp' p' e M Hp. unfold pend_ok.
  destruct M; unfold hstage, hpend; try destruct (is_shutdown m); auto;
    right; right; apply (pend_ok_nil _ _ Hp); discriminate.
Qed.

(** never more answers than requests taken off the queues *)
Lemma mtrans_count_le : forall c g inp p g' inp' p' e i,
  mtrans c g inp p g' inp' p' e -> eunit i e + count_req i (p' ++ inp') <= count_req i (p ++ inp).
Proof.
  intros c g inp p g' inp' p' e i M.
  assert (Hh : forall m a, eunit i (heff c m) + count_req i (hpend m a) <= req_unit i m + count_req i a).
  { intros m a. pose proof (heff_unit_le c i m). unfold hpend. destruct (is_shutdown m); cbn [count_req filter List.length]; lia. }
  destruct M; rewrite ?app_snoc, ?count_req_app, ?count_req_cons; cbn [eunit];
    try change (req_unit i (MReq i0 ?meth ?pok)) with (unit_of i0 i);
    try specialize (Hh m p); try lia.
  (* M_stop *) destruct inp as [|m r]; cbn [tl]; rewrite ?count_req_cons; lia.
Qed.

(** the life-cycle predicate of the session, by stage, on the messages still to be handled *)
Definition lc (g : stage) (l : list msg) : bool :=
  match g with
  | SPreInit => lc_pre l
  | SAwaitInitialized => lc_await l
  | SInit | SReplay | SRun => lc_main l
  | SShutdownWait | SStopped => no_reqs l
  | SCrashed => false
  end.

(** the same for sessions that never ask the server to stop *)
Definition kr (g : stage) (l : list msg) : bool :=
  match g with
  | SPreInit => kr_pre l
  | SAwaitInitialized => kr_await l
  | SInit | SReplay | SRun => kr_main l
  | SShutdownWait | SStopped | SCrashed => false
  end.

Section Fixed.
  Variable c : cfg.
  Hypothesis Hfix : cfg_fixed c = true.

  Lemma fixed_fields : c_extract_err c = true /\ c_catch_panic c = true /\ c_init_unwrap c = false.
  Proof.
    unfold cfg_fixed in Hfix. apply andb_true_iff in Hfix as [H Hu]. apply andb_true_iff in H as [He Hp].
    apply negb_true_iff in Hu. auto.
  Qed.

  Lemma resp_of_some : forall b o, exists r, resp_of c b o = Some r.
  Proof. intros b o. destruct fixed_fields as [_ [Hp _]]. destruct o; cbn [resp_of]; rewrite ?Hp; eexists; reflexivity. Qed.

  Lemma heff_unit : forall i m, eunit i (heff c m) = req_unit i m.
  Proof.
    intros i [j meth pok|meth [j|]|j]; cbn [heff]; try reflexivity.
    - rewrite (proj1 fixed_fields). destruct (meth =? "shutdown"); [reflexivity|]. destruct (known c meth); [|reflexivity].
      destruct pok; reflexivity.
    - destruct (meth =? "$/cancelRequest"); reflexivity.
  Qed.

  Lemma handled_head : forall g m p l,
    lc g = lc_main -> lc_main (m :: p ++ l) = true ->
    lc (hstage g m) (hpend m p ++ l) = true /\
    forall i, eunit i (heff c m) + count_req i (hpend m p ++ l) = count_req i (m :: p ++ l).
  Proof.
    intros g m p l Hg H. rewrite lc_main_cons in H. unfold hstage, hpend. destruct (is_shutdown m).
    - cbn [lc app]. pose proof H as H'. rewrite no_reqs_app in H'. apply andb_true_iff in H' as [_ H'].
      split; [exact H'|]. intros i. rewrite count_req_cons, heff_unit, (no_reqs_count i _ H), (no_reqs_count i _ H'). reflexivity.
    - rewrite Hg. split; [exact H|]. intros i. rewrite count_req_cons, heff_unit. reflexivity.
  Qed.

  (** with the repairs in place, a session that respects the life-cycle keeps doing so, and every
      request taken off the queues is answered or becomes a task *)
  Lemma mtrans_life : forall g inp p g' inp' p' e,
    mtrans c g inp p g' inp' p' e -> pend_ok g p -> lc g (p ++ inp) = true ->
    lc g' (p' ++ inp') = true /\ forall i, eunit i e + count_req i (p' ++ inp') = count_req i (p ++ inp).
  Proof.
    intros g inp p g' inp' p' e M Hp H.
    destruct M; try (rewrite (pend_ok_nil _ _ Hp) in * by discriminate; cbn [app] in * );
      cbn [lc lc_pre] in H.
    - (* M_init_ok *) rewrite H0 in H. split; [exact H|]. intros j. rewrite count_req_cons. reflexivity.
    - (* M_init_crash *) destruct fixed_fields as [_ [_ Hu]]. congruence.
    - (* M_pre_err *) rewrite H0 in H. split; [exact H|]. intros j. rewrite count_req_cons. reflexivity.
    - (* M_pre_notif *) destruct (meth =? "exit"); (split; [exact H|reflexivity]).
    - (* M_pre_resp *) split; [exact H|reflexivity].
    - (* M_await *) unfold lc_await in H.
      assert (Hstop : no_reqs (m :: r) = true ->
                lc SStopped r = true /\ forall i, eunit i ENone + count_req i r = count_req i (m :: r)).
      { intros Hn. pose proof (no_reqs_tl _ Hn) as Hr. cbn [tl] in Hr. split; [exact Hr|].
        intros j. rewrite (no_reqs_count j _ Hn), (no_reqs_count j _ Hr). reflexivity. }
      destruct m as [j meth pok|meth tgt|j]; [auto| |auto].
      destruct (meth =? "initialized"); [|auto]. split; [exact H|reflexivity].
    - (* M_defer *) rewrite app_snoc. split; [exact H|reflexivity].
    - (* M_init_handle *) pose proof (can_init_not_req _ _ H0) as Hm. unfold hstage, hpend. rewrite (not_req_shutdown m Hm).
      split; [eapply lc_main_del; eassumption|].
      intros j. rewrite (heff_not_req c m Hm), !count_req_app, count_req_cons, (not_req_unit j m Hm). reflexivity.
    - (* M_init_done *) split; [exact H|reflexivity].
    - (* M_replay_done *) split; [exact H|reflexivity].
    - (* M_replay *) exact (handled_head SReplay m p inp eq_refl H).
    - (* M_run *) exact (handled_head SRun m [] r eq_refl H).
    - (* M_stop *) pose proof (no_reqs_tl _ H) as Hr. split; [exact Hr|].
      intros j. rewrite (no_reqs_count j _ H), (no_reqs_count j _ Hr). reflexivity.
  Qed.

  Lemma mtrans_alive : forall g inp p g' inp' p' e,
    mtrans c g inp p g' inp' p' e -> pend_ok g p -> kr g (p ++ inp) = true -> kr g' (p' ++ inp') = true.
  Proof.
    intros g inp p g' inp' p' e M Hp H.
    assert (Hh : forall g0 m a l, is_shutdown m = false /\ kr g0 (a ++ l) = true ->
              kr (hstage g0 m) (hpend m a ++ l) = true).
    { intros g0 m a l [Hm Hk]. unfold hstage, hpend. rewrite Hm. exact Hk. }
    assert (Hdel : forall m a b, kr_main (a ++ m :: b) = true -> is_shutdown m = false /\ kr_main (a ++ b) = true).
    { intros m a b Hk. rewrite kr_main_app in *. rewrite kr_main_cons in Hk.
      apply andb_true_iff in Hk as [-> Hk]. apply andb_true_iff in Hk as [Hm ->]. apply negb_true_iff in Hm. auto. }
    destruct M; try (rewrite (pend_ok_nil _ _ Hp) in * by discriminate; cbn [app] in * );
      cbn [kr kr_pre] in H; try discriminate.
    - (* M_init_ok *) rewrite H0 in H. exact H.
    - (* M_init_crash *) destruct fixed_fields as [_ [_ Hu]]. congruence.
    - (* M_pre_err *) rewrite H0 in H. exact H.
    - (* M_pre_notif *) destruct (meth =? "exit"); [discriminate|exact H].
    - (* M_await *) unfold kr_await in H. destruct m as [j meth pok|meth tgt|j]; try discriminate.
      apply andb_true_iff in H as [-> H]. exact H.
    - (* M_defer *) rewrite app_snoc. exact H.
    - (* M_init_handle *) exact (Hh SInit m p r (Hdel m p r H)).
    - (* M_init_done *) exact H.
    - (* M_replay_done *) exact H.
    - (* M_replay *) exact (Hh SReplay m p inp (Hdel m [] (p ++ inp) H)).
    - (* M_run *) exact (Hh SRun m [] r (Hdel m [] r H)).
  Qed.
End Fixed.

(** the part of [measure] that the main loop consumes; a spawned task costs one *)
Definition qmeasure (g : stage) (inp p : list msg) : nat :=
  3 * List.length inp + 2 * List.length p + stage_weight g.

Lemma mtrans_measure : forall c g inp p g' inp' p' e,
  mtrans c g inp p g' inp' p' e -> qmeasure g' inp' p' + espawn e < qmeasure g inp p.
Proof.
  intros c g inp p g' inp' p' e M.
  assert (Hh : forall g0 m a, 2 <= stage_weight g0 ->
            2 * List.length (hpend m a) + stage_weight (hstage g0 m) + espawn (heff c m) <= 2 * List.length a + stage_weight g0 + 1).
  { intros g0 m a Hg. unfold hpend, hstage.
    assert (espawn (heff c m) <= 1) by (destruct (heff c m); cbn; lia).
    destruct (is_shutdown m) eqn:Es; [|lia].
    destruct m as [i meth pok| |]; try discriminate. cbn [is_shutdown] in Es. cbn [heff]. rewrite Es. cbn [espawn List.length stage_weight]. lia. }
  unfold qmeasure. destruct M; cbn [List.length espawn stage_weight]; rewrite ?app_length; cbn [List.length]; try lia.
  - (* M_pre_notif *) destruct (meth =? "exit"); cbn [stage_weight]; lia.
  - (* M_await *) destruct m as [j meth pok|meth tgt|j]; [|destruct (meth =? "initialized")|]; cbn [stage_weight]; lia.
  - (* M_init_handle *) specialize (Hh SInit m p). cbn [stage_weight] in Hh. lia.
  - (* M_replay *) specialize (Hh SReplay m p). cbn [stage_weight] in Hh. lia.
  - (* M_run *) specialize (Hh SRun m p). cbn [stage_weight] in Hh. lia.
  - (* M_stop *) destruct inp; cbn [tl List.length]; lia.
Qed.

Definition total (i : rid) (s : state) : nat := answers i s + count_req i (rest s).

Lemma finish_queues : forall c k t o s,
  st_stage (finish c k t o s) = st_stage s /\ st_pending (finish c k t o s) = st_pending s /\
  rest (finish c k t o s) = rest s.
Proof. intros. unfold finish, rest. destruct (resp_of c (t_cancel t) o); repeat split; reflexivity. Qed.

Lemma answers_finish : forall c i k t o s, nth_error (st_tasks s) k = Some t ->
  answers i (finish c k t o s) + (match resp_of c (t_cancel t) o with Some _ => 0 | None => unit_of (t_id t) i end)
  = answers i s.
Proof.
  intros c i k t o s En. unfold finish, answers. rewrite (count_tasks_remove_nth i k _ t En).
  destruct (resp_of c (t_cancel t) o); cbn [set_cmap emit set_tasks st_out st_tasks]; rewrite ?count_out_cons; lia.
Qed.

Lemma total_le_step : forall c i s s', trans c s s' -> total i s' <= total i s.
Proof.
  intros c i s s' [g inp pend e M|k t o En]; unfold total.
  - unfold rest. destruct (main_queues e g inp pend s) as [_ [-> ->]]. rewrite answers_eff.
    change (answers i (set_queues g inp pend s)) with (answers i s).
    pose proof (mtrans_count_le c _ _ _ _ _ _ _ i M). lia.
  - destruct (finish_queues c k t o s) as [_ [_ ->]]. pose proof (answers_finish c i k t o s En). lia.
Qed.

Lemma never_more_than_one : forall c msgs sched s i,
  run (step c) (init msgs) sched = Some s -> count_out i (st_out s) <= count_req i msgs.
Proof.
  intros c msgs sched s i Hr.
  assert (H : total i s <= count_req i msgs).
  { apply (trans_invariant c (fun s => total i s <= count_req i msgs) msgs sched s); [|reflexivity|exact Hr].
    intros s1 s2 H1 H2. pose proof (total_le_step c i s1 s2 H2). lia. }
  unfold total, answers in H. lia.
Qed.

Definition inv (msgs : list msg) (s : state) : Prop :=
  (forall i, total i s = count_req i msgs) /\
  pend_ok (st_stage s) (st_pending s) /\ lc (st_stage s) (rest s) = true.

Lemma inv_step : forall c msgs s s', cfg_fixed c = true -> inv msgs s -> trans c s s' -> inv msgs s'.
Proof.
  intros c msgs s s' Hfix [Htot [Hp Hl]] [g inp pend e M|k t o En]; unfold inv, total.
  - unfold rest in *. destruct (main_queues e g inp pend s) as [-> [-> ->]].
    destruct (mtrans_life c Hfix _ _ _ _ _ _ _ M Hp Hl) as [Hl' Hc].
    split; [|split; [eapply mtrans_pend; eassumption|exact Hl']].
    intros i. rewrite answers_eff, <- Htot. change (answers i (set_queues g inp pend s)) with (answers i s).
    specialize (Hc i). unfold total, rest. lia.
  - destruct (finish_queues c k t o s) as [-> [-> ->]]. split; [|split; assumption].
    intros i. rewrite <- Htot. pose proof (answers_finish c i k t o s En) as Ha.
    destruct (resp_of_some c Hfix (t_cancel t) o) as [r Hr]. rewrite Hr in Ha. unfold total. lia.
Qed.

Lemma inv_run : forall c msgs sched s,
  cfg_fixed c = true -> lifecycle_ok msgs = true -> run (step c) (init msgs) sched = Some s -> inv msgs s.
Proof.
  intros c msgs sched s Hfix Hl Hr.
  apply (trans_invariant c (inv msgs) msgs sched s); [|repeat split; [right; right; reflexivity|exact Hl]|exact Hr].
  intros s1 s2. apply inv_step. exact Hfix.
Qed.

Lemma pick_spec : forall c, picks (step c) pick.
Proof.
  intros c s. unfold pick. destruct (st_tasks s) as [|t r] eqn:Et.
  2:{ cbn [step]. rewrite Et. eexists; reflexivity. }
  assert (Hq : main_step c s = None -> st_stage s <> SInit -> quiescent (step c) s).
  { intros Hm Hi [| |k o]; cbn [step]; [exact Hm| |rewrite Et; destruct k; reflexivity].
    destruct (st_stage s); try reflexivity. contradiction. }
  destruct (st_stage s) eqn:Eg; try destruct (st_input s) eqn:Ei;
    try (apply Hq; [unfold main_step; rewrite Eg, ?Ei; reflexivity|congruence]);
    cbn [step]; unfold main_step; rewrite Eg, ?Ei; try destruct (st_pending s); eexists; reflexivity.
Qed.

Lemma quiescentb_sound : forall c s, quiescentb s = true -> quiescent (step c) s.
Proof.
  intros c s H. unfold quiescentb in H. pose proof (pick_spec c s) as P.
  destruct (pick s); [discriminate|exact P].
Qed.

Lemma quiescent_shape : forall c s,
  quiescent (step c) s ->
  st_tasks s = [] /\
  match st_stage s with
  | SPreInit | SAwaitInitialized | SRun => st_input s = []
  | SStopped | SCrashed => True
  | SInit | SReplay | SShutdownWait => False
  end.
Proof.
  intros c s Hq. pose proof (quiescent_pick _ _ _ pick (pick_spec c) s Hq) as Hk. unfold pick in Hk.
  destruct (st_tasks s); [|discriminate]. split; [reflexivity|].
  destruct (st_stage s); try destruct (st_input s); try discriminate; auto.
Qed.

Lemma one_response_gen : forall c msgs sched s,
  cfg_fixed c = true ->
  lifecycle_ok msgs = true ->
  run (step c) (init msgs) sched = Some s ->
  quiescent (step c) s ->
  forall i, count_out i (st_out s) = count_req i msgs.
Proof.
  intros c msgs sched s Hfix Hl Hr Hq i.
  destruct (inv_run c msgs sched s Hfix Hl Hr) as [Htot [Hp Hlc]].
  destruct (quiescent_shape c s Hq) as [Et Hs].
  (* no request is left in the queues: they are empty, or the server has stopped listening *)
  assert (Hz : count_req i (rest s) = 0).
  { unfold rest in *. destruct (st_stage s); cbn [lc] in Hlc; try contradiction; try discriminate;
      try (apply no_reqs_count; exact Hlc); rewrite (pend_ok_nil _ _ Hp), Hs by discriminate; reflexivity. }
  rewrite <- Htot. unfold total, answers. rewrite Et, Hz. cbn. lia.
Qed.

Lemma trans_measure : forall c s s', trans c s s' -> measure s' < measure s.
Proof.
  intros c s s' [g inp pend e M|k t o En]; unfold measure.
  - destruct (main_queues e g inp pend s) as [-> [-> ->]]. rewrite tasks_eff. cbn [set_queues st_tasks].
    pose proof (mtrans_measure c _ _ _ _ _ _ _ M) as Hm. unfold qmeasure in Hm. lia.
  - pose proof (length_remove_nth k _ t En). unfold finish.
    destruct (resp_of c (t_cancel t) o); cbn [set_cmap emit set_tasks st_input st_pending st_tasks st_stage]; lia.
Qed.

Lemma step_measure : forall c l s s', step c l s = Some s' -> measure s' < measure s.
Proof. intros c l s s' H. eapply trans_measure, step_trans, H. Qed.

Definition alive (s : state) : Prop :=
  pend_ok (st_stage s) (st_pending s) /\ kr (st_stage s) (rest s) = true.

Lemma alive_step : forall c s s', cfg_fixed c = true -> alive s -> trans c s s' -> alive s'.
Proof.
  intros c s s' Hfix [Hp Hk] [g inp pend e M|k t o En]; unfold alive.
  - unfold rest in *. destruct (main_queues e g inp pend s) as [-> [-> ->]].
    split; [eapply mtrans_pend|eapply mtrans_alive]; eassumption.
  - destruct (finish_queues c k t o s) as [-> [-> ->]]. split; assumption.
Qed.

Lemma keeps_serving_gen : forall c msgs sched s,
  cfg_fixed c = true ->
  run (step c) (init msgs) sched = Some s ->
  (* never crashes *)
  (lifecycle_ok msgs = true -> st_stage s <> SCrashed) /\
  (* never stops listening unless the session asked for it *)
  (keeps_running msgs = true -> st_stage s <> SStopped /\ st_stage s <> SShutdownWait /\ st_stage s <> SCrashed) /\
  (* every schedule is finite ... *)
  List.length sched <= measure (init msgs) /\
  (* ... and can be completed to a quiescent state *)
  (exists sched' s', run (step c) s sched' = Some s' /\ quiescent (step c) s').
Proof.
  intros c msgs sched s Hfix Hr. split; [|split].
  - intros Hl E. destruct (inv_run c msgs sched s Hfix Hl Hr) as [_ [_ Hlc]]. rewrite E in Hlc. discriminate.
  - intros Hk. assert (Ha : alive s).
    { apply (trans_invariant c alive msgs sched s); [|split; [right; right; reflexivity|exact Hk]|exact Hr].
      intros s1 s2. apply alive_step. exact Hfix. }
    destruct Ha as [_ Ha]. repeat split; intros E; rewrite E in Ha; discriminate.
  - exact (terminates _ _ _ measure pick (step_measure c) (pick_spec c) sched _ s Hr).
Qed.

Lemma today_is_fixed : cfg_fixed today = true.
Proof. vm_compute. reflexivity. Qed.

Lemma today_init_queue : init_allows_requests = false.
Proof. reflexivity. Qed.

Lemma one_response_per_request : forall (msgs : list msg) (sched : list label) (s : state),
  lifecycle_ok msgs = true ->
  run (step today) (init msgs) sched = Some s ->
  quiescent (step today) s ->
  forall i, count_out i (st_out s) = count_req i msgs.
Proof. intros. eapply one_response_gen; try eassumption. exact today_is_fixed. Qed.

Lemma never_more_than_one_response : forall (msgs : list msg) (sched : list label) (s : state) (i : rid),
  run (step today) (init msgs) sched = Some s -> (count_out i (st_out s) <= count_req i msgs)%nat.
Proof. intros. eapply never_more_than_one; eassumption. Qed.

Lemma server_keeps_serving : forall (msgs : list msg) (sched : list label) (s : state),
  run (step today) (init msgs) sched = Some s ->
  (lifecycle_ok msgs = true -> st_stage s <> SCrashed) /\
  (keeps_running msgs = true -> st_stage s <> SStopped /\ st_stage s <> SShutdownWait /\ st_stage s <> SCrashed) /\
  (List.length sched <= measure (init msgs))%nat /\
  (exists sched' s', run (step today) s sched' = Some s' /\ quiescent (step today) s').
Proof. intros. apply keeps_serving_gen; [exact today_is_fixed|assumption]. Qed.

(** the configurations before each repair *)
Definition without_extract_err : cfg :=
  {| c_methods := request_methods; c_extract_err := false; c_catch_panic := true; c_init_unwrap := false;
     c_init_notifs := init_allowed_notifications; c_init_resps := init_allows_responses |}.
Definition without_catch_panic : cfg :=
  {| c_methods := request_methods; c_extract_err := true; c_catch_panic := false; c_init_unwrap := false;
     c_init_notifs := init_allowed_notifications; c_init_resps := init_allows_responses |}.
Definition with_init_unwrap : cfg :=
  {| c_methods := request_methods; c_extract_err := true; c_catch_panic := true; c_init_unwrap := true;
     c_init_notifs := init_allowed_notifications; c_init_resps := init_allows_responses |}.

Local Open Scope N_scope.

Definition handshake : list msg :=
  [MReq 0 "initialize" true; MNotif "initialized" None].

Lemma bad_params_refuted :
  exists (msgs : list msg) (sched : list label) (s : state),
    lifecycle_ok msgs = true /\
    run (step without_extract_err) (init msgs) sched = Some s /\
    quiescent (step without_extract_err) s /\
    count_req 7 msgs = 1%nat /\ count_out 7 (st_out s) = 0%nat /\
    (* ... while the unknown method next to it is answered *)
    count_req 8 msgs = 1%nat /\ count_out 8 (st_out s) = 1%nat.
Proof.
  exists (handshake ++ [MReq 7 "textDocument/hover" false; MReq 8 "no/such" true]),
         [LMain; LMain; LInitDone; LMain; LMain; LMain].
  eexists. split; [reflexivity|]. split; [vm_compute; reflexivity|].
  split; [apply quiescentb_sound; reflexivity|]. repeat split; reflexivity.
Qed.

Lemma panic_refuted :
  exists (msgs : list msg) (sched : list label) (s : state),
    lifecycle_ok msgs = true /\
    run (step without_catch_panic) (init msgs) sched = Some s /\
    quiescent (step without_catch_panic) s /\
    count_req 7 msgs = 1%nat /\ count_out 7 (st_out s) = 0%nat /\
    (* the cancellations entry of the dead task is never removed *)
    st_cmap s <> [].
Proof.
  exists (handshake ++ [MReq 7 "textDocument/hover" true]),
         [LMain; LMain; LInitDone; LMain; LMain; LTask 0 HPanic].
  eexists. split; [reflexivity|]. split; [vm_compute; reflexivity|].
  split; [apply quiescentb_sound; reflexivity|]. repeat split; try reflexivity. discriminate.
Qed.

Lemma init_caps_refuted :
  exists (msgs : list msg) (sched : list label) (s : state),
    lifecycle_ok msgs = true /\
    run (step with_init_unwrap) (init msgs) sched = Some s /\
    quiescent (step with_init_unwrap) s /\
    st_stage s = SCrashed /\
    count_req 0 msgs = 1%nat /\ count_out 0 (st_out s) = 0%nat /\
    (* the retry and the request after it are never answered either *)
    count_req 1 msgs = 1%nat /\ count_out 1 (st_out s) = 0%nat.
Proof.
  exists [MReq 0 "initialize" false; MReq 1 "initialize" true; MNotif "initialized" None], [LMain].
  eexists. split; [reflexivity|]. split; [vm_compute; reflexivity|].
  split; [apply quiescentb_sound; reflexivity|]. repeat split; reflexivity.
Qed.

(** a session that uses every path: a request before initialize, a malformed initialize, the
    handshake, requests queued during initialization, a cancellation that arrives while the task
    runs, a panic, a handler returning None, malformed params, an unknown method, duplicate ids,
    shutdown and exit — under one particular interleaving *)
Definition example_msgs : list msg :=
  [MReq 1 "textDocument/hover" true;           (* before initialize: -32002 *)
   MReq 2 "initialize" false;                  (* malformed: -32602, server keeps waiting *)
   MReq 3 "initialize" true; MNotif "initialized" None;
   MReq 4 "textDocument/hover" true;           (* queued during initialization *)
   MNotif "$/cancelRequest" (Some 4);          (* processed at once: nothing to cancel yet *)
   MReq 5 "textDocument/completion" false;     (* queued; -32602 on replay *)
   MReq 6 "textDocument/definition" true;
   MNotif "$/cancelRequest" (Some 6);
   MReq 7 "textDocument/rename" true;          (* will panic *)
   MReq 8 "workspace/symbol" true;             (* will return None *)
   MReq 9 "no/such" true;
   MReq 4 "textDocument/hover" true;           (* duplicate id *)
   MResp 77;
   MReq 10 "shutdown" false; MNotif "exit" None].

Definition example_sched : list label :=
  [LMain; LMain; LMain; LMain;                 (* 1, 2, 3, initialized *)
   LMain; LMain; LMain;                        (* 4 queued, cancel 4 handled, 5 queued *)
   LInitDone; LMain; LMain; LMain;             (* replay 4 (spawn), 5 (error); pending empty -> run *)
   LMain; LMain;                               (* 6 spawned, cancel 6 *)
   LTask 0 HOk;                                (* first 4 answers ok *)
   LMain; LMain; LMain; LMain;                 (* 7, 8 spawned, 9 unknown, second 4 spawned *)
   LTask 0 HOk;                                (* 6: cancelled *)
   LTask 0 HPanic; LTask 0 HNone;              (* 7, 8: internal error *)
   LMain; LMain; LMain;                        (* response, shutdown, exit *)
   LTask 0 HOk].                               (* second 4 answers after the loop ended *)

Lemma session_example :
  lifecycle_ok example_msgs = true /\
  match run (step today) (init example_msgs) example_sched with
  | Some s => quiescentb s = true /\ st_stage s = SStopped /\
              rev (st_out s) =
              [(1, CNotInitialized); (2, CInvalidParams); (3, COk); (5, CInvalidParams); (4, COk);
               (9, CMethodNotFound); (6, CCancelled); (7, CInternal); (8, CInternal); (10, COk); (4, COk)]
  | None => False
  end.
Proof. vm_compute. repeat split; reflexivity. Qed.
