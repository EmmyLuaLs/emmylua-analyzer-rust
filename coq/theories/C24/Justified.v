(** A response is "cancelled" only if the client cancelled that id, and every response has a class that some request
    with that id justifies.  Both are invariants of the answering side of the state: the main loop touches it only through
    the effect of a step, a legitimate reaction ([eff_for]) to a message of the session ([mtrans_eff], [answers_invariant]). *)
From Coq Require Import List NArith Bool String Arith Lia.
Import ListNotations.
From EV Require Import Base.LTS Gen.C24_Dispatch C24.Model C24.Proofs.
Local Open Scope string_scope.
Local Open Scope list_scope.
Arguments String.eqb : simpl never.
Arguments N.eqb : simpl never.

Definition eff_for (c : cfg) (m : msg) (e : effect) : Prop :=
  match e with
  | ENone => True
  | EEmit i r => r <> CCancelled /\ justifies c i r m = true
  | ESpawn i => justifies c i CInternal m = true
  | ECancel i => cancels i m = true
  end.

Lemma heff_for : forall c m, eff_for c m (heff c m).
Proof.
  intros c [i meth pok|meth [i|]|i]; cbn [heff]; try exact I.
  - destruct (meth =? "shutdown") eqn:Es.
    { split; [discriminate|]. cbn [justifies class_ok]. rewrite N.eqb_refl, Es. reflexivity. }
    destruct (known c meth) eqn:Ek.
    + destruct pok.
      * cbn [eff_for justifies class_ok]. rewrite N.eqb_refl, Ek, Es. reflexivity.
      * destruct (c_extract_err c); [|exact I]. split; [discriminate|]. cbn [justifies class_ok]. rewrite N.eqb_refl. reflexivity.
    + split; [discriminate|]. cbn [justifies class_ok]. rewrite N.eqb_refl, Ek, Es. reflexivity.
  - destruct (meth =? "$/cancelRequest") eqn:Em; [|exact I]. cbn [eff_for cancels]. rewrite Em, N.eqb_refl. reflexivity.
Qed.

Lemma mtrans_eff : forall c g inp p g' inp' p' e,
  mtrans c g inp p g' inp' p' e -> e = ENone \/ exists m, In m (p ++ inp) /\ eff_for c m e.
Proof.
  intros c g inp p g' inp' p' e M. destruct M; auto; right.
  - (* M_init_ok *) exists (MReq i meth true). split; [apply in_elt|]. split; [discriminate|].
    cbn [justifies class_ok]. rewrite N.eqb_refl, H. cbn [andb]. rewrite orb_true_r. reflexivity.
  - (* M_pre_err *) exists (MReq i meth pok). split; [apply in_elt|]. cbn [eff_for justifies]. rewrite N.eqb_refl.
    destruct (meth =? "initialize") eqn:E; (split; [discriminate|]); cbn [class_ok andb] in *; rewrite ?H, ?E; reflexivity.
  - (* M_init_handle *) exists m. split; [apply in_elt|apply heff_for].
  - (* M_replay *) exists m. split; [left; reflexivity|apply heff_for].
  - (* M_run *) exists m. split; [apply in_elt|apply heff_for].
Qed.

Lemma mtrans_rest : forall c g inp p g' inp' p' e,
  mtrans c g inp p g' inp' p' e -> incl (p' ++ inp') (p ++ inp).
Proof.
  intros c g inp p g' inp' p' e M.
  assert (Hdrop : forall (a : list msg) m b, incl (a ++ b) (a ++ m :: b)).
  { intros a m b. apply incl_app; [apply incl_appl, incl_refl|apply incl_appr, incl_tl, incl_refl]. }
  assert (Hh : forall m (a b : list msg), incl (hpend m a ++ b) (a ++ b)).
  { intros m a b. unfold hpend. destruct (is_shutdown m); [apply incl_appr|]; apply incl_refl. }
  destruct M; try apply Hdrop; try apply incl_refl.
  - (* M_defer *) rewrite app_snoc. apply incl_refl.
  - (* M_init_handle *) eapply incl_tran; [apply Hh|apply Hdrop].
  - (* M_replay *) eapply incl_tran; [apply Hh|apply incl_tl, incl_refl].
  - (* M_run *) eapply incl_tran; [apply Hh|apply Hdrop].
  - (* M_stop *) apply incl_app; [apply incl_appl, incl_refl|apply incl_appr]. destruct inp; [apply incl_refl|apply incl_tl, incl_refl].
Qed.

Lemma answers_invariant : forall c msgs (A : state -> Prop),
  (forall g inp pend s, A s -> A (set_queues g inp pend s)) ->
  (forall m e s, In m msgs -> eff_for c m e -> A s -> A (run_eff e s)) ->
  (forall k t o s, nth_error (st_tasks s) k = Some t -> A s -> A (finish c k t o s)) ->
  A (init msgs) ->
  forall sched s, run (step c) (init msgs) sched = Some s -> A s.
Proof.
  intros c msgs A Hq He Hf H0 sched s Hr.
  apply (trans_invariant c (fun s => incl (rest s) msgs /\ A s) msgs sched s); [|split; [apply incl_refl|exact H0]|exact Hr].
  intros s1 s2 [Hin Ha] [g inp pend e M|k t o En].
  - unfold rest in *. destruct (main_queues e g inp pend s1) as [_ [-> ->]].
    split; [eapply incl_tran; [eapply mtrans_rest; exact M|exact Hin]|].
    destruct (mtrans_eff _ _ _ _ _ _ _ _ M) as [->|[m [Hm Hfor]]]; [apply Hq; exact Ha|].
    apply (He m); [apply Hin; exact Hm|exact Hfor|apply Hq; exact Ha].
  - destruct (finish_queues c k t o s1) as [_ [_ ->]]. split; [exact Hin|apply Hf; assumption].
Qed.

Lemma In_remove_nth : forall {A} k (l : list A) x, In x (remove_nth k l) -> In x l.
Proof.
  intros A. induction k as [|k IH]; intros [|y r] x H; cbn [remove_nth] in H; try contradiction.
  - right. exact H.
  - destruct H as [H|H]; [left; exact H|right; apply IH; exact H].
Qed.

Lemma resp_of_class : forall c b o r, resp_of c b o = Some r ->
  (r = CCancelled -> b = true) /\ (r = COk \/ r = CInternal \/ r = CCancelled).
Proof.
  intros c b o r H. destruct o, b; cbn [resp_of] in H; try destruct (c_catch_panic c);
    inversion H; subst; (split; [discriminate || reflexivity|auto]).
Qed.

Record jinv (msgs : list msg) (s : state) : Prop := {
  j_tok : forall t, In t (st_tasks s) -> (t_tok t < st_next s)%N;
  j_map : forall j k, In (j, k) (st_cmap s) -> (k < st_next s)%N;
  j_own : forall j k t, In (j, k) (st_cmap s) -> In t (st_tasks s) -> t_tok t = k -> t_id t = j;
  j_flag : forall t, In t (st_tasks s) -> t_cancel t = true -> cancel_in (t_id t) msgs = true;
  j_out : forall i, In (i, CCancelled) (st_out s) -> cancel_in i msgs = true
}.

Lemma cmap_remove_In : forall i j k m, In (j, k) (cmap_remove i m) -> In (j, k) m.
Proof. intros i j k m H. unfold cmap_remove in H. apply filter_In in H. apply H. Qed.

Lemma cmap_get_In : forall i k m, cmap_get i m = Some k -> In (i, k) m.
Proof.
  intros i k m H. unfold cmap_get in H. destruct (find (fun p => N.eqb (fst p) i) m) as [[j k']|] eqn:E; [|discriminate].
  inversion H; subst k'. apply find_some in E as [E1 E2]. cbn [fst] in E2. apply N.eqb_eq in E2. subst j. exact E1.
Qed.

Lemma jinv_spawn : forall msgs s i, jinv msgs s -> jinv msgs (spawn i s).
Proof.
  intros msgs s i J. destruct J. constructor; cbn [spawn st_tasks st_next st_cmap st_out]; try assumption.
  - (* j_tok *) intros t H. apply in_app_or in H as [H|[H|[]]].
    + specialize (j_tok0 t H). lia.
    + subst t. cbn [t_tok]. lia.
  - (* j_map *) intros j k [H|H].
    + inversion H; subst. lia.
    + apply cmap_remove_In in H. specialize (j_map0 j k H). lia.
  - (* j_own *) intros j k t [H|H] Ht Hk.
    + inversion H; subst j k. apply in_app_or in Ht as [Ht|[Ht|[]]].
      * specialize (j_tok0 t Ht). lia.
      * subst t. reflexivity.
    + apply cmap_remove_In in H. apply in_app_or in Ht as [Ht|[Ht|[]]].
      * eapply j_own0; eassumption.
      * subst t. cbn [t_tok] in Hk. specialize (j_map0 j k H). lia.
  - (* j_flag *) intros t H Hc. apply in_app_or in H as [H|[H|[]]]; [auto|]. subst t. cbn in Hc. discriminate.
Qed.

Lemma jinv_cancel : forall msgs s i, cancel_in i msgs = true -> jinv msgs s -> jinv msgs (cancel i s).
Proof.
  intros msgs s i Hc J. unfold cancel. destruct (cmap_get i (st_cmap s)) as [k|] eqn:E; [|exact J].
  apply cmap_get_In in E. destruct J. constructor; cbn [set_tasks st_tasks st_next st_cmap st_out]; try assumption.
  - (* j_tok *) intros t H. apply in_map_iff in H as [t0 [Ht0 H0]]. specialize (j_tok0 t0 H0).
    destruct (N.eqb (t_tok t0) k); subst t; cbn [t_tok]; exact j_tok0.
  - (* j_own *) intros j k' t Hm H Hk. apply in_map_iff in H as [t0 [Ht0 H0]].
    assert (t_tok t = t_tok t0 /\ t_id t = t_id t0) as [Ht1 Ht2].
    { destruct (N.eqb (t_tok t0) k); subst t; split; reflexivity. }
    rewrite Ht2. eapply j_own0; [exact Hm|exact H0|congruence].
  - (* j_flag *) intros t H Hf. apply in_map_iff in H as [t0 [Ht0 H0]].
    destruct (N.eqb (t_tok t0) k) eqn:Ek.
    + subst t. cbn [t_id]. apply N.eqb_eq in Ek. rewrite (j_own0 i k t0 E H0 Ek). exact Hc.
    + subst t. auto.
Qed.

Lemma jinv_eff : forall c msgs m e s, In m msgs -> eff_for c m e -> jinv msgs s -> jinv msgs (run_eff e s).
Proof.
  intros c msgs m [|i r|i|i] s Hm Hfor J; cbn [run_eff eff_for] in *.
  - exact J.
  - destruct Hfor as [Hr _]. destruct J. constructor; cbn [emit st_tasks st_next st_cmap st_out]; try assumption.
    intros j [H|H]; [inversion H; subst; congruence|auto].
  - apply jinv_spawn. exact J.
  - apply jinv_cancel; [|exact J]. unfold cancel_in. apply existsb_exists. exists m. split; assumption.
Qed.

Lemma jinv_finish : forall c msgs k t o s,
  nth_error (st_tasks s) k = Some t -> jinv msgs s -> jinv msgs (finish c k t o s).
Proof.
  intros c msgs k t o s En J. pose proof (nth_error_In _ _ En) as Ht. unfold finish.
  assert (Hsub : forall x, In x (remove_nth k (st_tasks s)) -> In x (st_tasks s)) by (intros x; apply In_remove_nth).
  assert (J1 : jinv msgs (set_tasks (remove_nth k (st_tasks s)) s)).
  { destruct J. constructor; cbn [set_tasks st_tasks st_next st_cmap st_out]; auto.
    intros j k' t' H H'. apply (j_own0 j k' t' H), Hsub, H'. }
  destruct (resp_of c (t_cancel t) o) as [r|] eqn:Er; [|exact J1].
  destruct J1. constructor; cbn [set_cmap emit set_tasks st_tasks st_next st_cmap st_out] in *; try assumption.
  - (* j_map *) intros j k' H. apply cmap_remove_In in H. exact (j_map0 j k' H).
  - (* j_own *) intros j k' t' H. apply cmap_remove_In in H. exact (j_own0 j k' t' H).
  - (* j_out *) intros i [H|H]; [|auto]. inversion H; subst i r. apply (j_flag _ _ J); [exact Ht|].
    apply (resp_of_class _ _ _ _ Er). reflexivity.
Qed.

Lemma cancelled_only_if_asked_gen : forall c msgs sched s i,
  run (step c) (init msgs) sched = Some s -> In (i, CCancelled) (st_out s) -> cancel_in i msgs = true.
Proof.
  intros c msgs sched s i Hr. apply j_out.
  apply (answers_invariant c msgs (jinv msgs)) with (sched := sched); [| | | |exact Hr].
  - intros g inp pend s0 J. destruct J. constructor; assumption.
  - apply jinv_eff.
  - intros. apply jinv_finish; assumption.
  - constructor; cbn [init st_tasks st_next st_cmap st_out]; intros; contradiction.
Qed.

Record kinv (c : cfg) (msgs : list msg) (s : state) : Prop := {
  k_out : forall i r, In (i, r) (st_out s) -> justified c msgs i r = true;
  k_task : forall t, In t (st_tasks s) -> justified c msgs (t_id t) CInternal = true
}.

Lemma justified_of : forall c msgs i r m, In m msgs -> justifies c i r m = true -> justified c msgs i r = true.
Proof. intros. unfold justified. apply existsb_exists. exists m. split; assumption. Qed.

Lemma kinv_eff : forall c msgs m e s, In m msgs -> eff_for c m e -> kinv c msgs s -> kinv c msgs (run_eff e s).
Proof.
  intros c msgs m [|i r|i|i] s Hm Hfor K; cbn [run_eff eff_for] in *.
  - exact K.
  - destruct Hfor as [_ Hj]. destruct K. constructor; cbn [emit st_tasks st_out]; try assumption.
    intros j r' [H|H]; [inversion H; subst; eapply justified_of; eassumption|auto].
  - destruct K. constructor; cbn [spawn st_tasks st_out]; try assumption.
    intros t H. apply in_app_or in H as [H|[H|[]]]; [auto|]. subst t. eapply justified_of; eassumption.
  - unfold cancel. destruct (cmap_get i (st_cmap s)) as [k|]; [|exact K].
    destruct K. constructor; cbn [set_tasks st_tasks st_out]; try assumption.
    intros t H. apply in_map_iff in H as [t0 [Ht0 H0]]. specialize (k_task0 t0 H0).
    destruct (N.eqb (t_tok t0) k); subst t; exact k_task0.
Qed.

Lemma justified_task_class : forall c msgs i r,
  justified c msgs i CInternal = true -> r = COk \/ r = CInternal \/ r = CCancelled -> justified c msgs i r = true.
Proof.
  intros c msgs i r H Hr. unfold justified in *. apply existsb_exists in H as [m [Hm Hj]]. apply existsb_exists. exists m. split; [exact Hm|].
  destruct m as [j meth pok| |]; cbn [justifies] in *; try discriminate.
  apply andb_true_iff in Hj as [Hi Hc]. rewrite Hi. cbn [andb class_ok] in *.
  destruct Hr as [Hr|[Hr|Hr]]; subst r; cbn [class_ok]; try exact Hc.
  apply andb_true_iff in Hc as [Hc _]. rewrite Hc. apply orb_true_r.
Qed.

Lemma kinv_finish : forall c msgs k t o s,
  nth_error (st_tasks s) k = Some t -> kinv c msgs s -> kinv c msgs (finish c k t o s).
Proof.
  intros c msgs k t o s En K. pose proof (nth_error_In _ _ En) as Ht. destruct K. unfold finish.
  assert (Htasks : forall t', In t' (remove_nth k (st_tasks s)) -> justified c msgs (t_id t') CInternal = true).
  { intros t' H. apply k_task0. eapply In_remove_nth. exact H. }
  destruct (resp_of c (t_cancel t) o) as [r|] eqn:Er;
    constructor; cbn [set_cmap emit set_tasks st_tasks st_out]; try assumption.
  intros i r' [H|H]; [|auto]. inversion H; subst i r'. apply justified_task_class; [auto|].
  apply (resp_of_class _ _ _ _ Er).
Qed.

Lemma responses_justified_gen : forall c msgs sched s i r,
  run (step c) (init msgs) sched = Some s -> In (i, r) (st_out s) -> justified c msgs i r = true.
Proof.
  intros c msgs sched s i r Hr. apply k_out.
  apply (answers_invariant c msgs (kinv c msgs)) with (sched := sched); [| | | |exact Hr].
  - intros g inp pend s0 K. destruct K. constructor; assumption.
  - apply kinv_eff.
  - intros. apply kinv_finish; assumption.
  - constructor; cbn [init st_tasks st_out]; intros; contradiction.
Qed.

Lemma cancelled_only_if_asked : forall (msgs : list msg) (sched : list label) (s : state) (i : rid),
  run (step today) (init msgs) sched = Some s ->
  In (i, CCancelled) (st_out s) -> cancel_in i msgs = true.
Proof. intros. eapply cancelled_only_if_asked_gen; eassumption. Qed.

Lemma responses_justified : forall (msgs : list msg) (sched : list label) (s : state) (i : rid) (r : rclass),
  run (step today) (init msgs) sched = Some s ->
  In (i, r) (st_out s) -> justified today msgs i r = true.
Proof. intros. eapply responses_justified_gen; eassumption. Qed.
