(** C24/Props.v — property theorems only.  Each is closed by [exact] of a lemma of Proofs.v or Justified.v.

    [msgs] ranges over ALL client sessions (requests before `initialize`, malformed or repeated
    `initialize`, requests during initialization, every method with valid / malformed params,
    unknown methods, `$/cancelRequest` for any id at any time, duplicate ids, stray responses,
    shutdown/exit), [sched] over ALL interleavings of the main loop, the initialization task and
    the spawned handler tasks AND all handler outcomes (result / None / panic). *)
From Coq Require Import List NArith Bool String.
Import ListNotations.
From EV Require Import Base.LTS Gen.C24_Dispatch C24.Model C24.Proofs C24.Justified.
Local Open Scope string_scope.
Local Open Scope list_scope.

(** TABLE OBLIGATIONS, re-checked against today's source: the dispatch macro answers
    InvalidParams when `extract` fails, ServerContext::task answers when the handler panics,
    run_ls does not unwrap the InitializeParams deserialisation; requests are never handled
    while the initialization task runs (they are queued). *)
Theorem today_is_fixed : cfg_fixed today = true.
Proof. exact Proofs.today_is_fixed. Qed.

Theorem today_init_queue : init_allows_requests = false.
Proof. exact Proofs.today_init_queue. Qed.

(** At quiescence every request id has received exactly as many responses as there were
    requests with that id — one each.  The only hypothesis on the session is the LSP life-cycle
    ([lifecycle_ok]: no request after the point where the protocol makes the server stop
    listening). *)
Theorem one_response_per_request :
  forall (msgs : list msg) (sched : list label) (s : state),
    lifecycle_ok msgs = true ->
    run (step today) (init msgs) sched = Some s ->
    quiescent (step today) s ->
    forall i, count_out i (st_out s) = count_req i msgs.
Proof. exact Proofs.one_response_per_request. Qed.

(** At every point of every execution of ANY session (no life-cycle hypothesis): never more
    responses than requests for an id. *)
Theorem never_more_than_one_response :
  forall (msgs : list msg) (sched : list label) (s : state) (i : rid),
    run (step today) (init msgs) sched = Some s ->
    (count_out i (st_out s) <= count_req i msgs)%nat.
Proof. exact Proofs.never_more_than_one_response. Qed.

(** The server keeps serving: it never crashes; it stops listening only if the session asks for
    it (`shutdown`, or a handshake that lsp_server aborts); every schedule is finite and can be
    completed to quiescence — where, by the first theorem, every later request is answered. *)
Theorem server_keeps_serving :
  forall (msgs : list msg) (sched : list label) (s : state),
    run (step today) (init msgs) sched = Some s ->
    (lifecycle_ok msgs = true -> st_stage s <> SCrashed) /\
    (keeps_running msgs = true ->
       st_stage s <> SStopped /\ st_stage s <> SShutdownWait /\ st_stage s <> SCrashed) /\
    (List.length sched <= measure (init msgs))%nat /\
    (exists sched' s', run (step today) s sched' = Some s' /\ quiescent (step today) s').
Proof. exact Proofs.server_keeps_serving. Qed.

(** Responses are never of the wrong kind (any session, any schedule, at every point): an id is
    answered "request cancelled" only if the session contains a `$/cancelRequest` for that id ... *)
Theorem cancelled_only_if_asked :
  forall (msgs : list msg) (sched : list label) (s : state) (i : rid),
    run (step today) (init msgs) sched = Some s ->
    In (i, CCancelled) (st_out s) -> cancel_in i msgs = true.
Proof. exact Justified.cancelled_only_if_asked. Qed.

(** ... and every response has a class that some request with that id justifies: MethodNotFound
    only for an unregistered method, InvalidParams only for params that do not deserialise, a
    result / InternalError / cancelled only for a registered method with valid params (or the
    result of shutdown / initialize), ServerNotInitialized only before `initialize`. *)
Theorem responses_justified :
  forall (msgs : list msg) (sched : list label) (s : state) (i : rid) (r : rclass),
    run (step today) (init msgs) sched = Some s ->
    In (i, r) (st_out s) -> justified today msgs i r = true.
Proof. exact Justified.responses_justified. Qed.

(** The three defects of the tree before the repairs, as refutations for the configuration
    with the respective repair missing. *)
Local Open Scope N_scope.

Theorem bad_params_refuted :
  exists (msgs : list msg) (sched : list label) (s : state),
    lifecycle_ok msgs = true /\
    run (step without_extract_err) (init msgs) sched = Some s /\
    quiescent (step without_extract_err) s /\
    count_req 7 msgs = 1%nat /\ count_out 7 (st_out s) = 0%nat /\
    count_req 8 msgs = 1%nat /\ count_out 8 (st_out s) = 1%nat.
Proof. exact Proofs.bad_params_refuted. Qed.

Theorem panic_refuted :
  exists (msgs : list msg) (sched : list label) (s : state),
    lifecycle_ok msgs = true /\
    run (step without_catch_panic) (init msgs) sched = Some s /\
    quiescent (step without_catch_panic) s /\
    count_req 7 msgs = 1%nat /\ count_out 7 (st_out s) = 0%nat /\
    st_cmap s <> [].
Proof. exact Proofs.panic_refuted. Qed.

Theorem init_caps_refuted :
  exists (msgs : list msg) (sched : list label) (s : state),
    lifecycle_ok msgs = true /\
    run (step with_init_unwrap) (init msgs) sched = Some s /\
    quiescent (step with_init_unwrap) s /\
    st_stage s = SCrashed /\
    count_req 0 msgs = 1%nat /\ count_out 0 (st_out s) = 0%nat /\
    count_req 1 msgs = 1%nat /\ count_out 1 (st_out s) = 0%nat.
Proof. exact Proofs.init_caps_refuted. Qed.

(** non-vacuity: one session through every path of the dispatcher under a non-trivial interleaving *)
Example session_example :
  lifecycle_ok example_msgs = true /\
  match run (step today) (init example_msgs) example_sched with
  | Some s => quiescentb s = true /\ st_stage s = SStopped /\
              rev (st_out s) =
              [(1, CNotInitialized); (2, CInvalidParams); (3, COk); (5, CInvalidParams); (4, COk);
               (9, CMethodNotFound); (6, CCancelled); (7, CInternal); (8, CInternal); (10, COk); (4, COk)]
  | None => False
  end.
Proof. exact Proofs.session_example. Qed.
