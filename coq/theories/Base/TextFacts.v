(** Base/TextFacts.v — byte and UTF-16 lengths, and slicing a text at byte offsets that are character boundaries. *)
From EV Require Export Base.Text.
Local Open Scope N_scope.

Lemma blen_pos : forall c, 1 <= blen c.
Proof.
  intros c. unfold blen.
  destruct (c <? 128); [lia|]. destruct (c <? 2048); [lia|]. destruct (c <? 65536); lia.
Qed.

Lemma u16len_pos : forall c, 1 <= u16len c.
Proof. intros c. unfold u16len. destruct (c <? 65536); lia. Qed.

Lemma ascii_blen : forall c, (c <? 128) = true -> blen c = 1.
Proof. intros c H. unfold blen. rewrite H. reflexivity. Qed.

Lemma ascii_u16len : forall c, (c <? 128) = true -> u16len c = 1.
Proof.
  intros c H. unfold u16len. apply N.ltb_lt in H.
  destruct (N.ltb_spec c 65536); [reflexivity|lia].
Qed.

Lemma bytes_app : forall p r, bytes (p ++ r) = bytes p + bytes r.
Proof.
  induction p as [|c p IH]; intros r; cbn [app bytes]; [lia|]. rewrite IH. lia.
Qed.

Lemma u16s_app : forall p r, u16s (p ++ r) = u16s p + u16s r.
Proof.
  induction p as [|c p IH]; intros r; cbn [app u16s]; [lia|]. rewrite IH. lia.
Qed.

Lemma all_ascii_app : forall p r, all_ascii (p ++ r) = all_ascii p && all_ascii r.
Proof. intros p r. unfold all_ascii. apply forallb_app. Qed.

Lemma all_ascii_cons : forall c r, all_ascii (c :: r) = (c <? 128) && all_ascii r.
Proof. reflexivity. Qed.

Lemma all_ascii_bytes : forall s, all_ascii s = true -> bytes s = u16s s.
Proof.
  induction s as [|c s IH]; intros H; [reflexivity|].
  rewrite all_ascii_cons in H. apply andb_true_iff in H as [Hc Hs].
  cbn [bytes u16s]. rewrite (ascii_blen _ Hc), (ascii_u16len _ Hc), (IH Hs). reflexivity.
Qed.

Lemma take_bytes_0 : forall t, take_bytes t 0 = Some [].
Proof. destruct t; reflexivity. Qed.

Lemma drop_bytes_0 : forall t, drop_bytes t 0 = Some t.
Proof. destruct t; reflexivity. Qed.

(** the tests [take_bytes] and [drop_bytes] make before stepping over a character *)
Lemma step_over : forall c n,
  (blen c + n =? 0) = false /\ (blen c + n <? blen c) = false /\ blen c + n - blen c = n.
Proof.
  intros c n. pose proof (blen_pos c).
  split; [apply N.eqb_neq; lia|]. split; [apply N.ltb_ge; lia|lia].
Qed.

Lemma take_bytes_app : forall p r, take_bytes (p ++ r) (bytes p) = Some p.
Proof.
  induction p as [|c p IH]; intros r; cbn [app bytes take_bytes]; [apply take_bytes_0|].
  destruct (step_over c (bytes p)) as (-> & -> & ->). rewrite IH. reflexivity.
Qed.

Lemma drop_bytes_app : forall p r, drop_bytes (p ++ r) (bytes p) = Some r.
Proof.
  induction p as [|c p IH]; intros r; cbn [app bytes drop_bytes]; [apply drop_bytes_0|].
  destruct (step_over c (bytes p)) as (-> & -> & ->). apply IH.
Qed.

Lemma slice_app : forall p s r a b,
  a = bytes p -> b = bytes p + bytes s -> slice (p ++ s ++ r) a b = Some s.
Proof.
  intros p s r a b -> ->. unfold slice.
  destruct (N.ltb_spec (bytes p + bytes s) (bytes p)) as [E|_]; [lia|].
  rewrite drop_bytes_app.
  replace (bytes p + bytes s - bytes p) with (bytes s) by lia.
  apply take_bytes_app.
Qed.

Lemma take_bytes_spec : forall t o p,
  take_bytes t o = Some p -> exists r, t = p ++ r /\ bytes p = o.
Proof.
  induction t as [|c t IH]; intros o p H; cbn [take_bytes] in H;
    (destruct (N.eqb_spec o 0) as [->|E]; [injection H as <-; eexists; split; reflexivity|]); [discriminate|].
  destruct (N.ltb_spec o (blen c)) as [L|L]; [discriminate|].
  destruct (take_bytes t (o - blen c)) as [p'|] eqn:T; [|discriminate].
  injection H as <-. destruct (IH _ _ T) as [r [-> E2]].
  exists r. split; [reflexivity|]. cbn [bytes]. lia.
Qed.

Lemma boundaryb_app : forall p r, boundaryb (p ++ r) (bytes p) = true.
Proof. intros p r. unfold boundaryb. rewrite take_bytes_app. reflexivity. Qed.

Lemma boundaryb_spec : forall t o,
  boundaryb t o = true -> exists p r, take_bytes t o = Some p /\ t = p ++ r /\ bytes p = o.
Proof.
  intros t o H. unfold boundaryb in H.
  destruct (take_bytes t o) as [p|] eqn:T; [|discriminate].
  destruct (take_bytes_spec _ _ _ T) as [r [E1 E2]]. exists p, r. auto.
Qed.

Lemma boundary_le_bytes : forall t o, boundaryb t o = true -> o <= bytes t.
Proof.
  intros t o H. apply boundaryb_spec in H. destruct H as [p [r [_ [-> <-]]]].
  rewrite bytes_app. lia.
Qed.

Lemma prefix_of_longer : forall (p1 r1 p2 r2 : text),
  p1 ++ r1 = p2 ++ r2 -> bytes p1 <= bytes p2 -> exists s, p2 = p1 ++ s.
Proof.
  induction p1 as [|c p1 IH]; intros r1 p2 r2 E L; [exists p2; reflexivity|].
  destruct p2 as [|d p2]; cbn [bytes app] in *.
  - pose proof (blen_pos c). lia.
  - injection E as <- E. destruct (IH r1 p2 r2 E) as [s ->]; [lia|]. exists s. reflexivity.
Qed.

Lemma slice_boundaries : forall t a b,
  boundaryb t a = true -> boundaryb t b = true -> a <= b -> slice t a b <> None.
Proof.
  intros t a b Ha Hb L.
  destruct (boundaryb_spec _ _ Ha) as [pa [ra [_ [Ea Ba]]]].
  destruct (boundaryb_spec _ _ Hb) as [pb [rb [_ [Eb Bb]]]].
  destruct (prefix_of_longer pa ra pb rb) as [s ->]; [congruence|lia|].
  rewrite Eb, <- app_assoc, (slice_app pa s rb a b); [discriminate|lia|].
  rewrite bytes_app in Bb. lia.
Qed.
