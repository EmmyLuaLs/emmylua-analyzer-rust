(** Base/JsonFacts.v — facts about Base/Json.v, and [json_ind'], the induction principle for the nested type. *)
From EV Require Export Base.Json.
Local Open Scope N_scope.

Lemma text_cmp_refl : forall a, text_cmp a a = Eq.
Proof. induction a as [|x a IH]; cbn [text_cmp]; [reflexivity|]. rewrite N.compare_refl. exact IH. Qed.

Lemma text_cmp_eq : forall a b, text_cmp a b = Eq -> a = b.
Proof.
  induction a as [|x a IH]; destruct b as [|y b]; cbn [text_cmp]; intros H; try discriminate; [reflexivity|].
  destruct (N.compare x y) eqn:E; try discriminate.
  apply N.compare_eq in E. subst. f_equal. apply IH. exact H.
Qed.

Lemma text_cmp_antisym : forall a b, text_cmp b a = CompOpp (text_cmp a b).
Proof.
  induction a as [|x a IH]; destruct b as [|y b]; cbn [text_cmp]; try reflexivity.
  rewrite (N.compare_antisym x y). destruct (N.compare x y); cbn [CompOpp]; try reflexivity. apply IH.
Qed.

Lemma text_cmp_lt_trans : forall a b c, text_cmp a b = Lt -> text_cmp b c = Lt -> text_cmp a c = Lt.
Proof.
  induction a as [|x a IH]; destruct b as [|y b]; destruct c as [|z c]; cbn [text_cmp]; intros H1 H2;
    try discriminate; try reflexivity.
  destruct (N.compare x y) eqn:E1; try discriminate.
  - apply N.compare_eq in E1. subst y.
    destruct (N.compare x z) eqn:E2; try discriminate; [|reflexivity]. eapply IH; eassumption.
  - destruct (N.compare y z) eqn:E2; try discriminate.
    + apply N.compare_eq in E2. subst z. rewrite E1. reflexivity.
    + assert (x < z) by (rewrite N.compare_lt_iff in *; lia).
      rewrite <- N.compare_lt_iff in H. rewrite H. reflexivity.
Qed.

Lemma text_cmp_gt_lt : forall a b, text_cmp a b = Gt -> text_cmp b a = Lt.
Proof. intros a b H. rewrite text_cmp_antisym, H. reflexivity. Qed.

Lemma text_cmp_lt_gt : forall a b, text_cmp a b = Lt -> text_cmp b a = Gt.
Proof. intros a b H. rewrite text_cmp_antisym, H. reflexivity. Qed.

Lemma text_eqb_spec : forall a b, reflect (a = b) (text_eqb a b).
Proof.
  intros a b. unfold text_eqb. destruct (text_cmp a b) eqn:E; constructor;
    [apply text_cmp_eq; exact E| |]; intros ->; rewrite text_cmp_refl in E; discriminate.
Qed.

Lemma text_eqb_refl : forall a, text_eqb a a = true.
Proof. intros a. destruct (text_eqb_spec a a); congruence. Qed.

Lemma text_eqb_neq : forall a b, a <> b -> text_eqb a b = false.
Proof. intros a b H. destruct (text_eqb_spec a b); congruence. Qed.

Lemma text_eq_dec : forall a b : text, {a = b} + {a <> b}.
Proof. intros a b. destruct (text_eqb_spec a b); [left|right]; assumption. Qed.

(* The laws of the sorted-map operations hold for every association list, sorted or not. *)
Lemma bt_get_insert_same : forall k v m, bt_get k (bt_insert k v m) = Some v.
Proof.
  intros k v. induction m as [|[k' v'] r IH]; cbn [bt_insert bt_get].
  - rewrite text_eqb_refl. reflexivity.
  - destruct (text_cmp k k') eqn:E; cbn [bt_get].
    + rewrite text_eqb_refl. reflexivity.
    + rewrite text_eqb_refl. reflexivity.
    + unfold text_eqb at 1. rewrite E. exact IH.
Qed.

Lemma bt_get_insert_other : forall k k' v m, k <> k' -> bt_get k (bt_insert k' v m) = bt_get k m.
Proof.
  intros k k' v m Hne. induction m as [|[k2 v2] r IH]; cbn [bt_insert bt_get].
  - rewrite text_eqb_neq by exact Hne. reflexivity.
  - destruct (text_cmp k' k2) eqn:E; cbn [bt_get].
    + apply text_cmp_eq in E. subst k2. rewrite text_eqb_neq by exact Hne. reflexivity.
    + rewrite (text_eqb_neq k k') by exact Hne. reflexivity.
    + rewrite IH. reflexivity.
Qed.

Lemma bt_insert_insert_same : forall k v w m, bt_insert k v (bt_insert k w m) = bt_insert k v m.
Proof.
  intros k v w. induction m as [|[k' v'] r IH]; cbn [bt_insert].
  - rewrite text_cmp_refl. reflexivity.
  - destruct (text_cmp k k') eqn:E; cbn [bt_insert].
    + rewrite text_cmp_refl. reflexivity.
    + rewrite text_cmp_refl. reflexivity.
    + rewrite E. rewrite IH. reflexivity.
Qed.

(** the two keys in order first; the general case follows by symmetry *)
Lemma bt_insert_comm_lt : forall k1 k2 v1 v2 m, text_cmp k1 k2 = Lt ->
  bt_insert k1 v1 (bt_insert k2 v2 m) = bt_insert k2 v2 (bt_insert k1 v1 m).
Proof.
  intros k1 k2 v1 v2 m L. pose proof (text_cmp_lt_gt _ _ L) as G.
  induction m as [|[k v] r IH]; cbn [bt_insert]; [rewrite L, G; reflexivity|].
  destruct (text_cmp k2 k) eqn:E2.
  - apply text_cmp_eq in E2. subst k. rewrite L. cbn [bt_insert]. rewrite L, G. cbn [bt_insert].
    rewrite text_cmp_refl. reflexivity.
  - rewrite (text_cmp_lt_trans _ _ _ L E2). cbn [bt_insert]. rewrite L, G. cbn [bt_insert]. rewrite E2. reflexivity.
  - (* k < k2: when also k < k1 both insertions go past [k] and the induction hypothesis applies *)
    destruct (text_cmp k1 k) eqn:E1; cbn [bt_insert]; rewrite ?E1, ?E2, ?G; try reflexivity.
    rewrite IH. reflexivity.
Qed.

Lemma bt_insert_comm : forall k1 k2 v1 v2 m, k1 <> k2 ->
  bt_insert k1 v1 (bt_insert k2 v2 m) = bt_insert k2 v2 (bt_insert k1 v1 m).
Proof.
  intros k1 k2 v1 v2 m Hne. destruct (text_cmp k1 k2) eqn:E.
  - apply text_cmp_eq in E. contradiction.
  - apply bt_insert_comm_lt. exact E.
  - symmetry. apply bt_insert_comm_lt. apply text_cmp_gt_lt. exact E.
Qed.

Section JsonInd.
  Variable P : json -> Prop.
  Hypothesis Hnull : P JNull.
  Hypothesis Hbool : forall b, P (JBool b).
  Hypothesis Hnum : forall z, P (JNum z).
  Hypothesis Hstr : forall s, P (JStr s).
  Hypothesis Harr : forall l, Forall P l -> P (JArr l).
  Hypothesis Hobj : forall m, Forall (fun kv => P (snd kv)) m -> P (JObj m).

  Fixpoint json_ind' (j : json) : P j :=
    match j with
    | JNull => Hnull
    | JBool b => Hbool b
    | JNum z => Hnum z
    | JStr s => Hstr s
    | JArr l => Harr l ((fix go (l : list json) : Forall P l :=
                           match l with
                           | [] => Forall_nil _
                           | x :: r => Forall_cons _ (json_ind' x) (go r)
                           end) l)
    | JObj m => Hobj m ((fix go (m : list (text * json)) : Forall (fun kv => P (snd kv)) m :=
                           match m with
                           | [] => Forall_nil _
                           | (k, x) :: r => Forall_cons (k, x) (json_ind' x) (go r)
                           end) m)
    end.
End JsonInd.

Lemma json_eqb_refl : forall a, json_eqb a a = true.
Proof.
  induction a using json_ind'; cbn [json_eqb]; try reflexivity.
  - (* JBool *) destruct b; reflexivity.
  - (* JNum *) apply Z.eqb_refl.
  - (* JStr *) apply text_eqb_refl.
  - (* JArr *) induction H as [|x l Hx Hl IH]; [reflexivity|]. rewrite Hx, IH. reflexivity.
  - (* JObj *) induction H as [|[k x] m Hx Hm IH]; [reflexivity|]. cbn [snd] in Hx. rewrite text_eqb_refl, Hx, IH. reflexivity.
Qed.

Lemma json_eqb_eq : forall a c, json_eqb a c = true -> a = c.
Proof.
  induction a using json_ind'; intros c; destruct c as [| b' | z' | s' | l' | m']; cbn [json_eqb]; intros E; try discriminate.
  - (* JNull *) reflexivity.
  - (* JBool *) apply Bool.eqb_prop in E. congruence.
  - (* JNum *) apply Z.eqb_eq in E. congruence.
  - (* JStr *) destruct (text_eqb_spec s s'); congruence.
  - (* JArr *) f_equal. revert l' E. induction H as [|x l Hx Hl IH]; intros [|y l'] E; try discriminate; [reflexivity|].
    apply andb_prop in E. destruct E as [E1 E2]. f_equal; [apply Hx; exact E1|apply IH; exact E2].
  - (* JObj *) f_equal. revert m' E. induction H as [|[k x] m Hx Hm IH]; intros [|[k' y] m'] E; try discriminate; [reflexivity|].
    apply andb_prop in E. destruct E as [E1 E3]. apply andb_prop in E1. destruct E1 as [E1 E2].
    cbn [snd] in Hx. destruct (text_eqb_spec k k'); [|discriminate]. subst k'.
    f_equal; [f_equal; apply Hx; exact E2|apply IH; exact E3].
Qed.

Lemma json_eqb_spec : forall a b, reflect (a = b) (json_eqb a b).
Proof.
  intros a b. destruct (json_eqb a b) eqn:E; constructor.
  - apply json_eqb_eq. exact E.
  - intros ->. rewrite json_eqb_refl in E. discriminate.
Qed.

Lemma json_mem_In : forall x l, json_mem x l = true <-> In x l.
Proof.
  intros x. induction l as [|y r IH]; cbn [json_mem In].
  - split; [discriminate|tauto].
  - rewrite Bool.orb_true_iff, IH. destruct (json_eqb_spec x y); intuition congruence.
Qed.

Lemma json_mem_false : forall x l, json_mem x l = false <-> ~ In x l.
Proof.
  intros x l. rewrite <- json_mem_In. destruct (json_mem x l); split; congruence.
Qed.
