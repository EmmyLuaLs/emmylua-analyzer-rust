(** The product of two per-file fact stores and of their refinements: [DbIndex] is the product of its indexes
    ([DbIndex::remove], [DbIndex::clear] and the analysis of a file act on every index). *)
From Coq Require Import List NArith Bool Lia.
From EV Require Import Base.StoreSM.
Import ListNotations.
Local Open Scope N_scope.

Section Prod.
  Variables (St1 F1 Q1 O1 St2 F2 Q2 O2 : Type).
  Variable S1 : store St1 F1 Q1 O1.
  Variable S2 : store St2 F2 Q2 O2.

  Definition prod_store : store (St1 * St2) (F1 * F2) (Q1 + Q2) (O1 + O2) :=
    mkStore _ _ _ _
      (s_init _ _ _ _ S1, s_init _ _ _ _ S2)
      (fun f x s => (s_add _ _ _ _ S1 f (fst x) (fst s), s_add _ _ _ _ S2 f (snd x) (snd s)))
      (fun f s => (s_remove _ _ _ _ S1 f (fst s), s_remove _ _ _ _ S2 f (snd s)))
      (fun s => (s_clear _ _ _ _ S1 (fst s), s_clear _ _ _ _ S2 (snd s)))
      (fun s q => match q with
                  | inl q1 => inl (s_obs _ _ _ _ S1 (fst s) q1)
                  | inr q2 => inr (s_obs _ _ _ _ S2 (snd s) q2)
                  end)
      (fun s f => s_mentions _ _ _ _ S1 (fst s) f || s_mentions _ _ _ _ S2 (snd s) f)
      (fun s => s_size _ _ _ _ S1 (fst s) ++ s_size _ _ _ _ S2 (snd s)).

  Definition p1 (a : list (N * (F1 * F2))) : list (N * F1) := map (fun fx => (fst fx, fst (snd fx))) a.
  Definition p2 (a : list (N * (F1 * F2))) : list (N * F2) := map (fun fx => (fst fx, snd (snd fx))) a.

  Lemma keys_p1 : forall a, keys _ (p1 a) = keys _ a.
  Proof. intro a. unfold keys, p1. rewrite map_map. reflexivity. Qed.
  Lemma keys_p2 : forall a, keys _ (p2 a) = keys _ a.
  Proof. intro a. unfold keys, p2. rewrite map_map. reflexivity. Qed.

  Lemma p1_remove : forall f a, p1 (al_remove _ f a) = al_remove _ f (p1 a).
  Proof.
    intros f a. unfold p1, al_remove. induction a as [|x a IH]; cbn [filter map fst]; [reflexivity|].
    destruct (negb (fst x =? f)); cbn [map]; rewrite IH; reflexivity.
  Qed.
  Lemma p2_remove : forall f a, p2 (al_remove _ f a) = al_remove _ f (p2 a).
  Proof.
    intros f a. unfold p2, al_remove. induction a as [|x a IH]; cbn [filter map fst]; [reflexivity|].
    destruct (negb (fst x =? f)); cbn [map]; rewrite IH; reflexivity.
  Qed.

  Lemma p1_snoc : forall a f x, p1 (a ++ [(f, x)]) = p1 a ++ [(f, fst x)].
  Proof. intros. unfold p1. rewrite map_app. reflexivity. Qed.
  Lemma p2_snoc : forall a f x, p2 (a ++ [(f, x)]) = p2 a ++ [(f, snd x)].
  Proof. intros. unfold p2. rewrite map_app. reflexivity. Qed.

  Lemma in_p1 : forall a f x, In (f, x) a -> In (f, fst x) (p1 a).
  Proof. intros a f x H. unfold p1. apply (in_map (fun fx => (fst fx, fst (snd fx))) a (f, x) H). Qed.
  Lemma in_p2 : forall a f x, In (f, x) a -> In (f, snd x) (p2 a).
  Proof. intros a f x H. unfold p2. apply (in_map (fun fx => (fst fx, snd (snd fx))) a (f, x) H). Qed.

  Variable R1 : refinement _ _ _ _ S1.
  Variable R2 : refinement _ _ _ _ S2.

  Definition prod_R (s : St1 * St2) (a : list (N * (F1 * F2))) : Prop :=
    r_R _ _ _ _ S1 R1 (fst s) (p1 a) /\ r_R _ _ _ _ S2 R2 (snd s) (p2 a).

  Definition prod_aobs (a : list (N * (F1 * F2))) (q : Q1 + Q2) : O1 + O2 :=
    match q with
    | inl q1 => inl (r_obs _ _ _ _ S1 R1 (p1 a) q1)
    | inr q2 => inr (r_obs _ _ _ _ S2 R2 (p2 a) q2)
    end.

  Definition prod_asize (a : list (N * (F1 * F2))) : list N :=
    r_size _ _ _ _ S1 R1 (p1 a) ++ r_size _ _ _ _ S2 R2 (p2 a).

  Definition prod_excl (a : list (N * (F1 * F2))) (f : N) : Prop :=
    r_excl _ _ _ _ S1 R1 (p1 a) f /\ r_excl _ _ _ _ S2 R2 (p2 a) f.

  Lemma prod_init : prod_R (s_init _ _ _ _ prod_store) [].
  Proof. split; [exact (r_init _ _ _ _ S1 R1) | exact (r_init _ _ _ _ S2 R2)]. Qed.

  Lemma prod_add : forall s a f x, prod_R s a -> ~ In f (keys _ a) -> NoDup (keys _ a) ->
    prod_R (s_add _ _ _ _ prod_store f x s) (a ++ [(f, x)]).
  Proof.
    intros s a f x [H1 H2] Hn Hnd. split; cbn [s_add prod_store fst snd].
    - rewrite p1_snoc. apply r_add; rewrite ?keys_p1; assumption.
    - rewrite p2_snoc. apply r_add; rewrite ?keys_p2; assumption.
  Qed.

  Lemma prod_remove : forall s a f, prod_R s a -> NoDup (keys _ a) ->
    prod_R (s_remove _ _ _ _ prod_store f s) (al_remove _ f a).
  Proof.
    intros s a f [H1 H2] Hnd. split; cbn [s_remove prod_store fst snd].
    - rewrite p1_remove. apply r_remove; rewrite ?keys_p1; assumption.
    - rewrite p2_remove. apply r_remove; rewrite ?keys_p2; assumption.
  Qed.

  Lemma prod_clear : forall s a, prod_R s a -> prod_R (s_clear _ _ _ _ prod_store s) [].
  Proof. intros s a [H1 H2]. split; cbn [s_clear prod_store fst snd]; eapply r_clear; eassumption. Qed.

  Lemma prod_obs : forall s a q, prod_R s a -> s_obs _ _ _ _ prod_store s q = prod_aobs a q.
  Proof.
    intros s a q [H1 H2]. destruct q as [q1|q2]; cbn [s_obs prod_store prod_aobs]; f_equal; apply r_obs_eq; assumption.
  Qed.

  Lemma prod_size : forall s a, prod_R s a -> s_size _ _ _ _ prod_store s = prod_asize a.
  Proof.
    intros s a [H1 H2]. cbn [s_size prod_store]. unfold prod_asize.
    rewrite (r_size_eq _ _ _ _ S1 R1 _ _ H1), (r_size_eq _ _ _ _ S2 R2 _ _ H2). reflexivity.
  Qed.

  Lemma prod_mentions : forall s a f, prod_R s a -> ~ In f (keys _ a) -> s_mentions _ _ _ _ prod_store s f = false.
  Proof.
    intros s a f [H1 H2] Hn. cbn [s_mentions prod_store].
    rewrite (r_mentions _ _ _ _ S1 R1 _ _ f H1), (r_mentions _ _ _ _ S2 R2 _ _ f H2); [reflexivity | |];
      [rewrite keys_p2 | rewrite keys_p1]; exact Hn.
  Qed.

  Lemma prod_move_obs : forall a f x q, NoDup (keys _ a) -> In (f, x) a -> prod_excl a f ->
    prod_aobs (al_remove _ f a ++ [(f, x)]) q = prod_aobs a q.
  Proof.
    intros a f x q Hnd Hin [E1 E2]. destruct q as [q1|q2]; cbn [prod_aobs]; f_equal.
    - rewrite p1_snoc, p1_remove. apply r_move_obs; rewrite ?keys_p1; auto using in_p1.
    - rewrite p2_snoc, p2_remove. apply r_move_obs; rewrite ?keys_p2; auto using in_p2.
  Qed.

  Lemma prod_move_size : forall a f x, NoDup (keys _ a) -> In (f, x) a ->
    prod_asize (al_remove _ f a ++ [(f, x)]) = prod_asize a.
  Proof.
    intros a f x Hnd Hin. unfold prod_asize. rewrite p1_snoc, p1_remove, p2_snoc, p2_remove.
    rewrite !r_move_size; rewrite ?keys_p1, ?keys_p2; auto using in_p1, in_p2.
  Qed.

  Definition prod_refinement : refinement _ _ _ _ prod_store :=
    mkRef _ _ _ _ prod_store prod_R prod_aobs prod_asize prod_excl
          prod_init prod_add prod_remove prod_clear prod_obs prod_size prod_mentions prod_move_obs prod_move_size.
End Prod.
