(** Permutation invariance.  Hash-map iteration is modelled as "some permutation of the entries"; under a total
    order on keys (Rust's derived / lexicographic [Ord]) two permutations of the same items with pairwise distinct
    keys sort to the same list, whatever the sorting algorithm. *)
From Coq Require Import List NArith Bool Permutation Sorting.Sorted.
Import ListNotations.

Section Fold.
  Variables (A B : Type) (f : A -> B -> A).
  Hypothesis f_comm : forall a x y, f (f a x) y = f (f a y) x.

  Lemma fold_left_perm : forall l l', Permutation l l' -> forall a, fold_left f l a = fold_left f l' a.
  Proof.
    induction 1; intros a; cbn [fold_left].
    - reflexivity.
    - apply IHPermutation.
    - rewrite f_comm. reflexivity.
    - rewrite IHPermutation1. apply IHPermutation2.
  Qed.
End Fold.

Record total_order {K : Type} (cmp : K -> K -> comparison) : Prop := {
  to_eq : forall x y, cmp x y = Eq -> x = y;
  to_refl : forall x, cmp x x = Eq;
  to_antisym : forall x y, cmp y x = CompOpp (cmp x y);
  to_trans : forall x y z, cmp x y = Lt -> cmp y z = Lt -> cmp x z = Lt
}.

Lemma N_total_order : total_order N.compare.
Proof.
  split.
  - intros x y H. apply N.compare_eq_iff. exact H.
  - intros x. apply N.compare_refl.
  - intros x y. apply N.compare_antisym.
  - intros x y z. rewrite !N.compare_lt_iff. apply N.lt_trans.
Qed.

Definition bool_cmp (a b : bool) : comparison :=
  match a, b with
  | false, true => Lt
  | true, false => Gt
  | _, _ => Eq
  end.

Lemma bool_total_order : total_order bool_cmp.
Proof.
  split.
  - intros [|] [|]; cbn; intros H; try discriminate; reflexivity.
  - intros [|]; reflexivity.
  - intros [|] [|]; reflexivity.
  - intros [|] [|] [|]; cbn; intros; try discriminate; reflexivity.
Qed.

Definition pair_cmp {A B : Type} (ca : A -> A -> comparison) (cb : B -> B -> comparison)
  (x y : A * B) : comparison :=
  match ca (fst x) (fst y) with
  | Eq => cb (snd x) (snd y)
  | c => c
  end.

(** Rust: [None < Some _] *)
Definition opt_cmp {A : Type} (c : A -> A -> comparison) (x y : option A) : comparison :=
  match x, y with
  | None, None => Eq
  | None, Some _ => Lt
  | Some _, None => Gt
  | Some a, Some b => c a b
  end.

(** Rust: lexicographic comparison of slices / strings *)
Fixpoint list_cmp {A : Type} (c : A -> A -> comparison) (x y : list A) : comparison :=
  match x, y with
  | [], [] => Eq
  | [], _ :: _ => Lt
  | _ :: _, [] => Gt
  | a :: x', b :: y' => match c a b with Eq => list_cmp c x' y' | r => r end
  end.

(** transitivity of one step of a lexicographic comparison: [c] decides, unless it says [Eq]; then the [k]s do *)
Section Lex.
  Variables (A : Type) (c : A -> A -> comparison).
  Hypothesis Hc : total_order c.

  Lemma lex_trans : forall a b d k1 k2 k3,
    (k1 = Lt -> k2 = Lt -> k3 = Lt) ->
    match c a b with Eq => k1 | r => r end = Lt -> match c b d with Eq => k2 | r => r end = Lt ->
    match c a d with Eq => k3 | r => r end = Lt.
  Proof.
    intros a b d k1 k2 k3 Hk H1 H2.
    destruct (c a b) eqn:E1; try discriminate; destruct (c b d) eqn:E2; try discriminate.
    - apply (to_eq _ Hc) in E1, E2. subst a b. rewrite (to_refl _ Hc). exact (Hk H1 H2).
    - apply (to_eq _ Hc) in E1. subst a. rewrite E2. reflexivity.
    - apply (to_eq _ Hc) in E2. subst b. rewrite E1. reflexivity.
    - rewrite (to_trans _ Hc _ _ _ E1 E2). reflexivity.
  Qed.
End Lex.

Lemma pair_total_order : forall A B (ca : A -> A -> comparison) (cb : B -> B -> comparison),
  total_order ca -> total_order cb -> total_order (pair_cmp ca cb).
Proof.
  intros A B ca cb Ha Hb. unfold pair_cmp. split.
  - intros [a b] [a' b']; cbn [fst snd]. intros H.
    destruct (ca a a') eqn:E; try discriminate.
    apply (to_eq _ Ha) in E. apply (to_eq _ Hb) in H. subst. reflexivity.
  - intros x. rewrite (to_refl _ Ha). apply (to_refl _ Hb).
  - intros x y. rewrite (to_antisym _ Ha (fst x)). destruct (ca (fst x) (fst y)); cbn [CompOpp]; try reflexivity.
    apply (to_antisym _ Hb).
  - intros x y z. apply (lex_trans _ _ Ha), (to_trans _ Hb).
Qed.

Lemma opt_total_order : forall A (c : A -> A -> comparison), total_order c -> total_order (opt_cmp c).
Proof.
  intros A c H. split.
  - intros [a|] [b|]; cbn; intros E; try discriminate; [|reflexivity].
    apply (to_eq _ H) in E. subst. reflexivity.
  - intros [a|]; cbn; [apply (to_refl _ H)|reflexivity].
  - intros [a|] [b|]; cbn; try reflexivity. apply (to_antisym _ H).
  - intros [a|] [b|] [d|]; cbn; intros H1 H2; try discriminate; try reflexivity.
    eapply (to_trans _ H); eassumption.
Qed.

Lemma list_total_order : forall A (c : A -> A -> comparison), total_order c -> total_order (list_cmp c).
Proof.
  intros A c H. split.
  - induction x as [|a x IH]; intros [|b y]; cbn [list_cmp]; intros E; try discriminate; [reflexivity|].
    destruct (c a b) eqn:E1; try discriminate.
    apply (to_eq _ H) in E1. subst. f_equal. apply IH. exact E.
  - induction x as [|a x IH]; cbn [list_cmp]; [reflexivity|]. rewrite (to_refl _ H). exact IH.
  - induction x as [|a x IH]; intros [|b y]; cbn [list_cmp]; try reflexivity.
    rewrite (to_antisym _ H a b). destruct (c a b); cbn [CompOpp]; try reflexivity. apply IH.
  - induction x as [|a x IH]; intros [|b y] [|d z]; cbn [list_cmp]; try discriminate; try reflexivity.
    apply (lex_trans _ _ H), IH.
Qed.

(** a text (list of code points) ordered as Rust orders [str] (bytewise = by code point) *)
Definition text_cmp : list N -> list N -> comparison := list_cmp N.compare.
Lemma text_total_order : total_order text_cmp.
Proof. apply list_total_order. exact N_total_order. Qed.

Section Sort.
  Variables (A K : Type) (key : A -> K) (cmp : K -> K -> comparison).
  Hypothesis cmp_order : total_order cmp.

  Definition ltk (x y : A) : Prop := cmp (key x) (key y) = Lt.
  Definition lek (x y : A) : Prop := cmp (key x) (key y) <> Gt.

  (** stable insertion: [x] goes before the first item whose key is not smaller *)
  Fixpoint insert (x : A) (l : list A) : list A :=
    match l with
    | [] => [x]
    | y :: r => match cmp (key x) (key y) with
                | Gt => y :: insert x r
                | _ => x :: y :: r
                end
    end.

  (** the result of a stable sort ([slice::sort_by], [sort_by_cached_key], [sort_by_key]) *)
  Fixpoint isort (l : list A) : list A :=
    match l with
    | [] => []
    | x :: r => insert x (isort r)
    end.

  Lemma insert_perm : forall x l, Permutation (insert x l) (x :: l).
  Proof.
    induction l as [|y r IH]; cbn [insert]; [apply Permutation_refl|].
    destruct (cmp (key x) (key y)); try apply Permutation_refl.
    eapply perm_trans; [apply perm_skip; exact IH|apply perm_swap].
  Qed.

  Lemma isort_perm : forall l, Permutation (isort l) l.
  Proof.
    induction l as [|x r IH]; cbn [isort]; [constructor|].
    eapply perm_trans; [apply insert_perm|]. apply perm_skip. exact IH.
  Qed.

  Lemma ltk_trans : forall x y z, ltk x y -> ltk y z -> ltk x z.
  Proof. unfold ltk. intros. eapply (to_trans _ cmp_order); eassumption. Qed.

  Lemma ltk_irrefl : forall x, ~ ltk x x.
  Proof. unfold ltk. intros x H. rewrite (to_refl _ cmp_order) in H. discriminate. Qed.

  Lemma cmp_gt_lt : forall a b, cmp a b = Gt -> cmp b a = Lt.
  Proof. intros a b H. rewrite (to_antisym _ cmp_order a b), H. reflexivity. Qed.

  Lemma lek_trans : forall x y z, lek x y -> lek y z -> lek x z.
  Proof.
    unfold lek. intros x y z Hxy Hyz.
    destruct (cmp (key x) (key y)) eqn:E1; [|clear Hxy|contradiction].
    - apply (to_eq _ cmp_order) in E1. rewrite E1. exact Hyz.
    - destruct (cmp (key y) (key z)) eqn:E2; [| |contradiction].
      + apply (to_eq _ cmp_order) in E2. rewrite <- E2, E1. discriminate.
      + rewrite (to_trans _ cmp_order _ _ _ E1 E2). discriminate.
  Qed.

  Lemma insert_sorted_le : forall x l, StronglySorted lek l -> StronglySorted lek (insert x l).
  Proof.
    induction l as [|y r IH]; intros Hs; cbn [insert].
    - constructor; constructor.
    - inversion Hs as [|? ? Hr Hall]; subst.
      destruct (cmp (key x) (key y)) eqn:E.
      1, 2: assert (lek x y) as Hxy by (unfold lek; rewrite E; discriminate);
            constructor; [exact Hs|]; constructor; [exact Hxy|];
            revert Hall; apply Forall_impl; intros z; apply lek_trans; exact Hxy.
      constructor; [apply IH; exact Hr|].
      apply (Permutation_Forall (Permutation_sym (insert_perm x r))). constructor; [|exact Hall].
      unfold lek. rewrite (cmp_gt_lt _ _ E). discriminate.
  Qed.

  Lemma isort_sorted_le : forall l, StronglySorted lek (isort l).
  Proof.
    induction l as [|x r IH]; cbn [isort]; [constructor|]. apply insert_sorted_le. exact IH.
  Qed.

  Lemma lek_strict : forall l, NoDup (map key l) -> StronglySorted lek l -> StronglySorted ltk l.
  Proof.
    induction l as [|x r IH]; intros Hnd Hs; [constructor|].
    cbn [map] in Hnd. inversion Hnd as [|? ? Hx Hr]; subst. inversion Hs as [|? ? Hsr Hall]; subst.
    constructor; [apply IH; assumption|].
    apply Forall_forall. intros z Hz. rewrite Forall_forall in Hall. specialize (Hall z Hz).
    unfold lek in Hall. unfold ltk. destruct (cmp (key x) (key z)) eqn:E; [|reflexivity|contradiction].
    exfalso. apply Hx. apply (to_eq _ cmp_order) in E. rewrite E. apply in_map. exact Hz.
  Qed.

  Lemma isort_sorted : forall l, NoDup (map key l) -> StronglySorted ltk (isort l).
  Proof.
    intros l Hnd. apply lek_strict; [|apply isort_sorted_le].
    eapply Permutation_NoDup; [apply Permutation_map, Permutation_sym, isort_perm|exact Hnd].
  Qed.

  Lemma sorted_perm_unique : forall l l',
    StronglySorted ltk l -> StronglySorted ltk l' -> Permutation l l' -> l = l'.
  Proof.
    induction l as [|a l IH]; intros l' Hs Hs' Hp.
    - apply Permutation_nil in Hp. subst. reflexivity.
    - destruct l' as [|b l'].
      + apply Permutation_sym, Permutation_nil in Hp. discriminate.
      + inversion Hs as [|? ? Hsl Hall]; subst. inversion Hs' as [|? ? Hsl' Hall']; subst.
        assert (a = b) as ->.
        { assert (In a (b :: l')) as Ha by (eapply Permutation_in; [exact Hp|left; reflexivity]).
          assert (In b (a :: l)) as Hb by (eapply Permutation_in; [apply Permutation_sym; exact Hp|left; reflexivity]).
          destruct Ha as [Ha|Ha]; [symmetry; exact Ha|].
          destruct Hb as [Hb|Hb]; [exact Hb|].
          rewrite Forall_forall in Hall, Hall'.
          exfalso. apply (ltk_irrefl a). eapply ltk_trans; [apply Hall; exact Hb|apply Hall'; exact Ha]. }
        f_equal. apply IH; [exact Hsl|exact Hsl'|]. eapply Permutation_cons_inv. exact Hp.
  Qed.

  (** the result of sorting does not depend on the sorting algorithm: any sorted permutation is [isort] *)
  Theorem sort_unique : forall s l,
    NoDup (map key l) -> Permutation s l -> StronglySorted lek s -> s = isort l.
  Proof.
    intros s l Hnd Hp Hs.
    assert (NoDup (map key s)) as Hnds.
    { eapply Permutation_NoDup; [apply Permutation_map, Permutation_sym; exact Hp|exact Hnd]. }
    apply sorted_perm_unique; [apply lek_strict; assumption|apply isort_sorted; exact Hnd|].
    eapply perm_trans; [exact Hp|]. apply Permutation_sym, isort_perm.
  Qed.

  (** ... nor on the order in which the items were enumerated *)
  Theorem isort_perm_invariant : forall l l',
    NoDup (map key l) -> Permutation l l' -> isort l = isort l'.
  Proof.
    intros l l' Hnd Hp. apply sort_unique; [|eapply perm_trans; [apply isort_perm|exact Hp]|apply isort_sorted_le].
    eapply Permutation_NoDup; [apply Permutation_map; exact Hp|exact Hnd].
  Qed.
End Sort.

Arguments insert {A K} key cmp x l.
Arguments isort {A K} key cmp l.
Arguments ltk {A K} key cmp x y.
Arguments lek {A K} key cmp x y.

Lemma perm_filter : forall A (p : A -> bool) l l', Permutation l l' -> Permutation (filter p l) (filter p l').
Proof.
  induction 1; cbn [filter].
  - constructor.
  - destruct (p x); [apply perm_skip|]; assumption.
  - destruct (p x); destruct (p y); try apply Permutation_refl. apply perm_swap.
  - eapply perm_trans; eassumption.
Qed.

Lemma StronglySorted_filter : forall A (R : A -> A -> Prop) (p : A -> bool) l,
  StronglySorted R l -> StronglySorted R (filter p l).
Proof.
  induction l as [|x r IH]; intros Hs; cbn [filter]; [constructor|].
  inversion Hs as [|? ? Hr Hall]; subst.
  destruct (p x); [|apply IH; exact Hr].
  constructor; [apply IH; exact Hr|exact (incl_Forall (incl_filter p r) Hall)].
Qed.

(** * [Vec::dedup_by] with "same key as the last retained item" *)
Section Dedup.
  Variables (A K : Type) (key : A -> K) (cmp : K -> K -> comparison).
  Hypothesis cmp_order : total_order cmp.

  Definition same (a b : A) : bool := match cmp (key a) (key b) with Eq => true | _ => false end.

  Fixpoint dedup_from (prev : A) (l : list A) : list A :=
    match l with
    | [] => []
    | b :: r => if same prev b then dedup_from prev r else b :: dedup_from b r
    end.

  Definition dedup (l : list A) : list A :=
    match l with
    | [] => []
    | a :: r => a :: dedup_from a r
    end.

  Lemma same_true : forall a b, same a b = true <-> key a = key b.
  Proof.
    unfold same. intros a b. split.
    - destruct (cmp (key a) (key b)) eqn:E; try discriminate. intros _. apply (to_eq _ cmp_order). exact E.
    - intros H. rewrite H, (to_refl _ cmp_order). reflexivity.
  Qed.

  Lemma dedup_from_incl : forall l prev x, In x (dedup_from prev l) -> In x l.
  Proof.
    induction l as [|b r IH]; intros prev x H; cbn [dedup_from] in H; [exact H|].
    destruct (same prev b); [right; exact (IH _ _ H)|].
    destruct H as [H|H]; [left; exact H|right; exact (IH _ _ H)].
  Qed.

  Lemma dedup_from_keys : forall l prev b,
    In b l -> key b = key prev \/ In (key b) (map key (dedup_from prev l)).
  Proof.
    induction l as [|b0 r IH]; intros prev b H; [destruct H|]. destruct H as [<-|H]; cbn [dedup_from].
    - destruct (same prev b0) eqn:E; [left; symmetry; apply same_true, E|right; left; reflexivity].
    - destruct (same prev b0) eqn:E; [exact (IH prev b H)|].
      cbn [map In]. destruct (IH b0 b H) as [Hk|Hk]; [right; left; symmetry; exact Hk|right; right; exact Hk].
  Qed.

  Lemma dedup_from_sorted : forall l prev,
    StronglySorted (lek key cmp) l -> Forall (lek key cmp prev) l ->
    StronglySorted (ltk key cmp) (prev :: dedup_from prev l).
  Proof.
    induction l as [|b r IH]; intros prev Hs Hall; cbn [dedup_from]; [repeat constructor|].
    inversion Hs as [|? ? Hsr Hbr]; subst. inversion Hall as [|? ? Hpb Hpr]; subst.
    destruct (same prev b) eqn:E; [exact (IH prev Hsr Hpr)|].
    assert (ltk key cmp prev b) as Hlt.
    { unfold ltk. unfold lek in Hpb. unfold same in E.
      destruct (cmp (key prev) (key b)); [discriminate|reflexivity|contradiction]. }
    specialize (IH b Hsr Hbr). inversion IH as [|? ? _ I2]; subst.
    constructor; [exact IH|]. constructor; [exact Hlt|].
    revert I2. apply Forall_impl. intros z. apply (ltk_trans _ _ key cmp cmp_order). exact Hlt.
  Qed.

  Lemma StronglySorted_ltk_NoDup : forall l, StronglySorted (ltk key cmp) l -> NoDup (map key l).
  Proof.
    induction l as [|x r IH]; intros Hs; cbn [map]; [constructor|].
    inversion Hs as [|? ? Hr Hall]; subst. constructor; [|apply IH; exact Hr].
    intros Hin. apply in_map_iff in Hin. destruct Hin as (z & Hz1 & Hz2).
    rewrite Forall_forall in Hall. specialize (Hall z Hz2). unfold ltk in Hall.
    rewrite Hz1, (to_refl _ cmp_order) in Hall. discriminate.
  Qed.

  (** [dedup] of a list sorted by key: every key once, nothing new *)
  Theorem dedup_sorted_spec : forall l,
    StronglySorted (lek key cmp) l ->
    NoDup (map key (dedup l)) /\
    (forall k, In k (map key (dedup l)) <-> In k (map key l)) /\
    (forall x, In x (dedup l) -> In x l).
  Proof.
    intros [|a r] Hs; cbn [dedup].
    - split; [constructor|]. split; tauto.
    - inversion Hs as [|? ? Hsr Har]; subst.
      split; [apply StronglySorted_ltk_NoDup, dedup_from_sorted; assumption|]. split.
      + intros k. cbn [map In]. split; (intros [H|H]; [left; exact H|]);
          apply in_map_iff in H; destruct H as (x & <- & Hx).
        * right. apply in_map, (dedup_from_incl _ _ _ Hx).
        * destruct (dedup_from_keys r a x Hx) as [Hk|Hk]; [left; symmetry; exact Hk|right; exact Hk].
      + intros x [Hx|Hx]; [left; exact Hx|right; exact (dedup_from_incl _ _ _ Hx)].
  Qed.
End Dedup.

Arguments same {A K} key cmp a b.
Arguments dedup_from {A K} key cmp prev l.
Arguments dedup {A K} key cmp l.
