(** Base/ReaderFacts.v — the Reader's operations seen through [moved]: which characters went from the unread text
    into the buffer. *)
From EV Require Import Base.Text Base.TextFacts Base.Reader.
Local Open Scope N_scope.

Lemma reader_new_wf : forall t s, reader_wf (reader_new_at t s).
Proof. intros. unfold reader_wf, reader_new_at. cbn. lia. Qed.

Lemma wf_eof_iff : forall r, reader_wf r -> (is_eof r = true <-> r_rest r = []).
Proof.
  intros r Hwf. unfold reader_wf in Hwf. unfold is_eof. split.
  - intros H. apply N.leb_le in H. destruct (r_rest r) as [|c l]; [reflexivity|].
    cbn [bytes] in Hwf. pose proof (blen_pos c). lia.
  - intros E. rewrite E in Hwf. cbn [bytes] in Hwf. apply N.leb_le. lia.
Qed.

(** "moved": [r'] is [r] after moving the characters [cs] from the unread part into the buffer *)
Definition moved (r r' : reader) (cs : text) : Prop :=
  r_rest r = cs ++ r_rest r' /\ r_len r' = r_len r + bytes cs /\ r_pos r' = r_pos r /\
  r_total r' = r_total r /\ r_start r' = r_start r /\ reader_wf r'.

Lemma moved_refl : forall r, reader_wf r -> moved r r [].
Proof. intros r H. unfold moved. cbn. repeat split; auto; lia. Qed.

Lemma moved_trans : forall r1 r2 r3 a b, moved r1 r2 a -> moved r2 r3 b -> moved r1 r3 (a ++ b).
Proof.
  unfold moved. intros r1 r2 r3 a b (H1 & H2 & H3 & H4 & H5 & H6) (G1 & G2 & G3 & G4 & G5 & G6).
  repeat split; try congruence.
  - rewrite H1, G1, app_assoc. reflexivity.
  - rewrite bytes_app. lia.
Qed.

Lemma bump_moved : forall r, reader_wf r -> exists cs, moved r (bump r) cs /\ (is_eof r = false -> cs <> []).
Proof.
  intros r Hwf. unfold bump. destruct (is_eof r) eqn:E.
  - exists []. split; [apply moved_refl; assumption|discriminate].
  - destruct (r_rest r) as [|c rest] eqn:Hr; [apply (wf_eof_iff r Hwf) in Hr; congruence|].
    exists [c]. split; [|discriminate]. unfold moved, reader_wf, current_char in *. rewrite Hr in *. cbn in *.
    repeat split; lia.
Qed.

Lemma eat_while_go_moved : forall p fuel r n, reader_wf r ->
  exists cs, moved r (fst (eat_while_go p fuel r n)) cs.
Proof.
  induction fuel as [|x fuel IH]; intros r n Hwf; cbn [eat_while_go].
  - exists []. apply moved_refl; assumption.
  - destruct (negb (is_eof r) && p (current_char r)).
    + destruct (bump_moved r Hwf) as (a & Ha & _).
      assert (Hw2 : reader_wf (bump r)) by apply Ha.
      destruct (IH (bump r) (n + 1) Hw2) as (b & Hb). exists (a ++ b). eapply moved_trans; eauto.
    + exists []. apply moved_refl; assumption.
Qed.

Lemma eat_while_moved : forall p r, reader_wf r -> exists cs, moved r (fst (eat_while p r)) cs.
Proof. intros. apply eat_while_go_moved; assumption. Qed.

Lemma reset_buff_wf : forall r, reader_wf r -> reader_wf (reset_buff r).
Proof. unfold reader_wf, reset_buff. cbn. intros. lia. Qed.
