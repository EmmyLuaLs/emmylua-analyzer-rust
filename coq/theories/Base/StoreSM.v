(** Per-file fact stores as state machines.

    A store is one index of [DbIndex] (or their product) with the operations the analysis driver uses:
    [s_add f x] = the index writes the analyzers perform for file [f] whose facts are [x];
    [s_remove f] = [LuaIndex::remove]; [s_clear] = [LuaIndex::clear]; [s_obs] = the results of the index's queries;
    [s_mentions] = "some stored entry carries file id f"; [s_size] = the entry counts of its containers.

    The driver ([EmmyLuaAnalysis]) is modelled on top: [HUpdate f x] = [update_file_by_uri] = remove_index;update_index,
    [HRemove f] = [remove_file_by_uri], [HReindex] = [reindex] = clear_index ; update_index(all files of the Vfs in
    file-id order).  Facts are an input of the model (the part of the analysis that reads other files' facts while
    analysing one file is outside it).

    A [refinement] relates the concrete store with the ordered list of (file, facts) pairs currently indexed. *)
From Coq Require Import List NArith Bool Lia Permutation.
Import ListNotations.
Local Open Scope N_scope.

Section StoreSM.
  Variables (St F Q O : Type).

  Record store := mkStore {
    s_init : St;
    s_add : N -> F -> St -> St;
    s_remove : N -> St -> St;
    s_clear : St -> St;
    s_obs : St -> Q -> O;
    s_mentions : St -> N -> bool;
    s_size : St -> list N
  }.

  Variable S : store.

  Definition alist := list (N * F).
  Definition keys (a : alist) : list N := map fst a.
  Definition al_remove (f : N) (a : alist) : alist := filter (fun gy => negb (fst gy =? f)) a.

  (** the Vfs: file -> facts, in file-id order ([Vfs::get_all_file_ids]).  A path keeps its id while it is in the
      Vfs (its text is replaced in place) and gets a new, larger id when it is added again after a removal, so the
      id order is the order of registration: replace in place, or append. *)
  Fixpoint live_put (f : N) (x : F) (l : alist) : alist :=
    match l with
    | [] => [(f, x)]
    | (g, y) :: r => if f =? g then (f, x) :: r else (g, y) :: live_put f x r
    end.

  Inductive hop := HUpdate (f : N) (x : F) | HRemove (f : N) | HReindex.

  Definition add_all (l : alist) (s : St) : St := fold_left (fun s fx => s_add S (fst fx) (snd fx) s) l s.

  Definition hstep (st : St * alist) (o : hop) : St * alist :=
    let '(s, live) := st in
    match o with
    | HUpdate f x => (s_add S f x (s_remove S f s), live_put f x live)
    | HRemove f => (s_remove S f s, al_remove f live)
    | HReindex => (add_all live (s_clear S s), live)
    end.

  Definition hrun (ops : list hop) : St * alist := fold_left hstep ops (s_init S, []).
  Definition state (ops : list hop) : St := fst (hrun ops).
  Definition vfs (ops : list hop) : alist := snd (hrun ops).

  (** a fresh analysis of the files in [live], loaded in file-id order *)
  Definition fresh (live : alist) : St := add_all live (s_init S).

  (** the abstract run: which (file, facts) pairs are indexed, in the order they were last submitted *)
  Definition astep (st : alist * alist) (o : hop) : alist * alist :=
    let '(a, live) := st in
    match o with
    | HUpdate f x => (al_remove f a ++ [(f, x)], live_put f x live)
    | HRemove f => (al_remove f a, al_remove f live)
    | HReindex => (live, live)
    end.
  Definition arun (ops : list hop) : alist * alist := fold_left astep ops ([], []).
  Definition indexed (ops : list hop) : alist := fst (arun ops).

  (** the history with every operation on file [f] deleted *)
  Definition about (f : N) (o : hop) : bool :=
    match o with HUpdate g _ => g =? f | HRemove g => g =? f | HReindex => false end.
  Definition without (f : N) (ops : list hop) : list hop := filter (fun o => negb (about f o)) ops.

  Record refinement := mkRef {
    r_R : St -> alist -> Prop;
    r_obs : alist -> Q -> O;
    r_size : alist -> list N;
    r_excl : alist -> N -> Prop;    (* the keys file f contributes to have no contribution from another file *)
    r_init : r_R (s_init S) [];
    r_add : forall s a f x, r_R s a -> ~ In f (keys a) -> NoDup (keys a) -> r_R (s_add S f x s) (a ++ [(f, x)]);
    r_remove : forall s a f, r_R s a -> NoDup (keys a) -> r_R (s_remove S f s) (al_remove f a);
    r_clear : forall s a, r_R s a -> r_R (s_clear S s) [];
    r_obs_eq : forall s a q, r_R s a -> s_obs S s q = r_obs a q;
    r_size_eq : forall s a, r_R s a -> s_size S s = r_size a;
    r_mentions : forall s a f, r_R s a -> ~ In f (keys a) -> s_mentions S s f = false;
    r_move_obs : forall a f x q, NoDup (keys a) -> In (f, x) a -> r_excl a f ->
                   r_obs (al_remove f a ++ [(f, x)]) q = r_obs a q;
    r_move_size : forall a f x, NoDup (keys a) -> In (f, x) a ->
                   r_size (al_remove f a ++ [(f, x)]) = r_size a
  }.

  Lemma in_al_remove : forall f a g y, In (g, y) (al_remove f a) <-> In (g, y) a /\ g <> f.
  Proof.
    intros f a g y. unfold al_remove. rewrite filter_In. cbn [fst]. rewrite negb_true_iff, N.eqb_neq. reflexivity.
  Qed.

  Lemma keys_al_remove : forall f a, keys (al_remove f a) = filter (fun g => negb (g =? f)) (keys a).
  Proof.
    intros f a. unfold keys, al_remove. induction a as [|[g y] a IH]; cbn [filter map fst]; [reflexivity|].
    destruct (negb (g =? f)); cbn [map fst]; rewrite IH; reflexivity.
  Qed.

  Lemma notin_al_remove : forall f a, ~ In f (keys (al_remove f a)).
  Proof.
    intros f a H. rewrite keys_al_remove in H. apply filter_In in H. destruct H as [_ H].
    rewrite N.eqb_refl in H. discriminate.
  Qed.

  Lemma nodup_al_remove : forall f a, NoDup (keys a) -> NoDup (keys (al_remove f a)).
  Proof. intros f a H. rewrite keys_al_remove. apply NoDup_filter. exact H. Qed.

  Lemma nodup_snoc : forall A (x : A) l, NoDup l -> ~ In x l -> NoDup (l ++ [x]).
  Proof.
    intros A x l Hnd Hnotin. apply (Permutation_NoDup (Permutation_cons_append l x)). constructor; assumption.
  Qed.

  Lemma nodup_resubmit : forall f x a, NoDup (keys a) -> NoDup (keys (al_remove f a ++ [(f, x)])).
  Proof.
    intros f x a H. unfold keys. rewrite map_app. cbn [map fst].
    apply nodup_snoc; [apply nodup_al_remove; exact H | apply notin_al_remove].
  Qed.

  Lemma al_remove_id : forall f a, ~ In f (keys a) -> al_remove f a = a.
  Proof.
    intros f a. unfold al_remove, keys. induction a as [|[g y] a IH]; intro H; cbn [filter fst]; [reflexivity|].
    destruct (N.eqb_spec g f) as [->|_]; cbn [negb].
    - exfalso. apply H. left. reflexivity.
    - f_equal. apply IH. intro Hin. apply H. right. exact Hin.
  Qed.

  Lemma al_remove_comm : forall f g a, al_remove f (al_remove g a) = al_remove g (al_remove f a).
  Proof.
    intros f g a. unfold al_remove. induction a as [|x a IH]; cbn [filter]; [reflexivity|].
    destruct (negb (fst x =? g)) eqn:Eg, (negb (fst x =? f)) eqn:Ef; cbn [filter]; rewrite ?Eg, ?Ef, IH; reflexivity.
  Qed.

  Lemma al_remove_app : forall f a b, al_remove f (a ++ b) = al_remove f a ++ al_remove f b.
  Proof. intros. unfold al_remove. apply filter_app. Qed.

  Lemma al_remove_split : forall a f x, NoDup (keys a) -> In (f, x) a ->
    exists l1 l2, a = l1 ++ (f, x) :: l2 /\ al_remove f a = l1 ++ l2.
  Proof.
    intros a f x Hnd Hin. apply in_split in Hin. destruct Hin as [l1 [l2 ->]]. exists l1, l2. split; [reflexivity|].
    unfold keys in Hnd. rewrite map_app in Hnd. cbn [map fst] in Hnd. apply NoDup_remove_2 in Hnd.
    rewrite al_remove_app. cbn [al_remove filter fst]. rewrite N.eqb_refl. cbn [negb].
    fold (al_remove f l1). fold (al_remove f l2).
    rewrite !al_remove_id; [reflexivity | |]; intro H; apply Hnd; apply in_or_app; auto.
  Qed.

  Lemma keys_live_put_in : forall f x l g, In g (keys (live_put f x l)) <-> g = f \/ In g (keys l).
  Proof.
    induction l as [|[h y] l IH]; intro g; cbn [live_put keys map fst In].
    - intuition congruence.
    - destruct (N.eqb_spec f h) as [->|Hne]; cbn [keys map fst In]; [intuition congruence|].
      fold (keys (live_put f x l)). rewrite IH. unfold keys. intuition congruence.
  Qed.

  Lemma nodup_live_put : forall f x l, NoDup (keys l) -> NoDup (keys (live_put f x l)).
  Proof.
    induction l as [|[h y] l IH]; intro H; cbn [live_put keys map fst].
    - constructor; [intros [] | constructor].
    - destruct (N.eqb_spec f h) as [->|Hne]; [exact H|].
      cbn [keys map fst] in *. inversion H as [|? ? Hh Hl]; subst. constructor; [|apply IH; exact Hl].
      intro Hin. apply (keys_live_put_in f x l h) in Hin. destruct Hin as [->|Hin]; [congruence | exact (Hh Hin)].
  Qed.

  Lemma al_remove_live_put : forall f g x l,
    al_remove f (live_put g x l) = if g =? f then al_remove f l else live_put g x (al_remove f l).
  Proof.
    intros f g x l. unfold al_remove. induction l as [|[h y] l IH]; cbn [live_put filter fst].
    - destruct (g =? f); reflexivity.
    - destruct (N.eqb_spec g h) as [->|Hgh]; cbn [filter fst].
      + destruct (N.eqb_spec h f); cbn [negb live_put]; [|rewrite N.eqb_refl]; reflexivity.
      + destruct (N.eqb_spec h f) as [->|Hhf]; cbn [negb]; [exact IH|]. rewrite IH.
        destruct (g =? f); cbn [live_put]; [|destruct (N.eqb_spec g h); [contradiction|]]; reflexivity.
  Qed.

  Lemma nodup_app_l : forall A (l r : list A), NoDup (l ++ r) -> NoDup l.
  Proof.
    induction l as [|x l IH]; intros r H; [constructor|].
    cbn [app] in H. inversion H as [|? ? Hx Hl]; subst. constructor; [|eapply IH; exact Hl].
    intro Hin. apply Hx. apply in_or_app. left. exact Hin.
  Qed.

  Variable Rf : refinement.

  Lemma add_all_R : forall l s a, r_R Rf s a -> NoDup (keys (a ++ l)) -> r_R Rf (add_all l s) (a ++ l).
  Proof.
    induction l as [|[f x] l IH]; intros s a HR Hnd; cbn [add_all fold_left].
    - rewrite app_nil_r. exact HR.
    - change (fold_left _ l ?s0) with (add_all l s0).
      replace (a ++ (f, x) :: l) with ((a ++ [(f, x)]) ++ l) in * by (rewrite <- app_assoc; reflexivity).
      apply IH; [|exact Hnd].
      unfold keys in Hnd. rewrite !map_app in Hnd. cbn [map fst] in Hnd.
      apply nodup_app_l in Hnd.
      assert (Ha : NoDup (keys a)) by (apply nodup_app_l in Hnd; exact Hnd).
      apply (r_add Rf); [exact HR | | exact Ha].
      intro Hin. apply NoDup_remove_2 in Hnd. apply Hnd. rewrite app_nil_r. exact Hin.
  Qed.

  Definition run_inv (st : St * alist) (ast : alist * alist) : Prop :=
    r_R Rf (fst st) (fst ast) /\ snd st = snd ast /\ NoDup (keys (fst ast)) /\ NoDup (keys (snd ast)).

  Lemma step_inv : forall st ast o, run_inv st ast -> run_inv (hstep st o) (astep ast o).
  Proof.
    intros [s live] [a live'] o [HR [Hl [Ha Hlive]]]. cbn [fst snd] in *. subst live'.
    destruct o as [f x|f|]; cbn [hstep astep fst snd]; unfold run_inv; cbn [fst snd].
    - split; [|split; [reflexivity | split; [apply nodup_resubmit; exact Ha | apply nodup_live_put; exact Hlive]]].
      apply (r_add Rf); [apply (r_remove Rf); assumption | apply notin_al_remove | apply nodup_al_remove; exact Ha].
    - split; [apply (r_remove Rf); assumption|]. split; [reflexivity|].
      split; apply nodup_al_remove; assumption.
    - split; [|split; [reflexivity | split; exact Hlive]].
      apply (add_all_R live (s_clear S s) []); [eapply (r_clear Rf); exact HR | exact Hlive].
  Qed.

  Lemma run_inv_fold : forall ops st ast, run_inv st ast -> run_inv (fold_left hstep ops st) (fold_left astep ops ast).
  Proof.
    induction ops as [|o ops IH]; intros st ast H; cbn [fold_left]; [exact H|].
    apply IH. apply step_inv. exact H.
  Qed.

  Lemma run_ok : forall ops, run_inv (hrun ops) (arun ops).
  Proof.
    intro ops. unfold hrun, arun. apply run_inv_fold. unfold run_inv. cbn [fst snd].
    split; [exact (r_init Rf)|]. split; [reflexivity|]. split; constructor.
  Qed.

  Lemma state_R : forall ops, r_R Rf (state ops) (indexed ops).
  Proof. intro ops. destruct (run_ok ops) as [H _]. exact H. Qed.

  Lemma indexed_nodup : forall ops, NoDup (keys (indexed ops)).
  Proof. intro ops. destruct (run_ok ops) as [_ [_ [H _]]]. exact H. Qed.

  Lemma same_abs : forall s s' a, r_R Rf s a -> r_R Rf s' a ->
    (forall q, s_obs S s q = s_obs S s' q) /\ s_size S s = s_size S s'.
  Proof.
    intros s s' a H H'. split.
    - intro q. rewrite (r_obs_eq Rf s a q H), (r_obs_eq Rf s' a q H'). reflexivity.
    - rewrite (r_size_eq Rf s a H), (r_size_eq Rf s' a H'). reflexivity.
  Qed.

  Lemma hrun_app : forall ops o, hrun (ops ++ [o]) = hstep (hrun ops) o.
  Proof. intros. unfold hrun. rewrite fold_left_app. reflexivity. Qed.

  Lemma arun_app : forall ops o, arun (ops ++ [o]) = astep (arun ops) o.
  Proof. intros. unfold arun. rewrite fold_left_app. reflexivity. Qed.

  Lemma indexed_update : forall ops f x, indexed (ops ++ [HUpdate f x]) = al_remove f (indexed ops) ++ [(f, x)].
  Proof. intros. unfold indexed. rewrite arun_app. destruct (arun ops). reflexivity. Qed.

  Lemma indexed_remove : forall ops f, indexed (ops ++ [HRemove f]) = al_remove f (indexed ops).
  Proof. intros. unfold indexed. rewrite arun_app. destruct (arun ops). reflexivity. Qed.

  (** clearing any reachable state gives the observations and sizes of a new store *)
  Theorem clear_is_init : forall ops,
    (forall q, s_obs S (s_clear S (state ops)) q = s_obs S (s_init S) q) /\
    s_size S (s_clear S (state ops)) = s_size S (s_init S).
  Proof.
    intro ops. apply (same_abs _ _ []); [eapply (r_clear Rf); apply state_R | exact (r_init Rf)].
  Qed.

  (** after ANY history, reindex is observationally a fresh analysis of the surviving files *)
  Theorem reindex_eq_fresh : forall ops,
    (forall q, s_obs S (state (ops ++ [HReindex])) q = s_obs S (fresh (vfs (ops ++ [HReindex]))) q) /\
    s_size S (state (ops ++ [HReindex])) = s_size S (fresh (vfs (ops ++ [HReindex]))).
  Proof.
    intro ops. pose proof (run_ok (ops ++ [HReindex])) as [HR [Hl [Ha Hlive]]].
    apply (same_abs _ _ (indexed (ops ++ [HReindex]))); [exact HR|].
    unfold fresh, vfs. rewrite Hl. unfold indexed. rewrite arun_app in *.
    destruct (arun ops) as [a live]. cbn [astep fst snd] in *.
    apply (add_all_R live (s_init S) []); [exact (r_init Rf) | exact Hlive].
  Qed.

  Theorem remove_no_mention : forall ops f, s_mentions S (state (ops ++ [HRemove f])) f = false.
  Proof.
    intros ops f. apply (r_mentions Rf _ (indexed (ops ++ [HRemove f]))); [apply state_R|].
    rewrite indexed_remove. apply notin_al_remove.
  Qed.

  Definition cut (f : N) (st : alist * alist) : alist * alist := (al_remove f (fst st), al_remove f (snd st)).

  Lemma astep_without : forall f o st, about f o = false -> astep (cut f st) o = cut f (astep st o).
  Proof.
    intros f o [a live] Ho. unfold cut. destruct o as [g x|g|]; cbn [about astep fst snd] in *.
    - destruct (N.eqb_spec g f) as [|Hne]; [discriminate|].
      rewrite al_remove_app, (al_remove_comm f g). cbn [al_remove filter fst].
      rewrite al_remove_live_put. destruct (N.eqb_spec g f); [contradiction | reflexivity].
    - rewrite !(al_remove_comm f g). reflexivity.
    - reflexivity.
  Qed.

  Lemma astep_about : forall f o st, about f o = true -> cut f (astep st o) = cut f st.
  Proof.
    intros f o [a live] Ho. unfold cut. destruct o as [g x|g|]; cbn [about astep fst snd] in *; [| |discriminate];
      apply N.eqb_eq in Ho; subst g; f_equal.
    - rewrite al_remove_app. cbn [al_remove filter fst]. rewrite N.eqb_refl. cbn [negb]. rewrite app_nil_r.
      apply al_remove_id. apply notin_al_remove.
    - rewrite al_remove_live_put, N.eqb_refl. reflexivity.
    - apply al_remove_id. apply notin_al_remove.
    - apply al_remove_id. apply notin_al_remove.
  Qed.

  Lemma arun_without : forall f ops st, fold_left astep (without f ops) (cut f st) = cut f (fold_left astep ops st).
  Proof.
    intros f. induction ops as [|o ops IH]; intro st; cbn [without filter fold_left]; [reflexivity|].
    fold (without f ops). destruct (about f o) eqn:Ho; cbn [negb fold_left].
    - rewrite <- (astep_about f o st Ho). apply IH.
    - rewrite (astep_without f o st Ho). apply IH.
  Qed.

  Lemma arun_without0 : forall f ops, arun (without f ops) = cut f (arun ops).
  Proof. intros f ops. exact (arun_without f ops ([], [])). Qed.

  (** removing a file leaves the store as if the file had never been submitted: same observations, same sizes *)
  Theorem remove_frees : forall ops f,
    (forall q, s_obs S (state (ops ++ [HRemove f])) q = s_obs S (state (without f ops)) q) /\
    s_size S (state (ops ++ [HRemove f])) = s_size S (state (without f ops)).
  Proof.
    intros ops f. apply (same_abs _ _ (indexed (ops ++ [HRemove f]))); [apply state_R|].
    replace (indexed (ops ++ [HRemove f])) with (indexed (without f ops)); [apply state_R|].
    rewrite indexed_remove. unfold indexed. rewrite arun_without0. reflexivity.
  Qed.

  (** re-submitting a file with unchanged facts: no container grows or shrinks *)
  Theorem resubmit_size : forall ops f x, In (f, x) (indexed ops) ->
    s_size S (state (ops ++ [HUpdate f x])) = s_size S (state ops).
  Proof.
    intros ops f x Hin.
    rewrite (r_size_eq Rf _ _ (state_R (ops ++ [HUpdate f x]))), (r_size_eq Rf _ _ (state_R ops)), indexed_update.
    apply (r_move_size Rf); [apply indexed_nodup | exact Hin].
  Qed.

  (** ... and, when no other file contributes to the same keys, every observation is unchanged *)
  Theorem resubmit_obs : forall ops f x q, In (f, x) (indexed ops) -> r_excl Rf (indexed ops) f ->
    s_obs S (state (ops ++ [HUpdate f x])) q = s_obs S (state ops) q.
  Proof.
    intros ops f x q Hin Hex.
    rewrite (r_obs_eq Rf _ _ q (state_R (ops ++ [HUpdate f x]))), (r_obs_eq Rf _ _ q (state_R ops)), indexed_update.
    apply (r_move_obs Rf); [apply indexed_nodup | exact Hin | exact Hex].
  Qed.

  (** editing a file and restoring its previous facts is the same as re-submitting it *)
  Theorem edit_restore : forall ops f x y,
    indexed (ops ++ [HUpdate f y; HUpdate f x]) = indexed (ops ++ [HUpdate f x]).
  Proof.
    intros ops f x y. change [HUpdate f y; HUpdate f x] with ([HUpdate f y] ++ [HUpdate f x]).
    rewrite app_assoc, !indexed_update, al_remove_app. cbn [al_remove filter fst]. rewrite N.eqb_refl. cbn [negb].
    rewrite app_nil_r, (al_remove_id f (al_remove f _)) by apply notin_al_remove. reflexivity.
  Qed.

  Lemma edit_restore_R : forall ops f x y,
    r_R Rf (state (ops ++ [HUpdate f y; HUpdate f x])) (indexed (ops ++ [HUpdate f x])).
  Proof. intros ops f x y. rewrite <- (edit_restore ops f x y). apply state_R. Qed.

  Theorem edit_restore_obs : forall ops f x y q, In (f, x) (indexed ops) -> r_excl Rf (indexed ops) f ->
    s_obs S (state (ops ++ [HUpdate f y; HUpdate f x])) q = s_obs S (state ops) q.
  Proof.
    intros ops f x y q Hin Hex. rewrite <- (resubmit_obs ops f x q Hin Hex).
    apply (same_abs _ _ _ (edit_restore_R ops f x y) (state_R _)).
  Qed.

  Theorem edit_restore_size : forall ops f x y, In (f, x) (indexed ops) ->
    s_size S (state (ops ++ [HUpdate f y; HUpdate f x])) = s_size S (state ops).
  Proof.
    intros ops f x y Hin. rewrite <- (resubmit_size ops f x Hin).
    apply (same_abs _ _ _ (edit_restore_R ops f x y) (state_R _)).
  Qed.
End StoreSM.
