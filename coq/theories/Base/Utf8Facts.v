(** Base/Utf8Facts.v — the UTF-8 codec of Base/Utf8.v: [utf8_decode_encode] (decode ∘ encode = id on scalar
    values) and what follows from it. *)
From EV Require Export Base.Utf8.
From Coq Require Import ZArith.
Local Open Scope N_scope.

Definition ltb_lt a b : a < b -> (a <? b) = true := proj2 (N.ltb_lt a b).
Definition ltb_ge a b : b <= a -> (a <? b) = false := proj2 (N.ltb_ge a b).
Definition leb_le a b : a <= b -> (a <=? b) = true := proj2 (N.leb_le a b).

Lemma add_sub_l : forall n m, n + m - n = m.
Proof. intros n m. rewrite N.add_comm. apply N.add_sub. Qed.

Lemma is_scalar_lt : forall c, is_scalar c = true -> c < 1114112 /\ (c < 55296 \/ 57344 <= c).
Proof.
  intros c H. unfold is_scalar in H. apply orb_true_iff in H. destruct H as [H|H].
  - apply N.ltb_lt in H. lia.
  - apply andb_true_iff in H. destruct H as [H1 H2]. apply N.leb_le in H1. apply N.ltb_lt in H2. lia.
Qed.

Lemma utf8_encode_app : forall a b, utf8_encode (a ++ b) = utf8_encode a ++ utf8_encode b.
Proof.
  induction a as [|c a IH]; intros b; cbn [app utf8_encode]; [reflexivity|].
  rewrite IH, app_assoc. reflexivity.
Qed.

(** the length of the encoding is [char::len_utf8] ([Base.Text.blen]) *)
Lemma utf8_encode_cp_length : forall c, N.of_nat (length (utf8_encode_cp c)) = blen c.
Proof.
  intros c. unfold utf8_encode_cp, blen.
  destruct (c <? 128); [reflexivity|]. destruct (c <? 2048); [reflexivity|].
  destruct (c <? 65536); reflexivity.
Qed.

Lemma utf8_encode_length : forall t, N.of_nat (length (utf8_encode t)) = bytes t.
Proof.
  induction t as [|c t IH]; cbn [utf8_encode bytes]; [reflexivity|].
  rewrite app_length, Nat2N.inj_add, IH, utf8_encode_cp_length. reflexivity.
Qed.

Lemma utf8_encode_cp_ascii : forall c, c < 128 -> utf8_encode_cp c = [c].
Proof. intros c H. unfold utf8_encode_cp. rewrite (ltb_lt c 128) by exact H. reflexivity. Qed.

(* division by constants for [lia]; the redefinition is local to this section *)
Section DivisionByConstants.
Ltac Zify.zify_post_hook ::= Z.to_euclidean_division_equations.

Lemma utf8_encode_cp_high : forall c, 128 <= c < 1114112 ->
  Forall (fun b => 128 <= b < 256) (utf8_encode_cp c).
Proof.
  intros c H. unfold utf8_encode_cp.
  destruct (N.ltb_spec c 128); [lia|].
  destruct (N.ltb_spec c 2048); [|destruct (N.ltb_spec c 65536)]; repeat constructor; lia.
Qed.

End DivisionByConstants.

Lemma utf8_encode_cp_bytes : forall c, is_scalar c = true ->
  Forall (fun b => b < 256) (utf8_encode_cp c).
Proof.
  intros c H. apply is_scalar_lt in H. destruct (N.lt_ge_cases c 128) as [A|A].
  - rewrite utf8_encode_cp_ascii by exact A. repeat constructor. lia.
  - eapply Forall_impl; [|apply utf8_encode_cp_high; lia]. intros b B. apply B.
Qed.

Lemma utf8_encode_cp_nonempty : forall c, utf8_encode_cp c <> [].
Proof.
  intros c. unfold utf8_encode_cp.
  destruct (c <? 128); [discriminate|]. destruct (c <? 2048); [discriminate|].
  destruct (c <? 65536); discriminate.
Qed.

(** base-64 positional notation: what the encoder's divisions and the decoder's sums compute *)
Lemma digit64 : forall c k, c / k = c / (k * 64) * 64 + (c / k) mod 64.
Proof.
  intros c [|k]; [destruct c; reflexivity|].
  rewrite <- N.div_div by discriminate. rewrite N.mul_comm. apply N.div_mod'.
Qed.

Lemma base64_2 : forall c, c / 64 * 64 + c mod 64 = c.
Proof. intros c. rewrite N.mul_comm. symmetry. apply N.div_mod'. Qed.

Lemma base64_3 : forall c, c / 4096 * 4096 + (c / 64) mod 64 * 64 + c mod 64 = c.
Proof. intros c. pose proof (base64_2 c). pose proof (digit64 c 64). change (64 * 64) with 4096 in *. lia. Qed.

Lemma base64_4 : forall c,
  c / 262144 * 262144 + (c / 4096) mod 64 * 4096 + (c / 64) mod 64 * 64 + c mod 64 = c.
Proof. intros c. pose proof (base64_3 c). pose proof (digit64 c 4096). change (4096 * 64) with 262144 in *. lia. Qed.

(** what the decoder accepts, by the class of the lead byte; [q] and the [r]s are the base-64
    digits the bytes carry *)
Lemma is_cont_digit : forall r, r < 64 -> is_cont (128 + r) = true.
Proof. intros r H. unfold is_cont. apply andb_true_iff. rewrite N.leb_le, N.ltb_lt. lia. Qed.

Lemma utf8_decode_1 : forall c rest, c < 128 ->
  utf8_decode (c :: rest) = option_map (cons c) (utf8_decode rest).
Proof. intros c rest H. cbn [utf8_decode]. rewrite (ltb_lt c 128) by exact H. reflexivity. Qed.

(* In the proofs below the tail is kept abstract while the lead byte is classified: unfolding the
   decoder on a list of known length unfolds it at every suffix. *)
Lemma utf8_decode_2 : forall q r c rest, r < 64 -> q * 64 + r = c -> 128 <= c < 2048 ->
  utf8_decode (192 + q :: 128 + r :: rest) = option_map (cons c) (utf8_decode rest).
Proof.
  intros q r c rest R E B. remember (128 + r :: rest) as tl. cbn [utf8_decode].
  rewrite (ltb_ge _ 128), (ltb_ge _ 194), (ltb_lt _ 224) by lia.
  subst tl. rewrite !add_sub_l, E, is_cont_digit by exact R. reflexivity.
Qed.

Lemma utf8_decode_3 : forall q r1 r0 c rest, r1 < 64 -> r0 < 64 -> q * 4096 + r1 * 64 + r0 = c ->
  2048 <= c < 65536 -> c < 55296 \/ 57344 <= c ->
  utf8_decode (224 + q :: 128 + r1 :: 128 + r0 :: rest) = option_map (cons c) (utf8_decode rest).
Proof.
  intros q r1 r0 c rest R1 R0 E B Hsur. remember (128 + r1 :: 128 + r0 :: rest) as tl. cbn [utf8_decode].
  rewrite (ltb_ge _ 128), (ltb_ge _ 194), (ltb_ge _ 224), (ltb_lt _ 240) by lia.
  subst tl. rewrite !add_sub_l, E, !is_cont_digit by assumption.
  rewrite (leb_le 2048 c) by lia.
  destruct (N.leb_spec 55296 c), (N.ltb_spec c 57344); try reflexivity. lia.
Qed.

Lemma utf8_decode_4 : forall q r2 r1 r0 c rest, r2 < 64 -> r1 < 64 -> r0 < 64 ->
  q * 262144 + r2 * 4096 + r1 * 64 + r0 = c -> 65536 <= c < 1114112 ->
  utf8_decode (240 + q :: 128 + r2 :: 128 + r1 :: 128 + r0 :: rest) = option_map (cons c) (utf8_decode rest).
Proof.
  intros q r2 r1 r0 c rest R2 R1 R0 E B.
  remember (128 + r2 :: 128 + r1 :: 128 + r0 :: rest) as tl. cbn [utf8_decode].
  rewrite (ltb_ge _ 128), (ltb_ge _ 194), (ltb_ge _ 224), (ltb_ge _ 240), (ltb_lt _ 245) by lia.
  subst tl. rewrite !add_sub_l, E, !is_cont_digit by assumption.
  rewrite (leb_le 65536 c), (ltb_lt c 1114112) by lia. reflexivity.
Qed.

(** one character: the encoder writes [c] in base 64, the decoder sums the digits up again *)
Lemma utf8_decode_encode_cp : forall c rest, is_scalar c = true ->
  utf8_decode (utf8_encode_cp c ++ rest) = option_map (cons c) (utf8_decode rest).
Proof.
  intros c rest H. apply is_scalar_lt in H. destruct H as [Hmax Hsur]. unfold utf8_encode_cp.
  assert (D : forall x, x mod 64 < 64) by (intros x; apply N.mod_lt; discriminate).
  destruct (N.ltb_spec c 128); [|destruct (N.ltb_spec c 2048); [|destruct (N.ltb_spec c 65536)]]; cbn [app].
  - apply utf8_decode_1. assumption.
  - apply utf8_decode_2; [apply D|apply base64_2|lia].
  - apply utf8_decode_3; [apply D|apply D|apply base64_3|lia|exact Hsur].
  - apply utf8_decode_4; [apply D|apply D|apply D|apply base64_4|lia].
Qed.

(** [String::from_utf8(s.as_bytes()) == Ok(s)] for every string of scalar values *)
Theorem utf8_decode_encode : forall t, scalar_text t = true -> utf8_decode (utf8_encode t) = Some t.
Proof.
  induction t as [|c t IH]; intros H; [reflexivity|].
  cbn [scalar_text forallb] in H. apply andb_true_iff in H. destruct H as [Hc Ht].
  cbn [utf8_encode]. rewrite utf8_decode_encode_cp by exact Hc.
  fold (scalar_text t) in Ht. rewrite (IH Ht). reflexivity.
Qed.

Corollary utf8_encode_inj : forall a b, scalar_text a = true -> scalar_text b = true ->
  utf8_encode a = utf8_encode b -> a = b.
Proof.
  intros a b Ha Hb E. apply utf8_decode_encode in Ha. apply utf8_decode_encode in Hb.
  rewrite E in Ha. rewrite Ha in Hb. injection Hb. auto.
Qed.

Lemma scalar_text_app : forall a b, scalar_text (a ++ b) = scalar_text a && scalar_text b.
Proof. intros. unfold scalar_text. apply forallb_app. Qed.

Lemma utf8_encode_ascii : forall t, all_ascii t = true -> utf8_encode t = t.
Proof.
  induction t as [|c t IH]; intros H; [reflexivity|].
  cbn [all_ascii forallb] in H. apply andb_true_iff in H. destruct H as [Hc Ht].
  apply N.ltb_lt in Hc. cbn [utf8_encode]. rewrite utf8_encode_cp_ascii by exact Hc.
  fold (all_ascii t) in Ht. rewrite (IH Ht). reflexivity.
Qed.
