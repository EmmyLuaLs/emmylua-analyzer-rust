(** A system is [step : label -> state -> option state] ([None]: the label is not enabled); [run s ls] executes the
    schedule [ls], and is [None] as soon as a label is not enabled.  Labels name the task that moves, so quantifying
    over all schedules quantifies over all interleavings. *)
From Coq Require Import List Arith Lia.
Import ListNotations.

Section LTS.
  Variable state label : Type.
  Variable step : label -> state -> option state.

  Fixpoint run (s : state) (ls : list label) : option state :=
    match ls with
    | [] => Some s
    | l :: r => match step l s with
                | Some s' => run s' r
                | None => None
                end
    end.

  Definition reachable (s0 s : state) : Prop := exists ls, run s0 ls = Some s.

  Definition quiescent (s : state) : Prop := forall l, step l s = None.

  Lemma run_app : forall ls1 ls2 s,
    run s (ls1 ++ ls2) = match run s ls1 with Some s' => run s' ls2 | None => None end.
  Proof.
    induction ls1 as [|l r IH]; intros ls2 s; cbn [run app]; [reflexivity|].
    destruct (step l s); [apply IH|reflexivity].
  Qed.

  Lemma reachable_refl : forall s, reachable s s.
  Proof. intros s; exists []; reflexivity. Qed.

  Lemma reachable_step : forall s0 s l s', reachable s0 s -> step l s = Some s' -> reachable s0 s'.
  Proof.
    intros s0 s l s' [ls H] Hs. exists (ls ++ [l]).
    rewrite run_app, H. cbn [run]. rewrite Hs. reflexivity.
  Qed.

  Lemma run_invariant : forall (I : state -> Prop),
    (forall l s s', I s -> step l s = Some s' -> I s') ->
    forall ls s0 s, I s0 -> run s0 ls = Some s -> I s.
  Proof.
    intros I Hstep. induction ls as [|l r IH]; intros s0 s H0 Hrun; cbn [run] in Hrun.
    - inversion Hrun; subst; assumption.
    - destruct (step l s0) as [s1|] eqn:E; [|discriminate].
      eapply IH; [eapply Hstep; eassumption|exact Hrun].
  Qed.

  Lemma run_measure : forall (m : state -> nat),
    (forall l s s', step l s = Some s' -> m s' < m s) ->
    forall ls s0 s, run s0 ls = Some s -> length ls + m s <= m s0.
  Proof.
    intros m Hdec. induction ls as [|l r IH]; intros s0 s Hrun; cbn [run] in Hrun.
    - inversion Hrun; subst. cbn. lia.
    - destruct (step l s0) as [s1|] eqn:E; [|discriminate].
      apply Hdec in E. apply IH in Hrun. cbn [length]. lia.
  Qed.

  (** [pick] exhibits an enabled label in every state that is not quiescent *)
  Definition picks (pick : state -> option label) : Prop :=
    forall s, match pick s with
              | Some l => exists s', step l s = Some s'
              | None => quiescent s
              end.

  Lemma quiescent_pick : forall pick, picks pick -> forall s, quiescent s -> pick s = None.
  Proof.
    intros pick Hpick s Hq. specialize (Hpick s). destruct (pick s) as [l|]; [|reflexivity].
    destruct Hpick as [s' Hs]. rewrite (Hq l) in Hs. discriminate.
  Qed.

  Lemma reaches_quiescence : forall (m : state -> nat) (pick : state -> option label),
    (forall l s s', step l s = Some s' -> m s' < m s) -> picks pick ->
    forall n s, m s <= n -> exists ls s', run s ls = Some s' /\ quiescent s'.
  Proof.
    intros m pick Hdec Hpick. induction n as [|n IH]; intros s Hm; specialize (Hpick s);
      (destruct (pick s) as [l|]; [destruct Hpick as [s' Hs]; pose proof (Hdec _ _ _ Hs) as Hlt
                                  |exists [], s; split; [reflexivity|assumption]]).
    - lia.
    - destruct (IH s') as [ls [s'' [Hr Hq]]]; [lia|].
      exists (l :: ls), s''. split; [|assumption]. cbn [run]. rewrite Hs. exact Hr.
  Qed.

  Lemma terminates : forall (m : state -> nat) (pick : state -> option label),
    (forall l s s', step l s = Some s' -> m s' < m s) -> picks pick ->
    forall ls s0 s, run s0 ls = Some s ->
      length ls <= m s0 /\ exists ls' s', run s ls' = Some s' /\ quiescent s'.
  Proof.
    intros m pick Hdec Hpick ls s0 s Hr. split.
    - pose proof (run_measure m Hdec ls s0 s Hr). lia.
    - apply (reaches_quiescence m pick Hdec Hpick (m s)). lia.
  Qed.
End LTS.

Arguments run {state label} step s ls.
Arguments reachable {state label} step s0 s.
Arguments quiescent {state label} step s.
Arguments picks {state label} step pick.
