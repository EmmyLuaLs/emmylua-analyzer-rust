(** C17/InferProofs.v — reading the tree of a rendered type back gives its union normal form. *)
From EV Require Import C17.Model C17.Spec C17.LexProofs.
From Coq Require Import String Lia.
Local Open Scope N_scope.

Definition dstep (acc d : N) : N := acc * 10 + (d - 48).

Lemma digits_value_eq : forall ds, digits_value ds = fold_left dstep ds 0.
Proof. reflexivity. Qed.

Lemma dec_aux_value : forall fuel n acc,
  n < 10 ^ N.of_nat fuel ->
  fold_left dstep (dec_aux fuel n acc) 0 = fold_left dstep acc n.
Proof.
  induction fuel as [|f IH]; intros n acc Hn.
  - cbn in Hn. assert (n = 0) by lia. subst. reflexivity.
  - cbn [dec_aux]. destruct (N.ltb_spec n 10).
    + cbn [fold_left]. replace (dstep 0 (digit_char n)) with n; [reflexivity|].
      unfold dstep, digit_char. clear -H. lia.
    + rewrite IH.
      * cbn [fold_left]. replace (dstep (n / 10) (digit_char (n mod 10))) with n; [reflexivity|].
        unfold dstep, digit_char. clear. pose proof (N.div_mod n 10 ltac:(discriminate)) as E1.
        pose proof (N.mod_lt n 10 ltac:(discriminate)) as E2.
        generalize dependent (n / 10). generalize dependent (n mod 10). intros r E2 q E1. lia.
      * rewrite Nat2N.inj_succ, N.pow_succ_r' in Hn. apply N.div_lt_upper_bound; [discriminate|exact Hn].
Qed.

Lemma dec_value : forall n, digits_value (dec_of_N n) = n.
Proof.
  intros n. rewrite digits_value_eq. unfold dec_of_N. rewrite dec_aux_value; [reflexivity|].
  rewrite Nat2N.inj_succ, N2Nat.id, N.pow_succ_r'.
  destruct n as [|p]; [cbn; lia|].
  (* [n < 2 ^ size n <= 10 ^ size n], so the [S (size n)] rounds of [dec_of_N] reach the last digit *)
  pose proof (N.size_gt (Npos p)).
  assert (2 ^ N.size (Npos p) <= 10 ^ N.size (Npos p)) by (apply N.pow_le_mono_l; lia).
  lia.
Qed.

Lemma show_Z_value : forall z, (0 <= z)%Z -> digits_value (show_Z z) = Z.to_N z.
Proof.
  intros z Hz. destruct z as [|p|p]; [reflexivity| |lia].
  cbn [show_Z]. rewrite dec_value. reflexivity.
Qed.

Lemma hex_val_digit : forall d, d < 16 -> hex_val (hex_digit_char d) = Some d.
Proof.
  intros d H. unfold hex_val, hex_digit_char, is_digit.
  destruct (N.ltb_spec d 10).
  - destruct (N.leb_spec 48 (48 + d)); [|lia]. destruct (N.leb_spec (48 + d) 57); [|lia].
    cbn [andb]. f_equal. lia.
  - destruct (N.leb_spec 48 (55 + d)); [|lia]. destruct (N.leb_spec (55 + d) 57); [lia|].
    cbn [andb]. destruct (N.leb_spec 65 (55 + d)); [|lia]. destruct (N.leb_spec (55 + d) 70); [|lia].
    cbn [andb]. f_equal. lia.
Qed.

Lemma esc_char_head : forall c nxt, is_digit c = false ->
  match esc_char c nxt with x :: _ => is_digit x = false | [] => False end.
Proof.
  intros c nxt H. unfold esc_char.
  destruct (N.eqb_spec c 92); [reflexivity|].
  destruct (N.eqb_spec c 34); [reflexivity|].
  destruct (N.eqb_spec c 10); [reflexivity|].
  destruct (N.eqb_spec c 13); [reflexivity|].
  destruct (N.eqb_spec c 9); [reflexivity|].
  destruct (N.eqb_spec c 27); [destruct nxt as [x|]; [destruct (is_digit x)|]; reflexivity|].
  destruct (is_control c); [reflexivity|exact H].
Qed.

Lemma unescape_step_plain : forall f c rest acc,
  (c =? 92) = false -> (c =? 34) = false ->
  unescape (S f) 34 (c :: rest) acc = unescape f 34 rest (c :: acc).
Proof. intros f c rest acc H1 H2. cbn [unescape]. rewrite H1, H2. reflexivity. Qed.

Definition hd_nondigit (s : text) : Prop := match s with x :: _ => is_digit x = false | [] => True end.

(** the hypothesis: the unpadded escape [\27] must not run into a digit *)
Lemma unescape_esc_char : forall f c nxt rest acc,
  match nxt with Some d => if is_digit d then True else hd_nondigit rest | None => hd_nondigit rest end ->
  unescape (S f) 34 (esc_char c nxt ++ rest) acc = unescape f 34 rest (c :: acc).
Proof.
  intros f c nxt rest acc Hf. unfold esc_char.
  destruct (N.eqb_spec c 92); [subst; reflexivity|].
  destruct (N.eqb_spec c 34); [subst; reflexivity|].
  destruct (N.eqb_spec c 10); [subst; reflexivity|].
  destruct (N.eqb_spec c 13); [subst; reflexivity|].
  destruct (N.eqb_spec c 9); [subst; reflexivity|].
  destruct (N.eqb_spec c 27).
  { subst c.
    assert (E : hd_nondigit rest -> unescape (S f) 34 ([92; 50; 55] ++ rest) acc = unescape f 34 rest (27 :: acc)).
    { intros H. destruct rest as [|x xs]; [reflexivity|]. cbn [app unescape N.eqb Pos.eqb orb].
      change (is_digit 50) with true. change (is_digit 55) with true. cbv beta iota. rewrite H. reflexivity. }
    destruct nxt as [d|]; [destruct (is_digit d); [reflexivity|]|]; apply E, Hf. }
  destruct (is_control c) eqn:Ec.
  - pose proof (control_lt _ Ec) as Hlt. cbn [app unescape N.eqb Pos.eqb orb].
    rewrite !hex_val_digit by (try (apply N.mod_lt; lia); apply N.div_lt_upper_bound; lia).
    replace (c / 16 * 16 + c mod 16) with c by (pose proof (N.div_mod c 16 ltac:(lia)); lia).
    reflexivity.
  - apply unescape_step_plain; apply N.eqb_neq; assumption.
Qed.

Lemma unescape_escape : forall s fuel acc rest,
  (List.length s < fuel)%nat ->
  unescape fuel 34 (escape s ++ 34 :: rest) acc = SOk (rev acc ++ s).
Proof.
  induction s as [|c r IH]; intros fuel acc rest Hf; (destruct fuel as [|f]; [cbn in Hf; lia|]).
  - rewrite app_nil_r. reflexivity.
  - cbn [escape List.length] in *. rewrite <- app_assoc, unescape_esc_char.
    + rewrite IH by lia. cbn [rev]. rewrite <- app_assoc. reflexivity.
    + destruct r as [|c2 r2]; [reflexivity|]. cbn [hd_error escape]. destruct (is_digit c2) eqn:Ed; [exact I|].
      pose proof (esc_char_head c2 (hd_error r2) Ed) as Hh.
      destruct (esc_char c2 (hd_error r2)); [contradiction|exact Hh].
Qed.

Lemma string_value_quoted : forall s, string_value (quoted s) = Some s.
Proof.
  intros s. unfold string_value, quoted.
  destruct (escape s ++ [34]) as [|b body] eqn:E.
  - destruct (escape s); discriminate E.
  - rewrite <- E.
    change (escape s ++ [34]) with (escape s ++ 34 :: []).
    rewrite unescape_escape; [reflexivity|].
    rewrite app_length. cbn [List.length].
    assert (List.length s <= List.length (escape s))%nat; [|lia].
    clear. induction s as [|c r IH]; [apply le_n|]. cbn [escape List.length]. rewrite app_length.
    assert (1 <= List.length (esc_char c (hd_error r)))%nat; [|lia].
    unfold esc_char.
    repeat match goal with |- context [if ?b then _ else _] => destruct b end;
      try (destruct (hd_error r) as [x|]; [destruct (is_digit x)|]); cbn; lia.
Qed.

Lemma sequence_map_some : forall (A B : Type) (f : A -> option B) (g : A -> B) l,
  Forall (fun x => f x = Some (g x)) l -> sequence (map f l) = Some (map g l).
Proof.
  intros A B f g l H. induction H as [|x r Hx Hr IH]; [reflexivity|].
  unfold sequence in *. cbn [map fold_right]. rewrite Hx, IH. reflexivity.
Qed.

Lemma infer_chain : forall e ms d0 t0,
  infer e false d0 = Some t0 ->
  Forall (fun m => infer e false (tree_of m) = Some (norm e m)) ms ->
  infer e false (fold_left (fun acc x => DBinary BUnion acc x) (map tree_of ms) d0)
  = Some (fold_left binary_union (map (norm e) ms) t0).
Proof.
  intros e ms d0 t0 H0 HF. revert d0 t0 H0. induction HF as [|m r Hm Hr IH]; intros d0 t0 H0; [exact H0|].
  cbn [map fold_left]. apply IH. cbn [infer]. rewrite H0, Hm. reflexivity.
Qed.

Lemma int_lit_value : forall z, (0 <= z)%Z -> (z <= I64_MAX)%Z ->
  (digits_value (show_Z z) <? I64_LIMIT) = true /\ Z.of_N (digits_value (show_Z z)) = z.
Proof.
  intros z H0 H1. rewrite show_Z_value by assumption.
  split; [apply N.ltb_lt; unfold I64_LIMIT, I64_MAX in *; lia|apply Z2N.id, H0].
Qed.

Lemma infer_int_nonneg : forall e z, (0 <= z)%Z -> (z <= I64_MAX)%Z ->
  infer e false (DLitInt (show_Z z)) = Some (TInt z).
Proof. intros e z H0 H1. cbn [infer]. destruct (int_lit_value z H0 H1) as [-> ->]. reflexivity. Qed.

Lemma infer_neg : forall e top d,
  infer e top (DUnary UNeg d) =
  match infer e false d with
  | Some (TInt i) => Some (TInt (- i))
  | Some _ => Some (TPrim PUnknown)
  | None => None
  end.
Proof. reflexivity. Qed.

Theorem infer_tree : forall e t lvl d, small lvl d t = true ->
  infer e false (tree_of t) = Some (norm e t).
Proof.
  intros e. apply (small_ind (fun _ _ t => infer e false (tree_of t) = Some (norm e t))); intros lvl d _.
  - intros p. destruct p; reflexivity.
  - intros s. cbn [tree_of infer norm]. rewrite string_value_quoted. reflexivity.
  - intros z Hz. apply andb_true_iff in Hz as [H1 H2]. apply Z.leb_le in H1, H2.
    destruct z as [|p|p]; [reflexivity|apply infer_int_nonneg; [apply Pos2Z.is_nonneg|exact H2]|].
    change (tree_of (TInt (Zneg p))) with (DUnary UNeg (DLitInt (show_Z (Zpos p)))).
    rewrite infer_neg, (infer_int_nonneg e (Zpos p) (Pos2Z.is_nonneg p)) by (unfold I64_MAX in *; lia).
    reflexivity.
  - (* TBool *) reflexivity.
  - intros n Hn. cbn [tree_of infer norm]. apply ref_name_facts in Hn as (_ & -> & _). reflexivity.
  - (* TArray *) intros b IHb. cbn [tree_of infer norm]. rewrite IHb. reflexivity.
  - (* TTableGeneric *)
    intros ps _ _ _ HF. cbn [tree_of infer norm]. replace (text_eqb T"table" T"table") with true by reflexivity.
    rewrite map_map, (sequence_map_some _ _ _ (norm e)); [reflexivity|exact HF].
  - (* TObject *) intros fs _ _ Hkeys _ HF. cbn [tree_of infer norm]. rewrite map_map.
    rewrite (sequence_map_some _ _ _ (fun f : key * ty => Some (fst f, norm e (snd f)))).
    + cbn [option_map]. f_equal. f_equal. f_equal.
      clear. induction fs as [|f r IH]; [reflexivity|]. cbn [map flat_map app]. rewrite IH. reflexivity.
    + rewrite forallb_forall in Hkeys. rewrite Forall_forall in HF |- *. intros [k v] Hf.
      pose proof (HF _ Hf) as Hv. cbv beta. cbn [fst snd] in *. rewrite Hv.
      pose proof (Hkeys k (in_map fst _ _ Hf)) as Hk.
      destruct k as [z|s]; cbn [key_tree].
      * apply andb_true_iff in Hk as [Hz1 Hz2]. apply Z.leb_le in Hz1, Hz2.
        destruct (int_lit_value z Hz1 Hz2) as [-> ->]. reflexivity.
      * destruct (is_plain_field_name s); [reflexivity|]. rewrite string_value_quoted. reflexivity.
  - (* TFun *) intros ps _ HF. cbn [tree_of infer norm]. rewrite map_map.
    rewrite (sequence_map_some _ _ _ (fun p : text * option ty => (fst p, option_map (norm e) (snd p)))); [reflexivity|].
    eapply Forall_impl; [|exact HF]. intros [n [pt|]] [_ Hp]; cbn [fst snd option_map]; [|reflexivity].
    rewrite Hp. reflexivity.
  - (* TUnion *) intros k ms _ Hnn _ _ _ HF.
    assert (Hbase : infer e false (union_chain (map tree_of (non_nil ms)))
                    = Some (mk_union (map (norm e) (non_nil ms)))).
    { pose proof (Forall_non_nil _ _ HF) as HFn.
      destruct (non_nil ms) as [|m r]; [contradiction|].
      inversion HFn as [|? ? Hm Hr]; subst.
      cbn [map union_chain mk_union]. apply infer_chain; assumption. }
    rewrite tree_union, norm_union.
    destruct (existsb is_nil ms); [cbn [infer]; rewrite Hbase; reflexivity|exact Hbase].
Qed.
