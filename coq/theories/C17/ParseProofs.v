(** C17/ParseProofs.v — the doc-type grammar parses the tokens [ptoks t] of a [small] type to [tree_of t]. *)
From EV Require Import C17.Model C17.Spec C17.LexProofs.
From Coq Require Import String Lia.
Local Open Scope nat_scope.

(** what follows a complete type in a rendering *)
Definition closer (t : token) : bool :=
  match t with TkEof | TkRParen | TkComma | TkGt | TkRBrace | TkRBracket => true | _ => false end.

(** the suffix loop stops on it *)
Definition nosuffix (t : token) : bool :=
  negb (is_barrier t) && negb (is_lbracket t) && negb (is_lt t).

(** what follows a union member *)
Definition mfollow (t : token) : bool :=
  match t with TkOr | TkRParen => true | _ => false end.

Lemma closer_facts : forall t, closer t = true ->
  is_barrier t = false /\ is_question t = false /\ is_kw_extends t = false /\ is_colon t = false
  /\ nosuffix t = true /\ to_parse_binary_operator (opkind_of t) = BNone.
Proof. intros t H. destruct t; try discriminate H; repeat split; reflexivity. Qed.

Lemma mfollow_facts : forall t, mfollow t = true -> nosuffix t = true /\ is_colon t = false.
Proof. intros t H. destruct t; try discriminate H; split; reflexivity. Qed.

Lemma suffix_stop : forall f cm oa rest, nosuffix (hd_tk rest) = true ->
  suffix_loop (S f) cm oa rest = Some (cm, rest).
Proof.
  intros f cm oa rest H. unfold nosuffix in H.
  apply andb_true_iff in H as [H H3]. apply andb_true_iff in H as [H1 H2].
  apply negb_true_iff in H1, H2, H3. cbn [suffix_loop]. cbv zeta. rewrite H1, H2, H3. reflexivity.
Qed.

Lemma binary_stop_closer : forall f cm lim rest, closer (hd_tk rest) = true ->
  binary_loop (S f) cm lim rest = Some (cm, rest).
Proof.
  intros f cm lim rest H. apply closer_facts in H as (H1 & _ & _ & _ & _ & H6).
  cbn [binary_loop]. cbv zeta. rewrite H1, H6. reflexivity.
Qed.

Lemma type_stop_closer : forall f cm rest, closer (hd_tk rest) = true ->
  type_loop (S f) cm rest = Some (cm, rest).
Proof.
  intros f cm rest H. apply closer_facts in H as (H1 & H2 & H3 & _).
  cbn [type_loop]. cbv zeta. rewrite H1, H2, H3. reflexivity.
Qed.

(** after a unary minus: every binary operator binds weaker than [UNARY_TYPE_PRIORITY] *)
Lemma binary_stop_unary : forall f cm rest, nosuffix (hd_tk rest) = true ->
  binary_loop (S f) cm UNARY_TYPE_PRIORITY rest = Some (cm, rest).
Proof.
  intros f cm rest H. unfold nosuffix in H. apply andb_true_iff in H as [H _].
  apply andb_true_iff in H as [H _]. apply negb_true_iff in H.
  cbn [binary_loop]. cbv zeta. rewrite H.
  destruct (to_parse_binary_operator (opkind_of (hd_tk rest))); reflexivity.
Qed.

Lemma binary_stop_member : forall f cm rest, mfollow (hd_tk rest) = true ->
  binary_loop (S f) cm (prio_right BUnion) rest = Some (cm, rest).
Proof.
  intros f cm rest H. cbn [binary_loop]. cbv zeta.
  destruct (hd_tk rest); try discriminate H; reflexivity.
Qed.

Lemma binary_q : forall f cm lim rest,
  binary_loop (S f) cm lim (TkQuestion :: rest) = Some (cm, TkQuestion :: rest).
Proof. reflexivity. Qed.

Lemma type_loop_q : forall f cm rest,
  type_loop (S f) cm (TkQuestion :: rest) = type_loop f (DNullable cm) rest.
Proof. reflexivity. Qed.

(** [PF]: the first token; [PS]: [parse_simple_type]; [PU]: [parse_sub_type]; [PT]: [parse_type].  An optional
    [T?] is parsed only by the loop of [parse_type], a negative literal only from [parse_sub_type] up: the lower
    statements ask for [simple_shape]. *)

Definition nullable_union (t : ty) : bool :=
  match t with TUnion _ ms => existsb is_nil ms | _ => false end.

Definition neg_int (t : ty) : bool := match t with TInt (Zneg _) => true | _ => false end.

Definition simple_shape (t : ty) : bool := negb (nullable_union t) && negb (neg_int t).

(** fuel consumed between [parse_simple_type] and the point where the suffix loop reaches the rest *)
Fixpoint soff (t : ty) : nat :=
  match t with
  | TArray b => if array_base_needs_parens b then 2 else S (soff b)
  | TTableGeneric _ => 2
  | _ => 1
  end.

Definition oa_of (t : ty) : bool := match t with TArray _ => true | _ => false end.

(** the first token of a rendering that is not an optional: a type starts here *)
Definition first_ok (ts : list token) : bool :=
  let t := hd_tk ts in
  negb (is_eof t) && negb (is_barrier t) && negb (is_question t)
  && match to_type_unary_operator (opkind_of t) with UNone => true | _ => false end.

Definition PF (t : ty) : Prop := forall rest, simple_shape t = true -> first_ok (ptoks t ++ rest) = true.

(** Fuel: 16 for each token of the type, which is what [parse_fuel] gives, and one for each level of the grammar
    from the function down to [parse_primary_type]. *)
Definition PS (t : ty) : Prop := forall g rest,
  16 * List.length (ptoks t) + 2 <= g -> simple_shape t = true -> is_colon (hd_tk rest) = false ->
  parse_simple_type g (ptoks t ++ rest) = suffix_loop (g - soff t) (tree_of t) (oa_of t) rest.

Definition PU (t : ty) : Prop := forall g lim rest,
  16 * List.length (ptoks t) + 3 <= g -> nullable_union t = false ->
  nosuffix (hd_tk rest) = true -> is_colon (hd_tk rest) = false ->
  parse_sub_type g lim (ptoks t ++ rest) = binary_loop (g - 1) (tree_of t) lim rest.

Definition PT (t : ty) : Prop := forall g rest,
  16 * List.length (ptoks t) + 4 <= g -> closer (hd_tk rest) = true ->
  parse_type g (ptoks t ++ rest) = Some (tree_of t, rest).

Definition Pall (t : ty) : Prop := PF t /\ PS t /\ PU t /\ PT t.

Lemma array_toks_length : forall b, List.length (ptoks b) + 2 <= List.length (ptoks (TArray b)).
Proof.
  intros b. cbn [ptoks].
  destruct (array_base_needs_parens b); cbn [app List.length]; rewrite !app_length; cbn [List.length]; lia.
Qed.

Lemma soff_le : forall t, soff t <= List.length (ptoks t) + 1.
Proof.
  induction t using ty_ind'; try (cbn [soff]; lia).
  - pose proof (array_toks_length t). cbn [soff]. destruct (array_base_needs_parens t); lia.
  - cbn. lia.
Qed.

Lemma first_ok_parts : forall ts, first_ok ts = true ->
  is_eof (hd_tk ts) = false /\ is_barrier (hd_tk ts) = false /\ is_question (hd_tk ts) = false
  /\ to_type_unary_operator (opkind_of (hd_tk ts)) = UNone.
Proof.
  intros ts H. unfold first_ok in H. cbv zeta in H.
  apply andb_true_iff in H as [H H4]. apply andb_true_iff in H as [H H3]. apply andb_true_iff in H as [H1 H2].
  apply negb_true_iff in H1, H2, H3.
  destruct (to_type_unary_operator (opkind_of (hd_tk ts))); try discriminate. auto.
Qed.

Lemma PS_PU : forall t, PF t -> PS t -> simple_shape t = true -> PU t.
Proof.
  intros t HF HS Hsh g lim rest Hg _ Hns Hcol.
  destruct g as [|g1]; [lia|].
  pose proof (first_ok_parts _ (HF rest Hsh)) as (H1 & H2 & _ & H4).
  cbn [parse_sub_type]. cbv zeta. rewrite H1, H2, H4. cbn [orb].
  rewrite HS by (try assumption; lia).
  pose proof (soff_le t).
  destruct (g1 - soff t) as [|k] eqn:E; [lia|].
  rewrite suffix_stop by assumption.
  replace (S g1 - 1) with g1 by lia. reflexivity.
Qed.

Lemma PU_PT : forall t, PU t -> nullable_union t = false -> PT t.
Proof.
  intros t HU Hn g rest Hg Hcl.
  destruct g as [|g1]; [lia|]. cbn [parse_type].
  pose proof (closer_facts _ Hcl) as (_ & _ & _ & Hcol & Hns & _).
  rewrite HU by (try assumption; lia).
  destruct (g1 - 1) as [|k] eqn:E; [lia|].
  rewrite binary_stop_closer by assumption.
  destruct g1 as [|g2]; [lia|]. apply type_stop_closer. assumption.
Qed.

Lemma simple_P : forall t, simple_shape t = true -> PF t -> PS t -> Pall t.
Proof.
  intros t Hsh HF HS. assert (HU : PU t) by (apply PS_PU; assumption).
  repeat split; try assumption. apply PU_PT; [exact HU|].
  apply andb_true_iff in Hsh as [Hsh _]. apply negb_true_iff, Hsh.
Qed.

Lemma leaf_P : forall t tok,
  ptoks t = [tok] -> soff t = 1 -> oa_of t = false -> simple_shape t = true ->
  first_ok [tok] = true ->
  (forall f r, parse_primary_type (S f) (tok :: r) = Some (tree_of t, r)) ->
  Pall t.
Proof.
  intros t tok Hp Hso Hoa Hsh Hf Hprim. apply simple_P; [exact Hsh| |].
  - intros rest _. rewrite Hp. exact Hf.
  - intros g rest Hg _ _. rewrite Hp, Hso, Hoa.
    destruct g as [|g1]; [lia|]. destruct g1 as [|g2]; [lia|].
    cbn [parse_simple_type app]. rewrite Hprim. replace (S (S g2) - 1) with (S g2) by lia. reflexivity.
Qed.

Lemma plain_name_opkind : forall n, is_plain_name n = true -> opkind_of (TkName n) = KOther.
Proof. intros n H. unfold is_plain_name in H. cbn [opkind_of]. destruct (kw n); try discriminate; reflexivity. Qed.

Lemma primary_name : forall f n rest,
  is_plain_name n = true -> mem_text n fun_words = false ->
  parse_primary_type (S f) (TkName n :: rest) = Some (DName n, rest).
Proof.
  intros f n rest Hp Hf. cbn [parse_primary_type hd_tk tl_tk]. cbv zeta.
  unfold is_plain_name in Hp. destruct (kw n); try discriminate.
  unfold mem_text, fun_words in Hf. cbn [existsb] in Hf.
  apply orb_false_iff in Hf as [Hf1 Hf]. apply orb_false_iff in Hf as [Hf2 Hf]. apply orb_false_iff in Hf as [Hf3 _].
  rewrite Hf1, Hf2, Hf3. reflexivity.
Qed.

Lemma primary_fun : forall f r, parse_primary_type (S f) (TkName T"fun" :: r) = parse_fun f r.
Proof. reflexivity. Qed.

Lemma P_prim : forall p, Pall (TPrim p).
Proof.
  intros p. apply (leaf_P _ (TkName (prim_name p))); try reflexivity;
    intros; destruct p; reflexivity.
Qed.

Lemma P_str : forall s, Pall (TStr s).
Proof. intros s. apply (leaf_P _ (TkString (quoted s))); reflexivity. Qed.

Lemma P_bool : forall b, Pall (TBool b).
Proof.
  intros b. apply (leaf_P _ (TkName (if b then T"true" else T"false"))); try reflexivity;
    intros; destruct b; reflexivity.
Qed.

Lemma P_ref : forall n, ref_name_ok n = true -> Pall (TRef n).
Proof.
  intros n Hn. apply ref_name_facts in Hn as (_ & _ & Hp & Hf).
  apply (leaf_P _ (TkName n)); try reflexivity.
  - unfold first_ok. cbn [hd_tk is_eof is_barrier is_question negb andb]. rewrite (plain_name_opkind _ Hp). reflexivity.
  - intros f r. apply primary_name; assumption.
Qed.

Lemma parse_sub_neg : forall f lim ts,
  parse_sub_type (S f) lim (TkMinus :: ts) =
  match parse_sub_type f UNARY_TYPE_PRIORITY ts with
  | Some (d, ts1) => binary_loop f (DUnary UNeg d) lim ts1
  | None => None
  end.
Proof. reflexivity. Qed.

Lemma P_int : forall z, Pall (TInt z).
Proof.
  assert (Hpos : forall z, (0 <= z)%Z -> Pall (TInt z)).
  { intros [|p|p] Hz; [| |lia].
    - apply (leaf_P _ (TkInt (show_Z 0))); reflexivity.
    - apply (leaf_P _ (TkInt (show_Z (Zpos p)))); reflexivity. }
  intros [|p|p]; [apply Hpos; lia|apply Hpos; lia|].
  destruct (Hpos (Zpos p) (Pos2Z.is_nonneg p)) as (_ & _ & HUp & _).
  assert (HU : PU (TInt (Zneg p))).
  { intros g lim rest Hg _ Hns Hcol. cbn [ptoks List.length] in Hg. destruct g as [|g]; [lia|].
    change (ptoks (TInt (Zneg p)) ++ rest) with (TkMinus :: ptoks (TInt (Zpos p)) ++ rest).
    rewrite parse_sub_neg, HUp by (try assumption; try reflexivity; cbn [ptoks List.length]; lia).
    destruct (g - 1) as [|k] eqn:E; [lia|]. rewrite binary_stop_unary by assumption.
    replace (S g - 1) with g by lia. reflexivity. }
  repeat split; [intros rest Hsh; discriminate Hsh|intros g rest _ Hsh; discriminate Hsh|exact HU|].
  apply PU_PT; [exact HU|reflexivity].
Qed.

Lemma sep_by_cons2 : forall (A : Type) (s : list A) x y r, sep_by s (x :: y :: r) = x ++ s ++ sep_by s (y :: r).
Proof. reflexivity. Qed.

Lemma sep_by_cons_app : forall (A B : Type) (f : A -> list B) (s : list B) x r tail,
  sep_by s (map f (x :: r)) ++ tail
  = f x ++ match r with [] => tail | _ :: _ => s ++ sep_by s (map f r) ++ tail end.
Proof. intros A B f s x [|y r] tail; [reflexivity|]. cbn [map]. rewrite sep_by_cons2, <- !app_assoc. reflexivity. Qed.

Lemma sep_by_length : forall (A B : Type) (f : A -> list B) (s : list B) x r,
  List.length (sep_by s (map f (x :: r)))
  = List.length (f x) + match r with [] => 0 | _ :: _ => List.length s + List.length (sep_by s (map f r)) end.
Proof.
  intros A B f s x r. rewrite <- (app_nil_r (sep_by s _)), sep_by_cons_app.
  destruct r; rewrite ?app_nil_r, ?app_length; lia.
Qed.

Lemma type_list_ok : forall ps, ps <> [] -> Forall PT ps -> forall g rest,
  16 * List.length (sep_by [TkComma] (map ptoks ps)) + 5 <= g ->
  parse_type_list g (sep_by [TkComma] (map ptoks ps) ++ TkGt :: rest) = Some (map tree_of ps, TkGt :: rest).
Proof.
  induction ps as [|p r IH]; intros Hne HF g rest Hg; [contradiction|].
  inversion HF as [|? ? Hp Hr]; subst. rewrite sep_by_length in Hg.
  destruct g as [|g']; [lia|]. cbn [parse_type_list]. rewrite sep_by_cons_app.
  destruct r as [|q r']; cbn [map app]; rewrite Hp by (try reflexivity; lia); [reflexivity|].
  cbn [List.length] in Hg. cbn [hd_tk tl_tk is_comma]. rewrite (IH ltac:(discriminate) Hr) by lia. reflexivity.
Qed.

Definition ftoks (f : key * ty) : list token := key_toks (fst f) ++ TkColon :: ptoks (snd f).
Definition ftree (f : key * ty) : (text + dt) * bool * option dt := (key_tree (fst f), false, Some (tree_of (snd f))).

Lemma plain_field_facts : forall s, is_plain_field_name s = true ->
  is_plain_name s = true /\ text_eqb s T"readonly" = false.
Proof.
  intros s H. unfold is_plain_field_name in H. destruct s as [|c r]; [discriminate|].
  apply andb_true_iff in H as [_ H]. apply negb_true_iff in H.
  unfold mem_text, doc_keywords in H. cbn [existsb] in H.
  repeat (apply orb_false_iff in H as [? H]).
  unfold is_plain_name, kw.
  repeat match goal with E : text_eqb _ _ = false |- _ => rewrite E; clear E end.
  split; reflexivity.
Qed.

Lemma field_step : forall f first k v X,
  key_ok k = true -> PT v -> 16 * List.length (TkColon :: ptoks v) + 4 <= f -> closer (hd_tk X) = true ->
  parse_fields (S f) first (ftoks (k, v) ++ X) =
  if is_comma (hd_tk X) then
    if is_rbrace (hd_tk (tl_tk X)) then Some ([ftree (k, v)], tl_tk X)
    else match parse_fields f false (tl_tk X) with
         | Some (fs, r4) => Some (ftree (k, v) :: fs, r4)
         | None => None
         end
  else Some ([ftree (k, v)], X).
Proof.
  intros f first k v X Hk Hv Hf HX. pose proof (closer_facts _ HX) as (Hb & _). cbn [List.length] in Hf.
  unfold ftoks, ftree. cbn [fst snd]. rewrite <- app_assoc.
  destruct k as [z|s]; unfold key_toks; cbn [key_tree].
  - destruct z as [|p|p]; [pose proof (P_int 0) as HT|pose proof (P_int (Zpos p)) as HT|discriminate Hk];
      destruct HT as (_ & _ & _ & HT); specialize (HT f (TkRBracket :: TkColon :: ptoks v ++ X) ltac:(cbn [ptoks List.length]; lia) eq_refl);
      cbn [ptoks tree_of app] in HT; cbn [app parse_fields hd_tk tl_tk]; rewrite HT;
      cbn [hd_tk tl_tk is_rbracket is_question is_barrier is_colon]; rewrite Hv by (try assumption; lia);
      rewrite Hb; reflexivity.
  - destruct (is_plain_field_name s) eqn:E.
    + destruct (plain_field_facts _ E) as [Hp _]. cbn [app parse_fields hd_tk tl_tk]. rewrite Hp, orb_true_r.
      cbn [hd_tk tl_tk is_question is_barrier is_colon]. rewrite Hv by (try assumption; lia). rewrite Hb. reflexivity.
    + destruct (P_str s) as (_ & _ & _ & HT).
      specialize (HT f (TkRBracket :: TkColon :: ptoks v ++ X) ltac:(cbn [ptoks List.length]; lia) eq_refl).
      cbn [ptoks tree_of app] in HT. cbn [app parse_fields hd_tk tl_tk]. rewrite HT.
      cbn [hd_tk tl_tk is_rbracket is_question is_barrier is_colon]. rewrite Hv by (try assumption; lia).
      rewrite Hb. reflexivity.
Qed.

Lemma fields_head : forall fs rest, fs <> [] ->
  let ts := sep_by [TkComma] (map ftoks fs) ++ TkRBrace :: rest in
  is_rbrace (hd_tk ts) = false /\ is_barrier (hd_tk ts) || is_plus_minus (hd_tk ts) = false
  /\ match hd_tk ts with
     | TkName s => text_eqb s T"readonly" = false
     | TkLBracket => mapped_scan (tl_tk ts) = Some false
     | _ => False
     end.
Proof.
  intros [|[k v] r] rest Hne; [contradiction|]. rewrite sep_by_cons_app. unfold ftoks. cbn [fst snd].
  rewrite <- app_assoc. cbv zeta. destruct k as [z|s]; unfold key_toks.
  - repeat split; reflexivity.
  - destruct (is_plain_field_name s) eqn:Es; [|repeat split; reflexivity].
    destruct (plain_field_facts _ Es) as [_ Hr]. repeat split; try reflexivity. exact Hr.
Qed.

Lemma fields_ok : forall fs, fs <> [] -> Forall (fun f => PT (snd f)) fs ->
  forallb key_ok (map fst fs) = true ->
  forall first g rest, 16 * List.length (sep_by [TkComma] (map ftoks fs)) + 5 <= g ->
  parse_fields g first (sep_by [TkComma] (map ftoks fs) ++ TkRBrace :: rest)
  = Some (map ftree fs, TkRBrace :: rest).
Proof.
  induction fs as [|[k v] r IH]; intros Hne HF Hk first g rest Hg; [contradiction|].
  inversion HF as [|? ? Hv Hr]; subst. cbn [snd] in Hv.
  cbn [map forallb fst] in Hk. apply andb_true_iff in Hk as [Hk Hkr].
  rewrite sep_by_length in Hg. unfold ftoks at 1 in Hg. rewrite app_length in Hg. cbn [snd] in Hg.
  destruct g as [|g']; [lia|].
  rewrite sep_by_cons_app, field_step by (try assumption; try lia; destruct r; reflexivity).
  destruct r as [|f2 r']; [reflexivity|]. cbn [List.length] in Hg. cbn [app hd_tk tl_tk is_comma].
  rewrite (proj1 (fields_head (f2 :: r') rest ltac:(discriminate))), IH by (try assumption; try discriminate; lia).
  reflexivity.
Qed.

Definition ptoks_param (p : text * option ty) : list token :=
  TkName (fst p) :: match snd p with Some pt => TkColon :: ptoks pt | None => [] end.
Definition ptree_param (p : text * option ty) : text * bool * option dt :=
  (fst p, false, option_map tree_of (snd p)).

Lemma param_step : forall f n ot X,
  param_name_ok n = true -> match ot with Some pt => PT pt | None => True end ->
  16 * List.length (ptoks_param (n, ot)) <= f -> closer (hd_tk X) = true ->
  parse_params (S f) (ptoks_param (n, ot) ++ X) =
  if is_comma (hd_tk X) then
    match parse_params f (tl_tk X) with
    | Some (ps, r4) => Some (ptree_param (n, ot) :: ps, r4)
    | None => None
    end
  else Some ([ptree_param (n, ot)], X).
Proof.
  intros f n ot X Hn Hot Hf HX. apply andb_true_iff in Hn as [_ Hn].
  pose proof (closer_facts _ HX) as (H1 & H2 & _ & H4 & _).
  unfold ptoks_param, ptree_param in Hf |- *. cbn [fst snd app parse_params hd_tk tl_tk]. rewrite Hn.
  destruct ot as [pt|]; cbn [app hd_tk tl_tk is_question is_barrier is_colon option_map].
  - cbn [snd List.length] in Hf. rewrite Hot by (try assumption; lia). rewrite H1. reflexivity.
  - rewrite H2, H1, H4. reflexivity.
Qed.

Lemma params_ok : forall ps, ps <> [] ->
  Forall (fun p => param_name_ok (fst p) = true /\ match snd p with Some t => PT t | None => True end) ps ->
  forall g rest, 16 * List.length (sep_by [TkComma] (map ptoks_param ps)) + 1 <= g ->
  parse_params g (sep_by [TkComma] (map ptoks_param ps) ++ TkRParen :: rest)
  = Some (map ptree_param ps, TkRParen :: rest).
Proof.
  induction ps as [|[n ot] r IH]; intros Hne HF g rest Hg; [contradiction|].
  inversion HF as [|? ? [Hn Hp] Hr]; subst. cbn [fst snd] in Hn, Hp.
  rewrite sep_by_length in Hg.
  destruct g as [|g']; [lia|]. rewrite sep_by_cons_app.
  rewrite param_step by (try assumption; try lia; destruct r; reflexivity).
  destruct r as [|p2 r']; [reflexivity|]. cbn [List.length] in Hg. cbn [app hd_tk tl_tk is_comma].
  rewrite IH by (try assumption; try discriminate; lia). reflexivity.
Qed.

Lemma params_head : forall ps rest, ps <> [] ->
  is_rparen (hd_tk (sep_by [TkComma] (map ptoks_param ps) ++ TkRParen :: rest)) = false.
Proof. intros [|p r] rest Hne; [contradiction|]. rewrite sep_by_cons_app. reflexivity. Qed.

(** union members inside a parenthesised group *)
Definition member_ok (m : ty) : Prop :=
  PU m /\ nullable_union m = false /\ forall X, is_question (hd_tk (ptoks m ++ X)) = false.

Lemma member_of_Pall : forall m, Pall m -> is_union m = false -> member_ok m.
Proof.
  intros m (HF & _ & HU & _) Hu.
  assert (Hn : nullable_union m = false) by (destruct m; try reflexivity; discriminate Hu).
  split; [exact HU|]. split; [exact Hn|]. intros X. destruct (neg_int m) eqn:E.
  - destruct m; try discriminate E. destruct z; try discriminate E. reflexivity.
  - apply (first_ok_parts (ptoks m ++ X)), HF. unfold simple_shape. rewrite Hn, E. reflexivity.
Qed.

Lemma member_loop_ok : forall ms, Forall member_ok ms ->
  forall acc g rest, 16 * List.length (flat_map (fun m => TkOr :: ptoks m) ms) + 1 <= g ->
  binary_loop g acc 0 (flat_map (fun m => TkOr :: ptoks m) ms ++ TkRParen :: rest)
  = Some (fold_left (fun a x => DBinary BUnion a x) (map tree_of ms) acc, TkRParen :: rest).
Proof.
  induction ms as [|m r IH]; intros HF acc g rest Hg.
  - cbn [flat_map app map fold_left]. destruct g as [|g']; [lia|]. apply binary_stop_closer. reflexivity.
  - inversion HF as [|? ? (HU & Hn & Hq) Hr]; subst.
    cbn [flat_map] in Hg. rewrite app_length in Hg. cbn [List.length] in Hg.
    destruct g as [|g']; [lia|].
    cbn [flat_map map fold_left]. rewrite <- !app_assoc. cbn [app].
    cbn [binary_loop hd_tk tl_tk is_barrier opkind_of to_parse_binary_operator]. cbv zeta.
    change (0 <? prio_left BUnion) with true. cbv iota. rewrite Hq.
    assert (Hmf : mfollow (hd_tk (flat_map (fun m0 => TkOr :: ptoks m0) r ++ TkRParen :: rest)) = true)
      by (destruct r; reflexivity).
    rewrite HU by (try apply mfollow_facts; try assumption; lia).
    destruct (g' - 1) as [|k] eqn:Ek; [lia|].
    rewrite binary_stop_member by exact Hmf.
    apply IH; [assumption|lia].
Qed.

Lemma sep_by_or_flat : forall (m : ty) r,
  sep_by [TkOr] (map ptoks (m :: r)) = ptoks m ++ flat_map (fun x => TkOr :: ptoks x) r.
Proof.
  intros m r. revert m. induction r as [|q r IH]; intros m.
  - cbn [map sep_by flat_map]. rewrite app_nil_r. reflexivity.
  - cbn [map]. rewrite sep_by_cons2. cbn [map] in IH. rewrite IH. reflexivity.
Qed.

Lemma group_ok : forall nn, nn <> [] -> Forall member_ok nn ->
  forall g rest, 16 * List.length (sep_by [TkOr] (map ptoks nn)) + 4 <= g ->
  parse_type g (sep_by [TkOr] (map ptoks nn) ++ TkRParen :: rest)
  = Some (union_chain (map tree_of nn), TkRParen :: rest).
Proof.
  intros [|m r] Hne HF g rest Hg; [contradiction|].
  inversion HF as [|? ? (HU & Hn & _) Hr]; subst.
  rewrite sep_by_or_flat in Hg |- *. rewrite app_length in Hg. rewrite <- app_assoc.
  destruct g as [|g1]; [lia|]. cbn [parse_type].
  assert (Hmf : mfollow (hd_tk (flat_map (fun x => TkOr :: ptoks x) r ++ TkRParen :: rest)) = true)
    by (destruct r; reflexivity).
  rewrite HU by (try apply mfollow_facts; try assumption; lia).
  rewrite member_loop_ok by (try assumption; lia).
  destruct g1 as [|g2]; [lia|]. rewrite type_stop_closer by reflexivity. reflexivity.
Qed.

Lemma no_parens_simple : forall b, array_base_needs_parens b = false -> simple_shape b = true.
Proof.
  intros b E. unfold simple_shape, nullable_union, neg_int. destruct b; try reflexivity.
  - destruct z; try reflexivity. discriminate E.
  - cbn [array_base_needs_parens] in E. rewrite E. reflexivity.
Qed.

Lemma union_parens_plain : forall ms, existsb is_nil ms = false -> 2 <= List.length ms ->
  union_parens (non_nil ms) false = true.
Proof.
  intros ms Hn Hl. rewrite (non_nil_id _ Hn). unfold union_parens.
  rewrite (proj2 (Nat.ltb_lt 1 _)) by exact Hl. reflexivity.
Qed.

Lemma suffix_barrier : forall f cm oa rest, is_barrier (hd_tk rest) = true -> suffix_loop f cm oa rest = None.
Proof. intros [|f] cm oa rest H; [reflexivity|]. cbn [suffix_loop]. cbv zeta. rewrite H. reflexivity. Qed.

Theorem parse_small : forall t lvl d, small lvl d t = true -> Pall t.
Proof.
  apply (small_ind (fun _ _ t => Pall t)); intros lvl d _.
  - apply P_prim.
  - apply P_str.
  - intros z _. apply P_int.
  - apply P_bool.
  - apply P_ref.
  - (* TArray *)
    intros b (HFb & HSb & _ & HTb). apply simple_P; [reflexivity| |].
    + intros rest _. cbn [ptoks]. destruct (array_base_needs_parens b) eqn:E; [reflexivity|].
      rewrite <- app_assoc. apply HFb, no_parens_simple, E.
    + intros g rest Hg _ Hcol. pose proof (array_toks_length b). cbn [ptoks soff tree_of oa_of].
      destruct (array_base_needs_parens b) eqn:E.
      * do 2 (destruct g as [|g]; [lia|]). napp.
        cbn [parse_simple_type parse_primary_type hd_tk tl_tk].
        rewrite HTb by (try reflexivity; lia).
        cbn [hd_tk tl_tk is_rparen]. cbn [suffix_loop hd_tk tl_tk is_barrier is_lbracket is_rbracket]. cbv zeta.
        replace (S (S g) - 2) with g by lia. reflexivity.
      * rewrite <- !app_assoc. rewrite HSb by (try lia; try reflexivity; apply no_parens_simple; exact E).
        pose proof (soff_le b).
        destruct (g - soff b) as [|k] eqn:Ek; [lia|].
        cbn [app suffix_loop hd_tk tl_tk is_barrier is_lbracket is_rbracket]. cbv zeta.
        replace (g - S (soff b)) with k by lia. reflexivity.
  - (* TTableGeneric *)
    intros ps _ Hne _ HF. apply simple_P; [reflexivity|intros rest _; reflexivity|].
    assert (HT : Forall PT ps) by (eapply Forall_impl; [|exact HF]; intros p Hp; apply Hp).
    intros g rest Hg _ Hcol. cbn [ptoks soff tree_of oa_of List.length] in Hg |- *. rewrite app_length in Hg.
    do 2 (destruct g as [|g]; [lia|]). napp.
    cbn [parse_simple_type]. rewrite primary_name by reflexivity.
    cbn [suffix_loop hd_tk tl_tk is_barrier is_lbracket is_lt]. cbv zeta.
    rewrite type_list_ok by (try assumption; lia).
    cbn [hd_tk tl_tk is_gt]. replace (S (S g) - 2) with g by lia. reflexivity.
  - (* TObject *)
    intros fs _ _ Hkeys _ HF. apply simple_P; [reflexivity|intros rest _; reflexivity|].
    assert (HT : Forall (fun f => PT (snd f)) fs) by (eapply Forall_impl; [|exact HF]; intros p Hp; apply Hp).
    intros g rest Hg _ Hcol. cbn [ptoks soff tree_of oa_of List.length] in Hg |- *. fold ftoks ftree in Hg |- *.
    rewrite app_length in Hg.
    do 3 (destruct g as [|g]; [lia|]). napp.
    cbn [parse_simple_type parse_primary_type hd_tk tl_tk].
    replace (S (S (S g)) - 1) with (S (S g)) by lia.
    destruct fs as [|f0 fr]; [reflexivity|].
    destruct (fields_head (f0 :: fr) rest ltac:(discriminate)) as (H1 & H2 & H3).
    cbn [parse_object]. cbv zeta.
    rewrite fields_ok by (try assumption; try discriminate; lia).
    rewrite H1, H2. cbn [hd_tk tl_tk is_rbrace].
    destruct (hd_tk (sep_by [TkComma] (map ftoks (f0 :: fr)) ++ TkRBrace :: rest)); try contradiction;
      rewrite H3; reflexivity.
  - (* TFun *)
    intros ps _ HF. apply simple_P; [reflexivity|intros rest _; reflexivity|].
    assert (HT : Forall (fun p => param_name_ok (fst p) = true
                                  /\ match snd p with Some t => PT t | None => True end) ps).
    { eapply Forall_impl; [|exact HF]. intros [n [pt|]] [Hn Hp]; (split; [exact Hn|]); [apply Hp|exact I]. }
    intros g rest Hg _ Hcol. cbn [ptoks soff tree_of oa_of List.length] in Hg |- *. fold ptoks_param ptree_param in Hg |- *.
    rewrite app_length in Hg.
    do 3 (destruct g as [|g]; [lia|]). napp.
    replace (S (S (S g)) - 1) with (S (S g)) by lia.
    cbn [parse_simple_type].
    rewrite primary_fun.
    cbn [parse_fun hd_tk tl_tk is_lparen]. cbv zeta.
    (* after the [)] [parse_fun] gives up on a [:] (return types are outside the model): [rest] does not start
       with one, and on a barrier both sides fail *)
    assert (Hfin : forall d0,
              match (if is_colon (hd_tk rest) || is_barrier (hd_tk rest) then None else Some (d0, rest)) with
              | Some (cm, ts1) => suffix_loop (S (S g)) cm false ts1
              | None => None
              end = suffix_loop (S (S g)) d0 false rest).
    { intros d0. rewrite Hcol. cbn [orb]. destruct (is_barrier (hd_tk rest)) eqn:Eb; [|reflexivity].
      symmetry. apply suffix_barrier. exact Eb. }
    destruct ps as [|p0 pr]; [apply Hfin|].
    rewrite params_head, params_ok by (try assumption; try discriminate; lia).
    apply Hfin.
  - (* TUnion *)
    intros k ms H2 Hnn _ Hnu _ HF.
    assert (HFm : Forall member_ok (non_nil ms)).
    { apply Forall_non_nil. rewrite Forall_forall in *. intros m Hm.
      apply member_of_Pall; [apply (HF m Hm)|apply (Hnu m Hm)]. }
    destruct (existsb is_nil ms) eqn:Enil.
    + (* optional *)
      assert (Hsh : simple_shape (TUnion k ms) = false)
        by (unfold simple_shape; cbn [nullable_union]; rewrite Enil; reflexivity).
      repeat split; [intros rest|intros g rest _|intros g lim rest _; cbn [nullable_union]|]; try congruence.
      intros g rest Hg Hcl. rewrite ptoks_union, Enil, app_length in Hg. rewrite ptoks_union, tree_union, Enil.
      destruct g as [|g]; [lia|]. cbn [parse_type].
      destruct (union_parens (non_nil ms) true) eqn:Epar in Hg |- *.
      * cbn [List.length] in Hg. rewrite app_length in Hg. do 3 (destruct g as [|g]; [lia|]). napp.
        cbn [parse_sub_type hd_tk tl_tk is_eof is_barrier orb opkind_of to_type_unary_operator]. cbv zeta.
        cbn [parse_simple_type parse_primary_type hd_tk tl_tk].
        rewrite group_ok by (try assumption; lia).
        cbn [hd_tk tl_tk is_rparen]. rewrite suffix_stop by reflexivity.
        rewrite binary_q, type_loop_q.
        apply type_stop_closer. exact Hcl.
      * (* a single member without parentheses *)
        unfold union_parens in Epar. apply orb_false_iff in Epar as [E1 _]. apply Nat.ltb_ge in E1.
        destruct (non_nil ms) as [|m [|m2 r]] eqn:Enn; [contradiction| |cbn in E1; lia].
        inversion HFm as [|? ? (HUm & Hnm & _) _]; subst.
        cbn [map sep_by union_chain fold_left] in Hg |- *. rewrite <- app_assoc. cbn [app].
        rewrite HUm by (try assumption; try reflexivity; lia).
        do 2 (destruct g as [|g]; [lia|]).
        replace (S (S g) - 1) with (S g) by lia.
        rewrite binary_q, type_loop_q.
        apply type_stop_closer. exact Hcl.
    + (* no nil: at least two members, parenthesised *)
      pose proof (union_parens_plain ms Enil H2) as Epar.
      assert (Hsh : simple_shape (TUnion k ms) = true)
        by (unfold simple_shape; cbn [nullable_union neg_int]; rewrite Enil; reflexivity).
      apply simple_P; [exact Hsh|intros rest _; rewrite ptoks_union, Enil, Epar; reflexivity|].
      intros g rest Hg _ Hcol. rewrite ptoks_union, Enil, Epar, app_nil_r in Hg. cbn [List.length] in Hg.
      rewrite app_length in Hg. cbn [soff oa_of]. rewrite ptoks_union, tree_union, Enil, Epar.
      do 2 (destruct g as [|g]; [lia|]). napp.
      cbn [parse_simple_type parse_primary_type hd_tk tl_tk].
      rewrite group_ok by (try assumption; lia).
      cbn [hd_tk tl_tk is_rparen]. replace (S (S g) - 1) with (S g) by lia. reflexivity.
Qed.

Theorem parse_tree_render : forall t lvl d, small lvl d t = true ->
  parse_tree (write_type lvl d t) = Some (tree_of t).
Proof.
  intros t lvl d Hs. unfold parse_tree. rewrite (lex_render t _ _ Hs).
  destruct (parse_small t _ _ Hs) as (_ & _ & _ & HT).
  rewrite <- (app_nil_r (ptoks t)) at 2.
  rewrite HT; [reflexivity| |reflexivity].
  unfold parse_fuel. lia.
Qed.
