(** C17/LexProofs.v — the doc lexer reads a rendered type back as the tokens [ptoks] lists.
    Also what the other proof files share: the induction principles [ty_ind'] and [small_ind], and the
    equations that write the union loops of [ptoks], [tree_of] and [norm] over [non_nil]. *)
From EV Require Import C17.Model C17.Spec.
From Coq Require Import String Lia.
Local Open Scope N_scope.

Section TyInd.
  Variable P : ty -> Prop.
  Hypothesis HPrim : forall p, P (TPrim p).
  Hypothesis HStr : forall s, P (TStr s).
  Hypothesis HInt : forall z, P (TInt z).
  Hypothesis HBool : forall b, P (TBool b).
  Hypothesis HRef : forall n, P (TRef n).
  Hypothesis HTC : P TTableConst.
  Hypothesis HArray : forall b, P b -> P (TArray b).
  Hypothesis HTG : forall ps, Forall P ps -> P (TTableGeneric ps).
  Hypothesis HObj : forall fs, Forall (fun f => P (snd f)) fs -> P (TObject fs).
  Hypothesis HFun : forall ps, Forall (fun p => match snd p with Some t => P t | None => True end) ps -> P (TFun ps).
  Hypothesis HUnion : forall k ms, Forall P ms -> P (TUnion k ms).

  Fixpoint ty_ind' (t : ty) : P t :=
    let all := fix go (l : list ty) : Forall P l :=
                 match l with [] => Forall_nil _ | x :: r => Forall_cons x (ty_ind' x) (go r) end in
    match t with
    | TPrim p => HPrim p
    | TStr s => HStr s
    | TInt z => HInt z
    | TBool b => HBool b
    | TRef n => HRef n
    | TTableConst => HTC
    | TArray b => HArray b (ty_ind' b)
    | TTableGeneric ps => HTG ps (all ps)
    | TObject fs =>
        HObj fs ((fix go (l : list (key * ty)) : Forall (fun f => P (snd f)) l :=
                    match l with
                    | [] => Forall_nil _
                    | (k, v) :: r => Forall_cons (k, v) (ty_ind' v) (go r)
                    end) fs)
    | TFun ps =>
        HFun ps ((fix go (l : list (text * option ty))
                    : Forall (fun p => match snd p with Some t => P t | None => True end) l :=
                    match l with
                    | [] => Forall_nil _
                    | (n, ot) :: r =>
                        Forall_cons (P := fun p => match snd p with Some t => P t | None => True end)
                          (n, ot) (match ot with Some t => ty_ind' t | None => I end) (go r)
                    end) ps)
    | TUnion k ms => HUnion k ms (all ms)
    end.
End TyInd.

Lemma Forall_small : forall (P : level -> nat -> ty -> Prop) lvl d (A : Type) (g : A -> ty) l,
  forallb (fun x => small lvl d (g x)) l = true ->
  Forall (fun x => forall lvl d, small lvl d (g x) = true -> P lvl d (g x)) l ->
  Forall (fun x => P lvl d (g x)) l.
Proof.
  intros P lvl d A g l Hb HF. rewrite forallb_forall in Hb. rewrite Forall_forall in HF |- *.
  intros x Hx. apply HF, Hb; exact Hx.
Qed.

(** Each case gets what [small] says about the constructor, and the statement for the parts (one level
    down, one deeper). *)
Section SmallInd.
  Variable P : level -> nat -> ty -> Prop.
  Hypothesis HPrim : forall lvl d, (d < DEFAULT_MAX_DEPTH)%nat -> forall p, P lvl d (TPrim p).
  Hypothesis HStr : forall lvl d, (d < DEFAULT_MAX_DEPTH)%nat -> forall s, P lvl d (TStr s).
  Hypothesis HInt : forall lvl d, (d < DEFAULT_MAX_DEPTH)%nat -> forall z, int_ok z = true -> P lvl d (TInt z).
  Hypothesis HBool : forall lvl d, (d < DEFAULT_MAX_DEPTH)%nat -> forall b, P lvl d (TBool b).
  Hypothesis HRef : forall lvl d, (d < DEFAULT_MAX_DEPTH)%nat -> forall n, ref_name_ok n = true -> P lvl d (TRef n).
  Hypothesis HArray : forall lvl d, (d < DEFAULT_MAX_DEPTH)%nat -> forall b, P (next_level lvl) (S d) b -> P lvl d (TArray b).
  Hypothesis HTG : forall lvl d, (d < DEFAULT_MAX_DEPTH)%nat -> forall ps,
    is_minimal lvl = false -> ps <> [] -> (List.length ps <= max_items lvl)%nat ->
    Forall (P (next_level lvl) (S d)) ps -> P lvl d (TTableGeneric ps).
  Hypothesis HObj : forall lvl d, (d < DEFAULT_MAX_DEPTH)%nat -> forall fs,
    is_minimal lvl = false -> (List.length fs <= max_items lvl)%nat ->
    forallb key_ok (map fst fs) = true -> keys_sorted (map fst fs) = true ->
    Forall (fun f => P (next_level lvl) (S d) (snd f)) fs -> P lvl d (TObject fs).
  Hypothesis HFun : forall lvl d, (d < DEFAULT_MAX_DEPTH)%nat -> forall ps,
    is_minimal lvl = false ->
    Forall (fun p => param_name_ok (fst p) = true
                     /\ match snd p with Some pt => P (next_level lvl) (S d) pt | None => True end) ps ->
    P lvl d (TFun ps).
  Hypothesis HUnion : forall lvl d, (d < DEFAULT_MAX_DEPTH)%nat -> forall k ms,
    (2 <= List.length ms)%nat -> non_nil ms <> [] -> (List.length (non_nil ms) <= max_union_items lvl)%nat ->
    Forall (fun m => is_union m = false) ms ->
    nodup_text (map (write_type (next_level lvl) (S d)) (non_nil ms)) = true ->
    Forall (P (next_level lvl) (S d)) ms -> P lvl d (TUnion k ms).

  Theorem small_ind : forall t lvl d, small lvl d t = true -> P lvl d t.
  Proof.
    induction t using ty_ind'; intros lvl d Hs; cbn [small] in Hs;
      apply andb_true_iff in Hs as [Hd Hs]; apply Nat.ltb_lt in Hd.
    - apply HPrim, Hd.
    - apply HStr, Hd.
    - apply HInt; assumption.
    - apply HBool, Hd.
    - apply HRef; assumption.
    - (* TTableConst *) discriminate.
    - apply HArray; [exact Hd|apply IHt, Hs].
    - (* TTableGeneric *)
      apply andb_true_iff in Hs as [Hs Hall]. apply andb_true_iff in Hs as [Hs Hlen].
      apply andb_true_iff in Hs as [Hmin Hne].
      apply HTG; [exact Hd|apply negb_true_iff, Hmin| |apply Nat.leb_le, Hlen|].
      + intros ->. discriminate Hne.
      + exact (Forall_small P _ _ _ (fun x => x) ps Hall H).
    - (* TObject *)
      apply andb_true_iff in Hs as [Hs Hall]. apply andb_true_iff in Hs as [Hs Hsorted].
      apply andb_true_iff in Hs as [Hs Hkeys]. apply andb_true_iff in Hs as [Hmin Hlen].
      apply HObj; [exact Hd|apply negb_true_iff, Hmin|apply Nat.leb_le, Hlen|exact Hkeys|exact Hsorted|].
      exact (Forall_small P _ _ _ snd fs Hall H).
    - (* TFun *)
      apply andb_true_iff in Hs as [Hmin Hall].
      apply HFun; [exact Hd|apply negb_true_iff, Hmin|].
      rewrite forallb_forall in Hall. rewrite Forall_forall in H |- *. intros [n ot] Hp.
      specialize (Hall _ Hp). specialize (H _ Hp). cbn [fst snd] in *.
      apply andb_true_iff in Hall as [Hn Hot].
      split; [exact Hn|]. destruct ot as [pt|]; [apply H, Hot|exact I].
    - (* TUnion *)
      apply andb_true_iff in Hs as [Hs Hall]. apply andb_true_iff in Hs as [Hs Hnd].
      apply andb_true_iff in Hs as [Hs Hnu]. apply andb_true_iff in Hs as [Hs Hmax].
      apply andb_true_iff in Hs as [H2 H1].
      apply HUnion; [exact Hd|apply Nat.leb_le, H2| |apply Nat.leb_le, Hmax| |exact Hnd|].
      + intros E. rewrite E in H1. discriminate H1.
      + apply Forall_forall. intros m Hm. apply negb_true_iff, (proj1 (forallb_forall _ _) Hnu m Hm).
      + exact (Forall_small P _ _ _ (fun x => x) ms Hall H).
  Qed.
End SmallInd.

(** a character that ends a name or a number and is itself modelled *)
Definition sepc (c : cp) : bool :=
  negb (name_cont c) && negb (name_link c) && negb (c =? 96) && (c <? 128).

Definition sep (tail : text) : bool := match tail with [] => true | c :: _ => sepc c end.

Lemma class_out : forall (p : cp -> bool) c k, p c = true -> p k = false -> (c =? k) = false.
Proof. intros p c k Hc Hk. destruct (N.eqb_spec c k); [subst; congruence|reflexivity]. Qed.

Lemma name_start_range : forall c, name_start c = true -> 65 <= c <= 90 \/ 97 <= c <= 122 \/ c = 95.
Proof.
  intros c H. unfold name_start, is_alpha in H.
  rewrite !orb_true_iff, !andb_true_iff, !N.leb_le, N.eqb_eq in H. lia.
Qed.

Lemma digit_range : forall c, is_digit c = true <-> 48 <= c <= 57.
Proof. intros c. unfold is_digit. rewrite andb_true_iff, !N.leb_le. reflexivity. Qed.

Lemma name_start_step : forall c nxt, name_start c = true -> start_step c nxt = ([], Some (LName [c])).
Proof.
  intros c nxt H. unfold start_step, is_ws.
  rewrite !(class_out name_start c) by first [exact H|reflexivity].
  assert (Hd : is_digit c = false).
  { apply not_true_is_false. rewrite digit_range. apply name_start_range in H. lia. }
  rewrite Hd, H. reflexivity.
Qed.

Lemma digit_step : forall c nxt, is_digit c = true -> start_step c nxt = ([], Some (LInt [c])).
Proof.
  intros c nxt H. unfold start_step, is_ws.
  rewrite !(class_out is_digit c) by first [exact H|reflexivity]. rewrite H. reflexivity.
Qed.

Lemma digit_name_cont : forall c, is_digit c = true -> name_cont c = true.
Proof. intros c H. unfold name_cont. rewrite H. apply orb_true_r. Qed.

Lemma name_cont_range : forall c, name_cont c = true -> 48 <= c <= 57 \/ 65 <= c <= 90 \/ 97 <= c <= 122 \/ c = 95.
Proof.
  intros c H. unfold name_cont in H. apply orb_true_iff in H as [H|H];
    [apply name_start_range in H|apply digit_range in H]; lia.
Qed.

Lemma name_cont_not_link : forall c, name_cont c = true -> name_link c = false.
Proof.
  intros c H. apply name_cont_range in H. unfold name_link.
  rewrite !orb_false_iff, !N.eqb_neq. lia.
Qed.

Lemma name_cont_ascii : forall c, name_cont c = true -> (c =? 96) || (128 <=? c) = false.
Proof.
  intros c H. apply name_cont_range in H. rewrite orb_false_iff, N.eqb_neq, N.leb_gt. lia.
Qed.

Lemma sepc_facts : forall c, sepc c = true ->
  name_cont c = false /\ name_link c = false /\ (c =? 96) || (128 <=? c) = false /\ is_digit c = false.
Proof.
  intros c H. unfold sepc in H.
  destruct (name_cont c) eqn:E1; [discriminate|].
  destruct (name_link c) eqn:E2; [discriminate|].
  destruct (N.eqb_spec c 96); [discriminate|].
  destruct (N.ltb_spec c 128); [|discriminate].
  repeat split; try reflexivity.
  - destruct (N.leb_spec 128 c); [lia|reflexivity].
  - destruct (is_digit c) eqn:E3; [|reflexivity]. apply digit_name_cont in E3. congruence.
Qed.

Definition reads (s : text) (ts : list token) : Prop :=
  forall tail, sep tail = true -> lex_go LStart (s ++ tail) = ts ++ lex_go LStart tail.

Lemma lex_go_start : forall c r, lex_go LStart (c :: r) =
  match start_step c (hd_error r) with
  | (out, Some st') => out ++ lex_go st' r
  | (out, None) => out ++ [TkBarrier]
  end.
Proof. reflexivity. Qed.

Lemma lex_punct : forall c tok rest,
  (forall nxt, start_step c nxt = ([tok], Some LStart)) ->
  lex_go LStart (c :: rest) = tok :: lex_go LStart rest.
Proof. intros c tok rest H. rewrite lex_go_start, H. reflexivity. Qed.

Lemma lex_space : forall rest, lex_go LStart (32 :: rest) = lex_go LStart rest.
Proof. intros. rewrite lex_go_start. reflexivity. Qed.

Lemma name_tail_of_cont : forall cs, forallb name_cont cs = true -> name_tail_ok cs = true.
Proof.
  induction cs as [|c r IH]; cbn [forallb name_tail_ok]; [reflexivity|].
  intros H. apply andb_true_iff in H as [H1 H2]. rewrite H1. auto.
Qed.

Lemma lex_name_go : forall cs acc tail,
  name_tail_ok cs = true -> sep tail = true ->
  lex_go (LName acc) (cs ++ tail) = TkName (rev acc ++ cs) :: lex_go LStart tail.
Proof.
  induction cs as [|c r IH]; intros acc tail Hok Hsep.
  - cbn [app]. rewrite app_nil_r. destruct tail as [|c r].
    + reflexivity.
    + cbn [sep] in Hsep. apply sepc_facts in Hsep as (H1 & H2 & H3 & _).
      rewrite lex_go_start. cbn [lex_go step]. rewrite H1, H2, H3.
      destruct (start_step c (hd_error r)) as [out [st'|]]; reflexivity.
  - cbn [name_tail_ok] in Hok. cbn [app lex_go step].
    destruct (name_cont c) eqn:E1.
    + rewrite IH by assumption. cbn [rev]. rewrite <- app_assoc. reflexivity.
    + destruct (N.eqb_spec c 46); [|discriminate]. subst c.
      destruct r as [|c2 r2]; [discriminate|].
      apply andb_true_iff in Hok as [Hc2 Hr].
      replace (name_link 46) with true by reflexivity.
      cbn [app hd_error]. rewrite (name_cont_not_link _ Hc2).
      change (c2 :: r2 ++ tail) with ((c2 :: r2) ++ tail).
      rewrite IH by assumption. cbn [rev]. rewrite <- app_assoc. reflexivity.
Qed.

Lemma lex_ident : forall n,
  match n with c :: r => name_start c && name_tail_ok r | [] => false end = true -> reads n [TkName n].
Proof.
  intros [|c cs] H tail Hsep; [discriminate|]. apply andb_true_iff in H as [Hc Hcs].
  cbn [app]. rewrite lex_go_start, (name_start_step _ _ Hc).
  cbn [app]. rewrite lex_name_go by assumption. reflexivity.
Qed.

Lemma lex_int_go : forall cs acc tail,
  forallb is_digit cs = true -> sep tail = true ->
  lex_go (LInt acc) (cs ++ tail) = TkInt (rev acc ++ cs) :: lex_go LStart tail.
Proof.
  induction cs as [|c r IH]; intros acc tail Hok Hsep.
  - cbn [app]. rewrite app_nil_r. destruct tail as [|c r].
    + reflexivity.
    + cbn [sep] in Hsep. apply sepc_facts in Hsep as (_ & _ & _ & H4).
      rewrite lex_go_start. cbn [lex_go step]. rewrite H4.
      destruct (start_step c (hd_error r)) as [out [st'|]]; reflexivity.
  - cbn [forallb] in Hok. apply andb_true_iff in Hok as [Hc Hr].
    cbn [app lex_go step]. rewrite Hc. rewrite IH by assumption.
    cbn [rev]. rewrite <- app_assoc. reflexivity.
Qed.

Lemma lex_int : forall ds, ds <> [] -> forallb is_digit ds = true -> reads ds [TkInt ds].
Proof.
  intros [|c cs] Hne H tail Hsep; [contradiction|]. apply andb_true_iff in H as [Hc Hcs].
  cbn [app]. rewrite lex_go_start, (digit_step _ _ Hc).
  cbn [app]. rewrite lex_int_go by assumption. reflexivity.
Qed.

Lemma lex_minus : forall c rest, is_digit c = true ->
  lex_go LStart (45 :: c :: rest) = TkMinus :: lex_go LStart (c :: rest).
Proof.
  intros c rest H. rewrite lex_go_start. cbn [hd_error].
  assert (E : start_step 45 (Some c) = ([TkMinus], Some LStart)).
  { unfold start_step. cbn.
    destruct (N.eqb_spec c 45); [subst; discriminate H|]. reflexivity. }
  rewrite E. reflexivity.
Qed.

Definition inertc (c : cp) : bool := negb (c =? 34) && negb (c =? 92).

Lemma lex_str_char : forall c acc rest, inertc c = true ->
  lex_go (LStr 34 acc) (c :: rest) = lex_go (LStr 34 (c :: acc)) rest.
Proof.
  intros c acc rest H. apply andb_true_iff in H as [H1 H2]. apply negb_true_iff in H1, H2.
  cbn [lex_go step]. rewrite H1, H2. reflexivity.
Qed.

Lemma hex_digit_inert : forall d, d < 16 -> inertc (hex_digit_char d) = true.
Proof.
  intros d H. unfold inertc, hex_digit_char.
  destruct (N.ltb_spec d 10).
  - destruct (N.eqb_spec (48 + d) 34); [lia|]. destruct (N.eqb_spec (48 + d) 92); [lia|]. reflexivity.
  - destruct (N.eqb_spec (55 + d) 34); [lia|]. destruct (N.eqb_spec (55 + d) 92); [lia|]. reflexivity.
Qed.

Lemma control_lt : forall c, is_control c = true -> c < 160.
Proof.
  intros c H. unfold is_control in H.
  destruct (N.ltb_spec c 32); [lia|]. destruct (N.leb_spec 127 c); destruct (N.ltb_spec c 160);
    cbn in H; try discriminate; lia.
Qed.

(** a backslash hides the character after it; no other escape contains a quote or a backslash *)
Lemma lex_esc_char : forall c nxt acc rest,
  lex_go (LStr 34 acc) (esc_char c nxt ++ rest) = lex_go (LStr 34 (rev (esc_char c nxt) ++ acc)) rest.
Proof.
  intros c nxt acc rest. unfold esc_char.
  destruct (N.eqb_spec c 92); [reflexivity|].
  destruct (N.eqb_spec c 34); [reflexivity|].
  destruct (N.eqb_spec c 10); [reflexivity|].
  destruct (N.eqb_spec c 13); [reflexivity|].
  destruct (N.eqb_spec c 9); [reflexivity|].
  destruct (N.eqb_spec c 27); [destruct nxt as [d|]; [destruct (is_digit d)|]; reflexivity|].
  destruct (is_control c) eqn:Ec.
  - apply control_lt in Ec.
    change (lex_go (LStr 34 acc) ([92; 120; hex_digit_char (c / 16); hex_digit_char (c mod 16)] ++ rest))
      with (lex_go (LStr 34 (120 :: 92 :: acc)) (hex_digit_char (c / 16) :: hex_digit_char (c mod 16) :: rest)).
    rewrite !lex_str_char by (apply hex_digit_inert; first [apply N.div_lt_upper_bound; lia|apply N.mod_lt; lia]).
    reflexivity.
  - apply lex_str_char. unfold inertc. apply N.eqb_neq in n, n0. rewrite n, n0. reflexivity.
Qed.

Lemma lex_str_go : forall s acc tail,
  lex_go (LStr 34 acc) (escape s ++ 34 :: tail)
  = TkString (34 :: rev acc ++ escape s ++ [34]) :: lex_go LStart tail.
Proof.
  induction s as [|c r IH]; intros acc tail.
  - cbn [escape app].
    change (lex_go (LStr 34 acc) (34 :: tail))
      with (TkString (34 :: rev (34 :: acc)) :: lex_go LStart tail).
    reflexivity.
  - cbn [escape]. rewrite <- app_assoc.
    rewrite lex_esc_char.
    rewrite IH. rewrite rev_app_distr, rev_involutive. rewrite <- !app_assoc. reflexivity.
Qed.

Lemma lex_quoted : forall s tail,
  lex_go LStart (quoted s ++ tail) = TkString (quoted s) :: lex_go LStart tail.
Proof.
  intros s tail. unfold quoted. cbn [app]. rewrite lex_go_start.
  replace (start_step 34 (hd_error ((escape s ++ [34]) ++ tail))) with (@nil token, Some (LStr 34 []))
    by reflexivity.
  cbn [app]. rewrite <- app_assoc. cbn [app].
  rewrite lex_str_go. reflexivity.
Qed.

Lemma digit_char_digit : forall d, d < 10 -> is_digit (digit_char d) = true.
Proof.
  intros d H. unfold is_digit, digit_char.
  destruct (N.leb_spec 48 (48 + d)); [|lia]. destruct (N.leb_spec (48 + d) 57); [reflexivity|lia].
Qed.

Lemma dec_aux_digits : forall fuel n acc,
  forallb is_digit acc = true -> forallb is_digit (dec_aux fuel n acc) = true.
Proof.
  induction fuel as [|f IH]; intros n acc H; cbn [dec_aux]; [assumption|].
  destruct (N.ltb_spec n 10).
  - cbn [forallb]. rewrite digit_char_digit by assumption. assumption.
  - apply IH. cbn [forallb]. rewrite digit_char_digit; [assumption|]. apply N.mod_lt. lia.
Qed.

Lemma dec_aux_nonempty : forall fuel n acc, (fuel <> 0)%nat -> dec_aux fuel n acc <> [].
Proof.
  induction fuel as [|f IH]; intros n acc H; [contradiction|]. cbn [dec_aux].
  destruct (n <? 10); [discriminate|].
  destruct f as [|f'].
  - cbn [dec_aux]. discriminate.
  - apply IH. discriminate.
Qed.

Lemma dec_digits : forall n, dec_of_N n <> [] /\ forallb is_digit (dec_of_N n) = true.
Proof.
  intros n. split; [apply dec_aux_nonempty; discriminate|apply dec_aux_digits; reflexivity].
Qed.

Lemma lex_neg : forall ds, ds <> [] -> forallb is_digit ds = true -> reads (45 :: ds) [TkMinus; TkInt ds].
Proof.
  intros ds Hne H tail Hsep. pose proof (lex_int ds Hne H tail Hsep) as E.
  destruct ds as [|c cs]; [contradiction|]. apply andb_true_iff in H as [Hc _].
  cbn [app] in *. rewrite lex_minus, E by exact Hc. reflexivity.
Qed.

Lemma lex_show_Z : forall z, reads (show_Z z) (ptoks (TInt z)).
Proof.
  intros [|p|p].
  - apply (lex_int [48]); [discriminate|reflexivity].
  - apply lex_int; apply dec_digits.
  - apply lex_neg; apply dec_digits.
Qed.

Lemma lex_join : forall (A : Type) (f : A -> text) (g : A -> list token) (st : text) (sk : list token) xs,
  (forall rest, lex_go LStart (st ++ rest) = sk ++ lex_go LStart rest) ->
  (forall rest, sep (st ++ rest) = true) ->
  Forall (fun x => reads (f x) (g x)) xs ->
  reads (join st (map f xs)) (sep_by sk (map g xs)).
Proof.
  intros A f g st sk xs Hst Hsep HF tail Htail.
  induction HF as [|x r Hx Hr IH]; [reflexivity|].
  destruct r as [|y r'].
  - cbn [map join sep_by]. apply Hx. assumption.
  - change (join st (map f (x :: y :: r'))) with (f x ++ st ++ join st (map f (y :: r'))).
    change (sep_by sk (map g (x :: y :: r'))) with (g x ++ sk ++ sep_by sk (map g (y :: r'))).
    rewrite <- !app_assoc. rewrite Hx by apply Hsep. rewrite Hst, IH. reflexivity.
Qed.

Lemma text_eqb_refl : forall s, text_eqb s s = true.
Proof. induction s as [|c r IH]; [reflexivity|]. cbn [text_eqb]. rewrite N.eqb_refl, IH. reflexivity. Qed.

Lemma text_eqb_sound : forall a b, text_eqb a b = true -> a = b.
Proof.
  induction a as [|x a IH]; intros [|y b] H; cbn [text_eqb] in H; try discriminate; [reflexivity|].
  apply andb_true_iff in H as [H1 H2]. apply N.eqb_eq in H1. subst. f_equal. apply IH. exact H2.
Qed.

Lemma dedup_text_nodup : forall l seen,
  nodup_text l = true -> (forall x, In x l -> mem_text x seen = false) -> dedup_text seen l = l.
Proof.
  induction l as [|x r IH]; intros seen Hnd Hseen; [reflexivity|].
  cbn [nodup_text] in Hnd. apply andb_true_iff in Hnd as [Hx Hr]. apply negb_true_iff in Hx.
  cbn [dedup_text]. rewrite (Hseen x (or_introl eq_refl)). f_equal.
  apply IH; [assumption|]. intros y Hy.
  change (mem_text y (x :: seen)) with (text_eqb y x || mem_text y seen).
  rewrite (Hseen y (or_intror Hy)), orb_false_r.
  destruct (text_eqb y x) eqn:E; [|reflexivity]. apply text_eqb_sound in E. subst y.
  assert (mem_text x r = true); [|congruence].
  apply existsb_exists. exists x. split; [assumption|apply text_eqb_refl].
Qed.

Lemma insert_field_sorted : forall (A : Type) (k : key) (v : A) (l : list (key * A)),
  match l with [] => True | g :: _ => key_ltb k (fst g) = true end ->
  insert_field (k, v) l = (k, v) :: l.
Proof. intros A k v [|g r] H; [reflexivity|]. cbn [insert_field fst]. rewrite H. reflexivity. Qed.

Lemma sort_fields_sorted : forall (A : Type) (l : list (key * A)),
  keys_sorted (map fst l) = true -> sort_fields l = l.
Proof.
  induction l as [|[k v] r IH]; intros H; [reflexivity|].
  cbn [map keys_sorted fst] in H. apply andb_true_iff in H as [H1 H2].
  unfold sort_fields in *. cbn [fold_right]. rewrite IH by assumption.
  apply insert_field_sorted. destruct r as [|g r']; [exact I|]. exact H1.
Qed.

(** the renderer, the token printer, the expected tree and the normal form all skip the [nil] members of a
    union with a loop of this shape *)
Lemma go_map_eq : forall (B : Type) (f : ty -> B) l,
  (fix go (l : list ty) : list B :=
     match l with [] => [] | m :: r => if is_nil m then go r else f m :: go r end) l
  = map f (non_nil l).
Proof.
  intros B f l. unfold non_nil. induction l as [|m r IH]; [reflexivity|].
  cbn [filter]. destruct (is_nil m); cbn [negb map]; rewrite IH; reflexivity.
Qed.

Lemma go_texts_eq : forall (f : ty -> text) l,
  (fix go (l : list ty) : list text :=
     match l with [] => [] | m :: r => if is_nil m then go r else f m :: go r end) l
  = map f (non_nil l).
Proof. intros f l. apply go_map_eq. Qed.

Lemma ptoks_union : forall k ms,
  ptoks (TUnion k ms) =
  (if union_parens (non_nil ms) (existsb is_nil ms)
   then TkLParen :: sep_by [TkOr] (map ptoks (non_nil ms)) ++ [TkRParen]
   else sep_by [TkOr] (map ptoks (non_nil ms)))
  ++ (if existsb is_nil ms then [TkQuestion] else []).
Proof. intros. cbn [ptoks]. rewrite go_map_eq. reflexivity. Qed.

Lemma tree_union : forall k ms,
  tree_of (TUnion k ms) =
  if existsb is_nil ms then DNullable (union_chain (map tree_of (non_nil ms)))
  else union_chain (map tree_of (non_nil ms)).
Proof. intros. cbn [tree_of]. rewrite go_map_eq. reflexivity. Qed.

Lemma norm_union : forall e k ms,
  norm e (TUnion k ms) =
  if existsb is_nil ms then mk_nullable e (mk_union (map (norm e) (non_nil ms)))
  else mk_union (map (norm e) (non_nil ms)).
Proof. intros. cbn [norm]. rewrite go_map_eq. reflexivity. Qed.

Lemma Forall_non_nil : forall (Q : ty -> Prop) ms, Forall Q ms -> Forall Q (non_nil ms).
Proof. intros Q ms. apply incl_Forall, incl_filter. Qed.

Lemma non_nil_id : forall ms, existsb is_nil ms = false -> non_nil ms = ms.
Proof.
  unfold non_nil. induction ms as [|m r IH]; intros H; [reflexivity|].
  cbn [existsb] in H. apply orb_false_iff in H as [Hm Hr]. cbn [filter]. rewrite Hm. cbn [negb].
  f_equal. apply IH. exact Hr.
Qed.

Lemma lx_lparen : forall rest, lex_go LStart (40 :: rest) = TkLParen :: lex_go LStart rest.
Proof. intros. apply lex_punct; reflexivity. Qed.
Lemma lx_rparen : forall rest, lex_go LStart (41 :: rest) = TkRParen :: lex_go LStart rest.
Proof. intros. apply lex_punct; reflexivity. Qed.
Lemma lx_lbracket : forall rest, lex_go LStart (91 :: rest) = TkLBracket :: lex_go LStart rest.
Proof. intros. apply lex_punct; reflexivity. Qed.
Lemma lx_rbracket : forall rest, lex_go LStart (93 :: rest) = TkRBracket :: lex_go LStart rest.
Proof. intros. apply lex_punct; reflexivity. Qed.
Lemma lx_lbrace : forall rest, lex_go LStart (123 :: rest) = TkLBrace :: lex_go LStart rest.
Proof. intros. apply lex_punct; reflexivity. Qed.
Lemma lx_rbrace : forall rest, lex_go LStart (125 :: rest) = TkRBrace :: lex_go LStart rest.
Proof. intros. apply lex_punct; reflexivity. Qed.
Lemma lx_lt : forall rest, lex_go LStart (60 :: rest) = TkLt :: lex_go LStart rest.
Proof. intros. apply lex_punct; reflexivity. Qed.
Lemma lx_gt : forall rest, lex_go LStart (62 :: rest) = TkGt :: lex_go LStart rest.
Proof. intros. apply lex_punct; reflexivity. Qed.
Lemma lx_or : forall rest, lex_go LStart (124 :: rest) = TkOr :: lex_go LStart rest.
Proof. intros. apply lex_punct; reflexivity. Qed.
Lemma lx_question : forall rest, lex_go LStart (63 :: rest) = TkQuestion :: lex_go LStart rest.
Proof. intros. apply lex_punct; reflexivity. Qed.
Lemma lx_comma : forall rest, lex_go LStart (44 :: rest) = TkComma :: lex_go LStart rest.
Proof. intros. apply lex_punct; reflexivity. Qed.
Lemma lx_colon : forall rest, lex_go LStart (58 :: rest) = TkColon :: lex_go LStart rest.
Proof. intros. apply lex_punct; reflexivity. Qed.

Ltac napp := repeat (first [rewrite <- app_assoc | progress cbn [app]]).

Lemma lex_simple_name : forall n,
  match n with c :: r => name_start c && forallb name_cont r | [] => false end = true -> reads n [TkName n].
Proof.
  intros [|c r] H; [discriminate|]. apply lex_ident. apply andb_true_iff in H as [H1 H2].
  rewrite H1. apply name_tail_of_cont, H2.
Qed.

Lemma lex_render_key : forall k tail, key_ok k = true ->
  lex_go LStart (render_key k ++ tail) = key_toks k ++ TkColon :: lex_go LStart tail.
Proof.
  intros [z|s] tail Hk; unfold render_key, key_toks.
  - pose proof (lex_show_Z z) as Hz. destruct z as [|p|p]; [| |discriminate Hk].
    all: napp; rewrite lx_lbracket, Hz by reflexivity; napp; rewrite lx_rbracket, lx_colon, lex_space; reflexivity.
  - destruct (is_plain_field_name s) eqn:E; napp.
    + rewrite lex_simple_name by first [reflexivity|destruct s; [discriminate E|apply andb_true_iff in E; apply E]].
      napp. rewrite lx_colon, lex_space. reflexivity.
    + rewrite lx_lbracket, lex_quoted. napp. rewrite lx_rbracket, lx_colon, lex_space. reflexivity.
Qed.

Lemma ref_name_facts : forall n, ref_name_ok n = true ->
  match n with c :: r => name_start c && name_tail_ok r | [] => false end = true
  /\ builtin_of_name n = None /\ is_plain_name n = true /\ mem_text n fun_words = false.
Proof.
  intros n H. unfold ref_name_ok in H. apply andb_true_iff in H as [H H4]. apply andb_true_iff in H as [H H3].
  apply andb_true_iff in H as [H1 H2]. apply negb_true_iff in H4.
  destruct (builtin_of_name n); [discriminate H2|]. auto.
Qed.

Lemma lex_write : forall t lvl d, small lvl d t = true -> reads (write_type lvl d t) (ptoks t).
Proof.
  apply (small_ind (fun lvl d t => reads (write_type lvl d t) (ptoks t))); intros lvl d Hd;
    apply Nat.leb_gt in Hd.
  - (* TPrim *) intros p. cbn [write_type]. rewrite Hd. destruct p; apply lex_ident; reflexivity.
  - (* TStr *) intros s tail _. cbn [write_type]. rewrite Hd. apply lex_quoted.
  - (* TInt *) intros z _. cbn [write_type]. rewrite Hd. apply lex_show_Z.
  - (* TBool *) intros b. cbn [write_type]. rewrite Hd. destruct b; apply lex_ident; reflexivity.
  - (* TRef *) intros n Hn. cbn [write_type]. rewrite Hd. apply lex_ident, ref_name_facts, Hn.
  - (* TArray *) intros b IHb tail Hsep. cbn [write_type ptoks]. rewrite Hd.
    destruct (array_base_needs_parens b); napp; rewrite ?lx_lparen, IHb by reflexivity;
      rewrite ?lx_rparen, lx_lbracket, lx_rbracket; reflexivity.
  - (* TTableGeneric *)
    intros ps Hmin _ Hlen HF tail Hsep. cbn [write_type ptoks]. unfold is_minimal in Hmin.
    rewrite Hd, Hmin, firstn_all2, (proj2 (Nat.ltb_ge _ _) Hlen) by (rewrite map_length; exact Hlen).
    change T"table<" with (T"table" ++ T"<"). rewrite <- !app_assoc.
    rewrite (lex_ident T"table") by reflexivity. napp. rewrite lx_lt.
    erewrite lex_join.
    + rewrite lx_gt. reflexivity.
    + apply lx_comma.
    + reflexivity.
    + exact HF.
    + reflexivity.
  - (* TObject *)
    intros fs Hmin Hlen Hkeys Hsorted HF tail Hsep. cbn [write_type ptoks]. unfold is_minimal in Hmin.
    rewrite Hd, Hmin, sort_fields_sorted, firstn_all2, (proj2 (Nat.ltb_ge _ _) Hlen), map_map
      by (rewrite ?map_length, ?map_map; assumption).
    cbn [fst snd]. napp. rewrite lx_lbrace, lex_space.
    erewrite lex_join.
    + rewrite lex_space, lx_rbrace. reflexivity.
    + intros rest. napp. rewrite lx_comma, lex_space. reflexivity.
    + reflexivity.
    + rewrite forallb_forall in Hkeys. rewrite Forall_forall in HF |- *. intros x Hx tail' Ht'.
      rewrite <- app_assoc, lex_render_key, (HF x Hx) by first [assumption|apply Hkeys, in_map, Hx].
      napp. reflexivity.
    + reflexivity.
  - (* TFun *)
    intros ps Hmin HF tail Hsep. cbn [write_type ptoks]. unfold is_minimal in Hmin. rewrite Hd, Hmin.
    change T"fun(" with (T"fun" ++ T"("). rewrite <- !app_assoc.
    rewrite (lex_ident T"fun") by reflexivity. napp. rewrite lx_lparen.
    erewrite lex_join.
    + rewrite lx_rparen. reflexivity.
    + intros rest. napp. rewrite lx_comma, lex_space. reflexivity.
    + reflexivity.
    + eapply Forall_impl; [|exact HF]. intros [n ot] [Hn Hot] tail' Ht'. cbn [fst snd] in *.
      apply andb_true_iff in Hn as [Hn _]. destruct ot as [pt|]; napp;
        rewrite (lex_simple_name n Hn) by first [reflexivity|exact Ht']; [|reflexivity].
      napp. rewrite lx_colon, lex_space, Hot by exact Ht'. reflexivity.
    + reflexivity.
  - (* TUnion *)
    intros k ms _ _ Hlen _ Hnd HF tail Hsep.
    assert (Hmem : reads (join T"|" (map (write_type (next_level lvl) (S d)) (non_nil ms)))
                         (sep_by [TkOr] (map ptoks (non_nil ms)))).
    { apply lex_join; [apply lx_or|reflexivity|].
      apply Forall_non_nil, HF. }
    cbn [write_type]. rewrite Hd, go_map_eq, ptoks_union. fold (non_nil ms).
    rewrite dedup_text_nodup, map_length, firstn_all2, (proj2 (Nat.ltb_ge _ _) Hlen)
      by first [exact Hnd|reflexivity|rewrite map_length; exact Hlen].
    unfold union_parens. set (par := (_ || _)%bool). clearbody par.
    destruct par, (existsb is_nil ms); napp; rewrite ?lx_lparen, Hmem by first [reflexivity|exact Hsep];
      rewrite ?lx_rparen, ?lx_question; reflexivity.
Qed.

Theorem lex_render : forall t lvl d, small lvl d t = true -> lex (write_type lvl d t) = ptoks t.
Proof.
  intros t lvl d H. unfold lex.
  rewrite <- (app_nil_r (write_type lvl d t)), (lex_write t _ _ H) by reflexivity.
  apply app_nil_r.
Qed.
