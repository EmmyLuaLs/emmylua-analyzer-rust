(** C17/SameProofs.v — the union normal form of an annotation-form type outside the two recorded classes is
    the type itself, modulo the order of union members. *)
From EV Require Import C17.Model C17.Spec C17.LexProofs.
From Coq Require Import String Lia Permutation.
Local Open Scope N_scope.

Lemma prim_eqb_refl : forall p, prim_eqb p p = true.
Proof. destruct p; reflexivity. Qed.

Lemma prim_eqb_sound : forall p q, prim_eqb p q = true -> p = q.
Proof. intros p q H. destruct p; destruct q; try reflexivity; discriminate H. Qed.

Lemma key_eqb_refl : forall k, key_eqb k k = true.
Proof. destruct k; cbn [key_eqb]; [apply Z.eqb_refl|apply text_eqb_refl]. Qed.

Lemma key_eqb_sound : forall a b, key_eqb a b = true -> a = b.
Proof.
  intros [x|x] [y|y] H; cbn [key_eqb] in H; try discriminate.
  - apply Z.eqb_eq in H. subst. reflexivity.
  - apply text_eqb_sound in H. subst. reflexivity.
Qed.

Lemma ty_eqb_refl : forall t, ty_eqb t t = true.
Proof.
  induction t using ty_ind'; cbn [ty_eqb].
  - apply prim_eqb_refl.
  - (* TStr *) apply text_eqb_refl.
  - apply Z.eqb_refl.
  - destruct b; reflexivity.
  - (* TRef *) apply text_eqb_refl.
  - (* TTableConst *) reflexivity.
  - exact IHt.
  - (* TTableGeneric *) induction H as [|x r Hx Hr IH]; [reflexivity|]. rewrite Hx, IH. reflexivity.
  - (* TObject *)
    induction H as [|[k x] r Hx Hr IH]; [reflexivity|]. cbn [snd] in Hx. rewrite key_eqb_refl, Hx, IH. reflexivity.
  - (* TFun *)
    induction H as [|[n [x|]] r Hx Hr IH]; [reflexivity| |]; cbn [snd] in Hx; rewrite text_eqb_refl, ?Hx, IH; reflexivity.
  - (* TUnion *) destruct k; cbn [andb]; induction H as [|x r Hx Hr IH]; try reflexivity; rewrite Hx, IH; reflexivity.
Qed.

Lemma ty_eqb_sound : forall a b, ty_eqb a b = true -> a = b.
Proof.
  induction a using ty_ind'; intros b0 E; destruct b0; cbn [ty_eqb] in E; try discriminate E.
  - apply prim_eqb_sound in E. subst. reflexivity.
  - (* TStr *) apply text_eqb_sound in E. subst. reflexivity.
  - apply Z.eqb_eq in E. subst. reflexivity.
  - apply Bool.eqb_prop in E. subst. reflexivity.
  - (* TRef *) apply text_eqb_sound in E. subst. reflexivity.
  - (* TTableConst *) reflexivity.
  - f_equal. apply IHa. exact E.
  - (* TTableGeneric *)
    f_equal. revert ps0 E. induction H as [|x r Hx Hr IH]; intros [|y ys] E; try discriminate E; [reflexivity|].
    apply andb_true_iff in E as [E1 E2]. f_equal; [apply Hx; exact E1|apply IH; exact E2].
  - (* TObject *)
    f_equal. revert fs0 E. induction H as [|[k x] r Hx Hr IH]; intros [|[k' y] ys] E; try discriminate E; [reflexivity|].
    apply andb_true_iff in E as [E E3]. apply andb_true_iff in E as [E1 E2]. cbn [snd] in Hx.
    apply key_eqb_sound in E1. subst. f_equal; [f_equal; apply Hx; exact E2|apply IH; exact E3].
  - (* TFun *)
    f_equal. revert ps0 E. induction H as [|[n ox] r Hx Hr IH]; intros [|[n' oy] ys] E; try discriminate E; [reflexivity|].
    apply andb_true_iff in E as [E E3]. apply andb_true_iff in E as [E1 E2]. cbn [snd] in Hx.
    apply text_eqb_sound in E1. subst.
    f_equal; [|apply IH; exact E3].
    destruct ox as [x|]; destruct oy as [y|]; try discriminate E2; [|reflexivity].
    f_equal. f_equal. apply Hx. exact E2.
  - (* TUnion *)
    apply andb_true_iff in E as [E1 E2].
    assert (k = k0) by (destruct k; destruct k0; try reflexivity; discriminate E1). subst. f_equal.
    revert ms0 E2. induction H as [|x r Hx Hr IH]; intros [|y ys] E; try discriminate E; [reflexivity|].
    apply andb_true_iff in E as [E1' E2']. f_equal; [apply Hx; exact E1'|apply IH; exact E2'].
Qed.

Lemma mem_ty_In : forall x l, mem_ty x l = true <-> In x l.
Proof.
  intros x l. unfold mem_ty. rewrite existsb_exists. split.
  - intros [y [Hy E]]. apply ty_eqb_sound in E. subst. exact Hy.
  - intros H. exists x. split; [exact H|apply ty_eqb_refl].
Qed.

Lemma nodup_ty_NoDup : forall l, nodup_ty l = true -> NoDup l.
Proof.
  induction l as [|x r IH]; intros H; [constructor|]. cbn [nodup_ty] in H.
  apply andb_true_iff in H as [H1 H2]. apply negb_true_iff in H1. constructor; [|apply IH; exact H2].
  intros Hin. apply mem_ty_In in Hin. congruence.
Qed.

Definition nonunion (l : list ty) : Prop := forall x, In x l -> is_union x = false.

(** the members of a union the reader builds *)
Definition members_ok (l : list ty) : Prop := NoDup l /\ nonunion l /\ (2 <= List.length l)%nat.

Lemma members_ok_perm : forall a b, Permutation a b -> members_ok a -> members_ok b.
Proof.
  intros a b H (Hnd & Hnu & Hl). split; [apply (Permutation_NoDup H Hnd)|]. split.
  - intros x Hx. apply Hnu, (Permutation_in _ (Permutation_sym H)), Hx.
  - rewrite <- (Permutation_length H). exact Hl.
Qed.

Lemma NoDup_app_l : forall (A : Type) (a b : list A), NoDup (a ++ b) -> NoDup a.
Proof.
  induction a as [|x a IH]; intros b H; [constructor|]. cbn [app] in H. inversion H as [|? ? Hx Hr]; subst.
  constructor; [|apply (IH b); exact Hr]. intros Hin. apply Hx. apply in_or_app. left. exact Hin.
Qed.

Lemma members_ok_app_l : forall a b, members_ok (a ++ b) -> (2 <= List.length a)%nat -> members_ok a.
Proof.
  intros a b (Hnd & Hnu & _) Hl. split; [exact (NoDup_app_l _ _ _ Hnd)|]. split; [|exact Hl].
  intros x Hx. apply Hnu, in_or_app. left. exact Hx.
Qed.

Lemma members_ok_nil : forall l, NoDup l -> nonunion l -> (1 <= List.length l)%nat -> ~ In (TPrim PNil) l ->
  members_ok (l ++ [TPrim PNil]).
Proof.
  intros l Hnd Hnu Hl Hnil. apply (members_ok_perm _ _ (Permutation_cons_append l (TPrim PNil))).
  split; [constructor; assumption|]. split; [|cbn; lia].
  intros x [<-|Hx]; [reflexivity|apply Hnu, Hx].
Qed.

Lemma flatten_nonunion : forall l, nonunion l -> flatten_unions l = l.
Proof.
  induction l as [|x r IH]; intros H; [reflexivity|]. unfold flatten_unions in *. cbn [flat_map].
  assert (Hx : is_union x = false) by (apply H; left; reflexivity).
  destruct x; try discriminate Hx; cbn [app]; f_equal; apply IH; intros y Hy; apply H; right; exact Hy.
Qed.

Lemma mem_ty_notin : forall x l, ~ In x l -> mem_ty x l = false.
Proof. intros x l H. destruct (mem_ty x l) eqn:E; [|reflexivity]. apply mem_ty_In in E. contradiction. Qed.

Lemma dedup_nodup : forall l seen, NoDup l -> (forall x, In x l -> ~ In x seen) ->
  dedup_hash seen l = l /\ dedup_eq seen l = l.
Proof.
  induction l as [|x r IH]; intros seen Hnd Hs; [split; reflexivity|]. inversion Hnd as [|? ? Hx Hr]; subst.
  cbn [dedup_hash dedup_eq]. rewrite mem_ty_notin, andb_false_r by (apply Hs; left; reflexivity).
  destruct (IH (x :: seen) Hr) as [-> ->]; [|split; reflexivity].
  intros y Hy [Hin|Hin]; [subst; contradiction|]. apply (Hs y); [right; exact Hy|exact Hin].
Qed.

Lemma from_vec_distinct : forall l, members_ok l -> from_vec l = union_from_vec l.
Proof.
  intros l (Hnd & Hnu & Hlen). destruct l as [|x [|y r]]; [cbn in Hlen; lia|cbn in Hlen; lia|].
  unfold from_vec. rewrite flatten_nonunion by exact Hnu.
  rewrite (proj1 (dedup_nodup _ [] Hnd (fun _ _ H => H))). reflexivity.
Qed.

Lemma all_prim_perm : forall a b, Permutation a b -> all_prim a = all_prim b.
Proof.
  intros a b H. unfold all_prim. induction H as [|x l l' H IH|x y l|l l' l'' H1 IH1 H2 IH2]; cbn [forallb]; try congruence.
  - destruct (match y with TPrim _ => true | _ => false end); destruct (match x with TPrim _ => true | _ => false end); reflexivity.
Qed.

Lemma existsb_perm : forall (f : ty -> bool) a b, Permutation a b -> existsb f a = existsb f b.
Proof.
  intros f a b H. induction H as [|x l l' H IH|x y l|l l' l'' H1 IH1 H2 IH2]; cbn [existsb]; try congruence.
  - destruct (f y); destruct (f x); reflexivity.
Qed.

Lemma kind_of_perm : forall a b, Permutation a b -> kind_of a = kind_of b.
Proof.
  intros a b H. unfold kind_of. rewrite (all_prim_perm _ _ H), (Permutation_length H), (existsb_perm _ _ _ H). reflexivity.
Qed.

Lemma is_nil_eq : forall t, is_nil t = true -> t = TPrim PNil.
Proof. intros t H. destruct t; try discriminate H. destruct p; try discriminate H. reflexivity. Qed.

Lemma has_prim_In : forall p l, has_prim p l = true <-> In (TPrim p) l.
Proof.
  intros p l. unfold has_prim. rewrite existsb_exists. split.
  - intros [t [Ht E]]. destruct t; try discriminate E. apply prim_eqb_sound in E. subst. exact Ht.
  - intros H. exists (TPrim p). split; [exact H|apply prim_eqb_refl].
Qed.

Lemma all_prims_nodup : NoDup all_prims.
Proof.
  unfold all_prims. repeat (constructor; [cbn [In]; intros H; repeat (destruct H as [H|H]; [discriminate H|]); exact H|]).
  constructor.
Qed.

Lemma all_prims_complete : forall p, In p all_prims.
Proof. destruct p; cbn; tauto. Qed.

(** [t] is the union of the members [l] in some order, with the variant [LuaUnionType::from_vec] gives them *)
Definition union_of (t : ty) (l : list ty) : Prop :=
  exists L, t = TUnion (kind_of L) L /\ Permutation L l.

Lemma union_of_perm : forall t a b, union_of t a -> Permutation a b -> union_of t b.
Proof. intros t a b [L [E P]] H. exists L. split; [exact E|exact (Permutation_trans P H)]. Qed.

(** [LuaUnionType::from_vec] / [into_vec]: the variant only depends on the members, and the members are kept *)
Lemma union_from_vec_of : forall l, NoDup l -> union_of (union_from_vec l) l.
Proof.
  intros l Hnd.
  assert (H : exists l', union_from_vec l = TUnion (kind_of l) l' /\ Permutation l' l).
  { unfold union_from_vec, kind_of. destruct (all_prim l) eqn:Eap.
    - (* only primitives: they are listed again in the order of [all_prims] *)
      eexists. split; [reflexivity|]. apply NoDup_Permutation.
      + apply FinFun.Injective_map_NoDup; [intros a b E; injection E; auto|].
        apply NoDup_filter. exact all_prims_nodup.
      + exact Hnd.
      + intros x. rewrite in_map_iff. split.
        * intros [p [<- Hp]]. apply filter_In in Hp as [_ Hp]. apply has_prim_In. exact Hp.
        * intros Hx. unfold all_prim in Eap. rewrite forallb_forall in Eap. specialize (Eap x Hx).
          destruct x; try discriminate Eap. exists p. split; [reflexivity|]. apply filter_In.
          split; [apply all_prims_complete|apply has_prim_In; exact Hx].
    - (* only a pair with [nil] in it is rearranged *)
      destruct l as [|a [|b [|c r]]]; try (eexists; split; [reflexivity|apply Permutation_refl]).
      cbn [List.length Nat.eqb existsb]. rewrite orb_false_r.
      destruct (is_nil a) eqn:Ea; [|destruct (is_nil b) eqn:Eb]; cbn [orb andb]; eexists; (split; [reflexivity|]).
      + apply is_nil_eq in Ea. subst. apply perm_swap.
      + apply is_nil_eq in Eb. subst. apply Permutation_refl.
      + apply Permutation_refl. }
  destruct H as [l' [E P]]. exists l'. split; [|exact P]. rewrite E, (kind_of_perm _ _ P). reflexivity.
Qed.

Lemma from_vec_members : forall l, members_ok l -> union_of (from_vec l) l.
Proof. intros l H. rewrite from_vec_distinct by exact H. apply union_from_vec_of, H. Qed.

Lemma binary_union_members : forall t L x, union_of t L -> members_ok (L ++ [x]) ->
  union_of (binary_union t x) (L ++ [x]).
Proof.
  intros t L x [L' [-> P]] Hm.
  assert (Hx : is_union x = false) by (apply Hm, in_or_app; right; left; reflexivity).
  replace (binary_union (TUnion (kind_of L') L') x) with (from_vec (L' ++ [x]))
    by (destruct x; try discriminate Hx; reflexivity).
  pose proof (Permutation_app_tail [x] P) as P1.
  apply (union_of_perm _ _ _ (from_vec_members _ (members_ok_perm _ _ (Permutation_sym P1) Hm)) P1).
Qed.

Lemma mk_union_chain : forall r t L, union_of t L -> members_ok (L ++ r) -> (1 <= List.length L)%nat ->
  union_of (fold_left binary_union r t) (L ++ r).
Proof.
  induction r as [|x r IH]; intros t L Ht Hm Hl.
  - rewrite app_nil_r. exact Ht.
  - cbn [fold_left]. replace (L ++ x :: r) with ((L ++ [x]) ++ r) in * by (rewrite <- app_assoc; reflexivity).
    assert (Hl' : (2 <= List.length (L ++ [x]))%nat) by (rewrite app_length; cbn; lia).
    apply IH; [|exact Hm|lia]. apply binary_union_members; [exact Ht|]. apply (members_ok_app_l _ r Hm Hl').
Qed.

Lemma mk_union_members : forall l, members_ok l -> union_of (mk_union l) l.
Proof.
  intros l Hm. pose proof Hm as (_ & Hnu & Hlen).
  destruct l as [|x [|y r]]; [cbn in Hlen; lia|cbn in Hlen; lia|]. cbn [mk_union fold_left].
  assert (Hx : is_union x = false) by (apply Hnu; left; reflexivity).
  assert (Hy : is_union y = false) by (apply Hnu; right; left; reflexivity).
  replace (binary_union x y) with (from_vec [x; y])
    by (destruct x; try discriminate Hx; destruct y; try discriminate Hy; reflexivity).
  apply (mk_union_chain r _ [x; y]); [|exact Hm|cbn; lia].
  apply from_vec_members, (members_ok_app_l [x; y] r Hm). cbn. lia.
Qed.

Lemma nil_nonunion : is_union (TPrim PNil) = false.
Proof. reflexivity. Qed.

Lemma real_type_nonref : forall e t, (forall n, t <> TRef n) -> real_type e t = t.
Proof. intros e t H. unfold real_type. cbn [real_type_aux]. destruct t; try reflexivity. exfalso. apply (H n). reflexivity. Qed.

Lemma canonicalize_members : forall t L, union_of t L -> members_ok L ->
  union_of (canonicalize_callable_union t) L.
Proof.
  intros t L [L' [-> P]] Hm. pose proof (members_ok_perm _ _ (Permutation_sym P) Hm) as Hm'.
  cbn [canonicalize_callable_union]. rewrite (proj2 (dedup_nodup _ [] (proj1 Hm') (fun _ _ H => H))).
  apply (union_of_perm _ L'); [|exact P]. destruct (existsb _ L'); apply from_vec_members, Hm'.
Qed.

Lemma uwn_union : forall e t L, union_of t L -> members_ok L -> ~ In (TPrim PNil) L ->
  union_of (union_with_nil e t) (L ++ [TPrim PNil]).
Proof.
  intros e t L [L' [-> P]] Hm Hnil. unfold union_with_nil.
  assert (Hnil' : ~ In (TPrim PNil) L') by (intros H; apply Hnil, (Permutation_in _ P), H).
  rewrite real_type_nonref, mem_ty_notin by (try exact Hnil'; intros n H; discriminate H).
  destruct (members_ok_perm _ _ (Permutation_sym P) Hm) as (Hnd & Hnu & Hl).
  assert (Hm1 : members_ok (L' ++ [TPrim PNil])) by (apply members_ok_nil; try assumption; lia).
  apply (union_of_perm _ (L' ++ [TPrim PNil])); [|apply Permutation_app_tail, P].
  apply canonicalize_members; [apply union_from_vec_of, Hm1|exact Hm1].
Qed.

Lemma uwn_single : forall e x, is_union x = false -> is_nil x = false -> nullable_base_ok e x = true ->
  union_of (union_with_nil e x) [x; TPrim PNil].
Proof.
  intros e x Hu Hn Hok. unfold nullable_base_ok in Hok. apply andb_true_iff in Hok as [_ Hok].
  assert (E : union_with_nil e x = canonicalize_callable_union (from_vec [x; TPrim PNil])).
  { unfold union_with_nil. destruct (real_type e x) as [p| | | | | | | | | |]; try reflexivity; try discriminate Hok.
    destruct p; try reflexivity; discriminate Hok. }
  rewrite E.
  assert (Hm : members_ok ([x] ++ [TPrim PNil])).
  { apply members_ok_nil; [repeat constructor; intros []|intros y [<-|[]]; exact Hu|cbn; lia|].
    intros [H|[]]. subst. discriminate Hn. }
  apply canonicalize_members; [apply from_vec_members|]; exact Hm.
Qed.

Lemma text_ltb_irrefl : forall s, text_ltb s s = false.
Proof. induction s as [|c r IH]; [reflexivity|]. cbn [text_ltb]. rewrite N.ltb_irrefl. exact IH. Qed.

Lemma text_ltb_trans : forall a b c, text_ltb a b = true -> text_ltb b c = true -> text_ltb a c = true.
Proof.
  induction a as [|x a IH]; intros [|y b] [|z c] H1 H2; cbn [text_ltb] in *; try discriminate; try reflexivity.
  destruct (N.ltb_spec x y); destruct (N.ltb_spec y z); destruct (N.ltb_spec x z); try reflexivity; try lia;
    destruct (N.ltb_spec y x); destruct (N.ltb_spec z y); destruct (N.ltb_spec z x); try discriminate; try lia.
  eapply IH; eassumption.
Qed.

Lemma text_ltb_neq : forall a b, text_ltb a b = true -> text_eqb b a = false.
Proof.
  intros a b H. destruct (text_eqb b a) eqn:E; [|reflexivity]. apply text_eqb_sound in E. subst.
  rewrite text_ltb_irrefl in H. discriminate H.
Qed.

Lemma text_ltb_asym : forall a b, text_ltb a b = true -> text_ltb b a = false.
Proof.
  intros a b H. destruct (text_ltb b a) eqn:E; [|reflexivity].
  pose proof (text_ltb_trans _ _ _ H E) as Tr. rewrite text_ltb_irrefl in Tr. discriminate Tr.
Qed.

Lemma key_ltb_trans : forall a b c, key_ltb a b = true -> key_ltb b c = true -> key_ltb a c = true.
Proof.
  intros [x|x] [y|y] [z|z] H1 H2; cbn [key_ltb] in *; try discriminate; try reflexivity.
  - apply Z.ltb_lt. apply Z.ltb_lt in H1, H2. lia.
  - eapply text_ltb_trans; eassumption.
Qed.

Lemma key_ltb_facts : forall a b, key_ltb a b = true -> key_eqb b a = false /\ key_ltb b a = false.
Proof.
  intros [x|x] [y|y] H; cbn [key_ltb key_eqb] in *; try discriminate; try (split; reflexivity).
  - apply Z.ltb_lt in H. split; [apply Z.eqb_neq; lia|apply Z.ltb_ge; lia].
  - split; [apply text_ltb_neq; exact H|apply text_ltb_asym; exact H].
Qed.

Lemma obj_insert_last : forall k v l, (forall f, In f l -> key_ltb (fst f) k = true) ->
  obj_insert k v l = l ++ [(k, v)].
Proof.
  induction l as [|[k' v'] r IH]; intros H; [reflexivity|]. cbn [obj_insert].
  destruct (key_ltb_facts k' k (H (k', v') (or_introl eq_refl))) as [E1 E2]. rewrite E1, E2.
  cbn [app]. f_equal. apply IH. intros f Hf. apply H. right. exact Hf.
Qed.

Lemma sorted_all_below : forall (A : Type) k (l : list (key * A)),
  keys_sorted (k :: map fst l) = true -> forall f, In f l -> key_ltb k (fst f) = true.
Proof.
  intros A k l. revert k. induction l as [|[k1 v1] r IH]; intros k H f Hf; [destruct Hf|].
  cbn [map fst keys_sorted] in H. apply andb_true_iff in H as [H1 H2].
  destruct Hf as [<-|Hf]; [exact H1|].
  eapply key_ltb_trans; [exact H1|]. apply (IH k1); [exact H2|exact Hf].
Qed.

Lemma sorted_prefix_below : forall pre k (v : ty) suf,
  keys_sorted (map fst (pre ++ (k, v) :: suf)) = true -> forall f, In f pre -> key_ltb (fst f) k = true.
Proof.
  induction pre as [|[k0 v0] pre IH]; intros k v suf Hs f Hf; [destruct Hf|].
  destruct Hf as [<-|Hf].
  - cbn [fst]. apply (sorted_all_below _ k0 (pre ++ (k, v) :: suf) Hs (k, v)). apply in_or_app. right. left. reflexivity.
  - apply (IH k v suf); [|exact Hf]. cbn [app map keys_sorted] in Hs. apply andb_true_iff in Hs as [_ Hs]. exact Hs.
Qed.

Lemma obj_new_sorted : forall l, keys_sorted (map fst l) = true -> obj_new l = l.
Proof.
  intros l H. unfold obj_new.
  assert (G : forall suf pre, keys_sorted (map fst (pre ++ suf)) = true ->
              fold_left (fun acc f => obj_insert (fst f) (snd f) acc) suf pre = pre ++ suf).
  { induction suf as [|[k v] suf IH]; intros pre Hs; [rewrite app_nil_r; reflexivity|].
    cbn [fold_left fst snd]. rewrite obj_insert_last by (apply (sorted_prefix_below pre k v suf Hs)).
    rewrite IH; rewrite <- app_assoc; [reflexivity|exact Hs]. }
  apply (G l []). exact H.
Qed.

Lemma eqv_shape : forall a b, ty_eqv a b = true ->
  is_union a = is_union b /\ is_nil a = is_nil b /\ is_unknown a = is_unknown b
  /\ match a with TPrim _ => true | _ => false end = match b with TPrim _ => true | _ => false end.
Proof.
  intros a b H. destruct a; destruct b; try discriminate H; try (repeat split; reflexivity).
  cbn [ty_eqv] in H. apply prim_eqb_sound in H. subst. repeat split; reflexivity.
Qed.

Lemma non_nil_In : forall ms x, In x (non_nil ms) <-> In x ms /\ is_nil x = false.
Proof. intros ms x. unfold non_nil. rewrite filter_In. rewrite negb_true_iff. tauto. Qed.

Definition eqv_members (a b : list ty) : Prop :=
  (forall x, In x a -> exists y, In y b /\ ty_eqv x y = true)
  /\ (forall y, In y b -> exists x, In x a /\ ty_eqv x y = true).

Lemma eqv_union_intro : forall k k' xs ys,
  ukind_eqb k k' = true -> List.length xs = List.length ys -> eqv_members xs ys ->
  ty_eqv (TUnion k xs) (TUnion k' ys) = true.
Proof.
  intros k k' xs ys Hk Hl [H1 H2]. cbn [ty_eqv]. rewrite Hk, Hl, Nat.eqb_refl. cbn [andb].
  apply andb_true_iff. split.
  - clear H2 Hl. induction xs as [|x r IH]; [reflexivity|].
    apply andb_true_iff. split.
    + destruct (H1 x (or_introl eq_refl)) as [y [Hy E]]. apply existsb_exists. exists y. split; assumption.
    + apply IH. intros z Hz. apply H1. right. exact Hz.
  - apply forallb_forall. intros y Hy. destruct (H2 y Hy) as [x [Hx E]]. clear -Hx E.
    induction xs as [|z r IH]; [destruct Hx|]. destruct Hx as [->|Hx]; [rewrite E; reflexivity|].
    rewrite (IH Hx). apply orb_true_r.
Qed.

Lemma kind_of_eqv_members : forall a b, List.length a = List.length b -> eqv_members a b -> kind_of a = kind_of b.
Proof.
  intros a b Hl [H1 H2]. unfold kind_of. rewrite Hl.
  replace (all_prim a) with (all_prim b); [replace (existsb is_nil a) with (existsb is_nil b); [reflexivity|]|];
    apply eq_true_iff_eq.
  - rewrite !existsb_exists. split; intros [z [Hz En]].
    + destruct (H2 z Hz) as [y [Hy E]]. exists y. split; [exact Hy|]. destruct (eqv_shape _ _ E) as (_ & Enn & _). congruence.
    + destruct (H1 z Hz) as [m [Hm E]]. exists m. split; [exact Hm|]. destruct (eqv_shape _ _ E) as (_ & Enn & _). congruence.
  - unfold all_prim. rewrite !forallb_forall. split; intros Hp z Hz.
    + destruct (H1 z Hz) as [m [Hm E]]. specialize (Hp m Hm). destruct (eqv_shape _ _ E) as (_ & _ & _ & Ep). congruence.
    + destruct (H2 z Hz) as [y [Hy E]]. specialize (Hp y Hy). destruct (eqv_shape _ _ E) as (_ & _ & _ & Ep). congruence.
Qed.

Lemma not_nullable : forall x, is_union x = false -> is_nil x = false -> is_nullable x = false.
Proof. intros x Hu Hn. destruct x; try reflexivity; [destruct p; try reflexivity|]; discriminate. Qed.

Lemma union_of_not_nullable : forall t l, union_of t l -> nonunion l -> ~ In (TPrim PNil) l ->
  is_unknown t = false /\ is_nullable t = false.
Proof.
  intros t l [L [-> P]] Hnu Hnil. split; [reflexivity|]. cbn [is_nullable].
  apply not_true_is_false. intros Hex. apply existsb_exists in Hex as [y [Hy Ey]].
  apply (Permutation_in _ P) in Hy. rewrite not_nullable in Ey; [discriminate Ey|apply Hnu, Hy|].
  destruct (is_nil y) eqn:E; [|reflexivity]. apply is_nil_eq in E. subst. contradiction.
Qed.

Lemma nullable_base_ok_eqv : forall e x m, ty_eqv x m = true -> is_union m = false ->
  nullable_base_ok e x = nullable_base_ok e m.
Proof.
  intros e x m E Hu. destruct m; try discriminate Hu; destruct x; try discriminate E; try reflexivity;
    cbn [ty_eqv] in E; [apply prim_eqb_sound in E|apply text_eqb_sound in E]; subst; reflexivity.
Qed.

(** reading [a | b | ..], and then [?] when [opt], over distinct normal members *)
Lemma mk_union_nullable : forall e xs (opt : bool),
  NoDup xs -> nonunion xs -> ~ In (TPrim PNil) xs -> xs <> [] ->
  (if opt then match xs with [x] => nullable_base_ok e x = true | _ => True end
   else (2 <= List.length xs)%nat) ->
  union_of (if opt then mk_nullable e (mk_union xs) else mk_union xs)
           (xs ++ if opt then [TPrim PNil] else []).
Proof.
  intros e xs [|] Hnd Hnu Hnil Hne Hsz.
  - unfold mk_nullable. destruct xs as [|x1 [|x2 xr]]; [contradiction| |].
    + cbn [mk_union fold_left app].
      assert (Hu : is_union x1 = false) by (apply Hnu; left; reflexivity).
      assert (Hn : is_nil x1 = false).
      { destruct (is_nil x1) eqn:E; [|reflexivity]. apply is_nil_eq in E. subst. exfalso. apply Hnil. left. reflexivity. }
      pose proof Hsz as Hunk. apply andb_true_iff in Hunk as [Hunk _]. apply negb_true_iff in Hunk.
      rewrite Hunk, (not_nullable _ Hu Hn). apply uwn_single; assumption.
    + assert (Hm : members_ok (x1 :: x2 :: xr)) by (repeat split; try assumption; cbn; lia).
      pose proof (mk_union_members _ Hm) as HU.
      destruct (union_of_not_nullable _ _ HU Hnu Hnil) as [-> ->]. apply uwn_union; assumption.
  - rewrite app_nil_r. apply mk_union_members. repeat split; assumption.
Qed.

Theorem norm_same : forall e t lvl d,
  small lvl d t = true -> annot_form e t = true -> known e t = false -> ty_eqv (norm e t) t = true.
Proof.
  intros e.
  apply (small_ind (fun _ _ t => annot_form e t = true -> known e t = false -> ty_eqv (norm e t) t = true));
    intros lvl d _.
  - intros p _ _. apply prim_eqb_refl.
  - (* TStr *) intros s _ _. apply text_eqb_refl.
  - intros z _ _ _. apply Z.eqb_refl.
  - intros b _ _. destruct b; reflexivity.
  - (* TRef *) intros n _ _ _. apply text_eqb_refl.
  - (* TArray *) intros b IHb Ha Hk. cbn [annot_form known] in Ha, Hk.
    apply andb_true_iff in Ha as [Hu Ha]. apply negb_true_iff in Hu. specialize (IHb Ha Hk).
    cbn [norm]. unfold mk_array. destruct (eqv_shape _ _ IHb) as (_ & _ & E & _). rewrite E, Hu. exact IHb.
  - (* TTableGeneric *) intros ps _ _ _ HF Ha Hk. cbn [annot_form known] in Ha, Hk. cbn [norm ty_eqv].
    induction HF as [|p r Hp Hr IH]; [reflexivity|].
    cbn [forallb existsb map] in *. apply andb_true_iff in Ha as [Ha1 Ha2].
    apply orb_false_iff in Hk as [Hk1 Hk2]. rewrite (Hp Ha1 Hk1). apply IH; assumption.
  - (* TObject *) intros fs _ _ _ Hsorted HF Ha Hk. cbn [annot_form known] in Ha, Hk. cbn [norm].
    rewrite obj_new_sorted by (rewrite map_map; exact Hsorted).
    cbn [ty_eqv]. clear Hsorted.
    induction HF as [|[k v] r Hp Hr IH]; [reflexivity|].
    cbn [forallb existsb map fst snd] in *. apply andb_true_iff in Ha as [Ha1 Ha2].
    apply orb_false_iff in Hk as [Hk1 Hk2]. rewrite key_eqb_refl, (Hp Ha1 Hk1). apply IH; assumption.
  - (* TFun *) intros ps _ HF Ha Hk. cbn [annot_form known] in Ha, Hk. cbn [norm ty_eqv].
    induction HF as [|[n ot] r [_ Hp] Hr IH]; [reflexivity|].
    cbn [forallb existsb map fst snd option_map] in *. apply andb_true_iff in Ha as [Ha1 Ha2].
    apply orb_false_iff in Hk as [Hk1 Hk2]. rewrite text_eqb_refl.
    destruct ot as [pt|]; cbn [option_map]; [rewrite (Hp Ha1 Hk1)|]; apply IH; assumption.
  - (* TUnion: the normal forms [xs] of the members other than [nil], with [nil] last when there is one, match
       [ms] member by member; reading them gives a union of exactly these ([mk_union_nullable]), of the same
       length, hence of the same variant ([kind_of_eqv_members]) *)
    intros k ms H2 Hnn _ Hnu _ HF Ha Hk. rewrite Forall_forall in Hnu, HF.
    cbn [annot_form] in Ha. apply andb_true_iff in Ha as [Ha Haall]. apply andb_true_iff in Ha as [Hkind Hlen].
    apply Nat.eqb_eq in Hlen. rewrite forallb_forall in Haall.
    cbn [known] in Hk. apply orb_false_iff in Hk as [Hk Hkall]. apply orb_false_iff in Hk as [Hbase Hdup].
    apply negb_false_iff in Hdup.
    assert (IHm : forall m, In m ms -> ty_eqv (norm e m) m = true).
    { intros m Hm. apply (HF m Hm); [apply Haall, Hm|].
      destruct (known e m) eqn:E; [|reflexivity]. rewrite <- Hkall. symmetry. apply existsb_exists. eauto. }
    set (xs := map (norm e) (non_nil ms)) in *.
    set (nils := if existsb is_nil ms then [TPrim PNil] else []) in *.
    assert (Hxs : forall y, In y xs -> exists m, In m ms /\ is_nil m = false /\ ty_eqv y m = true).
    { intros y Hy. apply in_map_iff in Hy as [m [<- Hm]]. apply non_nil_In in Hm as [Hm Hn]. eauto. }
    assert (Hxs_nu : nonunion xs).
    { intros y Hy. destruct (Hxs y Hy) as (m & Hm & _ & E). destruct (eqv_shape _ _ E) as (-> & _). apply Hnu, Hm. }
    assert (Hxs_nn : ~ In (TPrim PNil) xs).
    { intros Hy. destruct (Hxs _ Hy) as (m & _ & Hn & E). destruct (eqv_shape _ _ E) as (_ & En & _).
      cbn in En. congruence. }
    assert (Hlenxs : List.length xs = List.length (non_nil ms)) by apply map_length.
    assert (Hev : eqv_members (xs ++ nils) ms).
    { split.
      - intros y Hy. apply in_app_or in Hy as [Hy|Hy]; [destruct (Hxs y Hy) as (m & Hm & _ & E); eauto|].
        unfold nils in Hy. destruct (existsb is_nil ms) eqn:Enil; [|destruct Hy]. destruct Hy as [<-|[]].
        apply existsb_exists in Enil as [m [Hm En]]. apply is_nil_eq in En. subst. eauto.
      - intros m Hm. destruct (is_nil m) eqn:En.
        + apply is_nil_eq in En. subst m. exists (TPrim PNil). split; [|reflexivity].
          apply in_or_app. right. unfold nils.
          rewrite (proj2 (existsb_exists _ _) (ex_intro _ _ (conj Hm eq_refl))). left. reflexivity.
        + exists (norm e m). split; [|apply IHm, Hm]. apply in_or_app. left. apply in_map, non_nil_In. auto. }
    assert (Hres : union_of (norm e (TUnion k ms)) (xs ++ nils)).
    { rewrite norm_union. apply mk_union_nullable; try assumption.
      - apply nodup_ty_NoDup, Hdup.
      - intros E. apply Hnn, (map_eq_nil _ _ E).
      - unfold xs. destruct (existsb is_nil ms) eqn:Enil.
        + destruct (non_nil ms) as [|m1 [|m2 mr]] eqn:Enn; try exact I. cbn [map].
          assert (Hm1 : In m1 ms) by (apply (non_nil_In ms m1); rewrite Enn; left; reflexivity).
          rewrite (nullable_base_ok_eqv e _ m1 (IHm m1 Hm1) (Hnu m1 Hm1)). apply negb_false_iff, Hbase.
        + rewrite map_length, (non_nil_id _ Enil). exact H2. }
    destruct Hres as [L' [E' P']]. rewrite E'.
    assert (HcL : eqv_members L' ms).
    { destruct Hev as [C1 C2]. split.
      - intros y Hy. apply C1, (Permutation_in _ P'), Hy.
      - intros m Hm. destruct (C2 m Hm) as [y [Hy E]]. exists y. split; [apply (Permutation_in _ (Permutation_sym P')), Hy|exact E]. }
    assert (HlL : List.length L' = List.length ms).
    { rewrite (Permutation_length P'), app_length, Hlenxs, Hlen. unfold nils. destruct (existsb is_nil ms); reflexivity. }
    apply eqv_union_intro; [|exact HlL|exact HcL].
    rewrite (kind_of_eqv_members _ _ HlL HcL). destruct k; destruct (kind_of ms); try discriminate Hkind; reflexivity.
Qed.
