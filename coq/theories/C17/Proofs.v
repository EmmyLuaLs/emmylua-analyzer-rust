(** C17/Proofs.v — assembling the round trip: render, lex, parse, infer. *)
From EV Require Import C17.Model C17.Spec C17.LexProofs C17.ParseProofs C17.InferProofs C17.SameProofs.
From Coq Require Import String Lia.
Local Open Scope N_scope.

(** at the top level only a bare [table] is read differently *)
Lemma infer_top_chain : forall e l d0, infer e true d0 = infer e false d0 ->
  infer e true (fold_left (fun acc x => DBinary BUnion acc x) l d0)
  = infer e false (fold_left (fun acc x => DBinary BUnion acc x) l d0).
Proof. induction l as [|x l IH]; intros d0 H0; [exact H0|]. cbn [fold_left]. apply IH. reflexivity. Qed.

Lemma infer_top : forall e t lvl d, small lvl d t = true -> t <> TPrim PTable ->
  infer e true (tree_of t) = infer e false (tree_of t).
Proof.
  intros e.
  apply (small_ind (fun _ _ t => t <> TPrim PTable -> infer e true (tree_of t) = infer e false (tree_of t)));
    intros lvl d _; try reflexivity.
  - intros p Hne. destruct p; try reflexivity. contradiction.
  - intros z _ _. destruct z; reflexivity.
  - intros n Hn _. cbn [tree_of infer]. apply ref_name_facts in Hn as (_ & -> & _). reflexivity.
  - intros k ms H2 _ _ _ _ _ _. rewrite tree_union. destruct (existsb is_nil ms) eqn:Enil; [reflexivity|].
    rewrite (non_nil_id _ Enil). destruct ms as [|m1 [|m2 r]]; [cbn in H2; lia|cbn in H2; lia|].
    cbn [map union_chain fold_left]. apply infer_top_chain. reflexivity.
Qed.

(** at every render level and nesting depth at which the type is written in full *)
Theorem parse_write : forall (e : env) (t : ty) lvl d, small lvl d t = true -> t <> TPrim PTable ->
  parse e (write_type lvl d t) = Some (norm e t).
Proof.
  intros e t lvl d Hs Hne. unfold parse. rewrite (parse_tree_render t _ _ Hs).
  rewrite (infer_top e t _ _ Hs Hne). apply (infer_tree e t _ _ Hs).
Qed.

Theorem parse_render : forall (e : env) (t : ty), Small t -> parse e (render t) = Some (norm e t).
Proof. intros e t [Hs Hne]. apply (parse_write e t _ _ Hs Hne). Qed.

(** two types that render the same way read back as the same type: the rendering is unambiguous *)
Corollary render_unambiguous : forall (e : env) (t1 t2 : ty),
  Small t1 -> Small t2 -> render t1 = render t2 -> norm e t1 = norm e t2.
Proof.
  intros e t1 t2 H1 H2 E. pose proof (parse_render e t1 H1) as P1. pose proof (parse_render e t2 H2) as P2.
  rewrite E in P1. rewrite P1 in P2. injection P2. auto.
Qed.

(** ** The type read back is the same type, modulo the order of union members *)
Theorem reads_back_same_outside_known : forall (e : env) (t : ty),
  Small t -> annot_form e t = true -> known e t = false ->
  exists t', parse e (render t) = Some t' /\ ty_eqv t' t = true.
Proof.
  intros e t HS Ha Hk. exists (norm e t). split; [apply parse_render; exact HS|].
  destruct HS as [Hs _]. apply (norm_same e t _ _ Hs Ha Hk).
Qed.

(** ... and the recorded class is real: [any?] is read back as [any] *)
Theorem reads_back_same_refuted : exists t : ty,
  Small t /\ annot_form [] t = true /\ known [] t = true
  /\ exists t', parse [] (render t) = Some t' /\ ty_eqv t' t = false.
Proof.
  exists (TUnion UBasic [TPrim PAny; TPrim PNil]).
  split; [split; [vm_compute; reflexivity|discriminate]|].
  split; [vm_compute; reflexivity|]. split; [vm_compute; reflexivity|].
  exists (TPrim PAny). split; vm_compute; reflexivity.
Qed.

Theorem tokens_of_render : forall t, small Documentation 0 t = true -> lex (render t) = ptoks t.
Proof. intros t. apply lex_render. Qed.

(** ** Examples (non-vacuity) *)

Definition ex_type : ty :=
  TObject [(KInt 1%Z, TArray (TUnion UNullable [TRef T"ns.Cls"; TPrim PNil]));
           (KName T"x y", TUnion UMulti [TStr T"a""b\"; TInt (-7)%Z; TFun [(T"cb", Some (TTableGeneric [TPrim PString; TArray (TInt (-1)%Z)])); (T"n", None)]; TPrim PNil])].

Example ex_small : Small ex_type.
Proof. split; [vm_compute; reflexivity|discriminate]. Qed.

Example ex_roundtrip : parse [] (render ex_type) = Some ex_type.
Proof. vm_compute. reflexivity. Qed.

Example ex_annot : annot_form [] ex_type = true /\ known [] ex_type = false.
Proof. vm_compute. split; reflexivity. Qed.

(** an array of an optional is rendered with parentheses (repaired in /repo, eef6e83): without them the reader
    drops the [[]] *)
Example ex_optional_array :
  render (TArray (TUnion UBasic [TPrim PNil; TPrim PString])) = T"(string?)[]"
  /\ parse [] T"(string?)[]" = Some (TArray (TUnion UBasic [TPrim PNil; TPrim PString]))
  /\ parse [] T"string?[]" = Some (TUnion UBasic [TPrim PNil; TPrim PString]).
Proof. vm_compute. repeat split. Qed.

(** the two degenerate unions whose normal form is a different type (the open findings) *)
Example ex_any_nil : Small (TUnion UBasic [TPrim PAny; TPrim PNil])
  /\ norm [] (TUnion UBasic [TPrim PAny; TPrim PNil]) = TPrim PAny.
Proof. split; [split; [vm_compute; reflexivity|discriminate]|vm_compute; reflexivity]. Qed.

Example ex_duplicate_members :
  let o := TObject [(KName T"a", TPrim PString)] in
  render (TUnion UMulti [o; o]) = render o /\ parse [] (render (TUnion UMulti [o; o])) = Some o.
Proof. vm_compute. split; reflexivity. Qed.
