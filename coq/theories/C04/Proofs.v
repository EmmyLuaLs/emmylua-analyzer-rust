(** C04/Proofs.v — the node cache never changes what is built. *)
From Coq Require Import PeanoNat.
From EV Require Import C01.Model C01.Proofs C04.Model.
Local Open Scope N_scope.

Lemma text_eqb_eq : forall a b, text_eqb a b = true -> a = b.
Proof.
  unfold text_eqb. induction a as [|x a IH]; intros [|y b] H; cbn in H; try discriminate; [reflexivity|].
  apply andb_true_iff in H. destruct H as [Hl H]. apply andb_true_iff in H. destruct H as [Hxy H].
  cbn in Hxy. apply N.eqb_eq in Hxy. subst y. f_equal. apply IH. rewrite Hl. exact H.
Qed.

Lemma ids_eqb_eq : forall a b, ids_eqb a b = true -> a = b.
Proof.
  induction a as [|x a IH]; intros [|y b] H; cbn in H; try discriminate; [reflexivity|].
  apply andb_true_iff in H. destruct H as [Hxy H]. apply Nat.eqb_eq in Hxy. subst. f_equal. apply IH. exact H.
Qed.

Lemma dens_snoc : forall h g, dens (h ++ [g]) = dens h ++ [den1 (dens h) g].
Proof. intros. unfold dens. rewrite fold_left_app. reflexivity. Qed.

Lemma dens_length : forall h, length (dens h) = length h.
Proof.
  intros h. induction h as [|g h IH] using rev_ind; [reflexivity|].
  rewrite dens_snoc, !app_length, IH. reflexivity.
Qed.

Lemma dens_app_prefix : forall h ext, exists more, dens (h ++ ext) = dens h ++ more.
Proof.
  intros h ext. induction ext as [|g ext IH] using rev_ind.
  - exists []. rewrite !app_nil_r. reflexivity.
  - destruct IH as [more IH]. exists (more ++ [den1 (dens (h ++ ext)) g]).
    rewrite app_assoc, dens_snoc, IH, app_assoc. reflexivity.
Qed.

Lemma denote_stable : forall h ext i, (i < length h)%nat -> denote (h ++ ext) i = denote h i.
Proof.
  intros h ext i Hi. unfold denote. destruct (dens_app_prefix h ext) as [more E]. rewrite E.
  apply nth_error_app1. rewrite dens_length. exact Hi.
Qed.

Lemma nth_dens_stable : forall h ext i, (i < length h)%nat -> nth i (dens (h ++ ext)) ddummy = nth i (dens h) ddummy.
Proof.
  intros h ext i Hi. destruct (dens_app_prefix h ext) as [more E]. rewrite E.
  apply app_nth1. rewrite dens_length. exact Hi.
Qed.

Lemma denote_some_lt : forall h i d, denote h i = Some d -> (i < length h)%nat.
Proof. intros h i d H. unfold denote in H. rewrite <- dens_length. apply nth_error_Some. congruence. Qed.

Lemma denote_nth : forall h i d, denote h i = Some d -> nth i (dens h) ddummy = d.
Proof. intros h i d H. unfold denote in H. apply nth_error_nth. exact H. Qed.

Lemma denote_new : forall h g, denote (h ++ [g]) (length h) = Some (den1 (dens h) g).
Proof.
  intros. unfold denote. rewrite dens_snoc, nth_error_app2; rewrite dens_length; [|lia].
  rewrite Nat.sub_diag. reflexivity.
Qed.

(** a cell's denotation, from the cell: its children lie before it, where later allocations change nothing *)
Lemma denote_cell : forall h i g, heap_wf h -> nth_error h i = Some g -> denote h i = Some (den1 (dens h) g).
Proof.
  intros h i g Hwf H.
  assert (Hlt : forall k cs, g = GNode k cs -> Forall (fun c => (c < i)%nat) cs) by (intros k cs ->; exact (Hwf i k cs H)).
  clear Hwf. apply nth_error_split in H as (l1 & l2 & -> & <-).
  change (l1 ++ g :: l2) with (l1 ++ [g] ++ l2). rewrite app_assoc, denote_stable by (rewrite app_length; cbn; lia).
  rewrite denote_new. destruct g as [k w|k cs]; [reflexivity|]. cbn [den1]. do 2 f_equal.
  apply map_ext_in. intros c Hc. symmetry. rewrite <- app_assoc. apply nth_dens_stable.
  exact (proj1 (Forall_forall _ _) (Hlt k cs eq_refl) c Hc).
Qed.

Definition ext (st st' : rstate) : Prop :=
  (exists x, heap st' = heap st ++ x) /\ incl (c_tokens st) (c_tokens st') /\ incl (c_nodes st) (c_nodes st').

Lemma ext_refl : forall st, ext st st.
Proof. intros. split; [exists []; rewrite app_nil_r; reflexivity|split; apply incl_refl]. Qed.

Lemma ext_trans : forall a b c, ext a b -> ext b c -> ext a c.
Proof.
  intros a b c ([x Hx] & H1 & H2) ([y Hy] & G1 & G2). split; [|split; eapply incl_tran; eauto].
  exists (x ++ y). rewrite Hy, Hx, app_assoc. reflexivity.
Qed.

Lemma ext_interned : forall st st' i, ext st st' -> interned st i -> interned st' i.
Proof. intros st st' i (_ & H1 & H2) [H|H]; [left; apply H1|right; apply H2]; exact H. Qed.

Lemma ext_denote : forall st st' i d, ext st st' -> denote (heap st) i = Some d -> denote (heap st') i = Some d.
Proof.
  intros st st' i d ([x Hx] & _) H. rewrite Hx, denote_stable; [exact H|]. eapply denote_some_lt; eauto.
Qed.

(** a built element: its content and the meaning of a non-zero hash *)
Definition elem_ok (st : rstate) (d : dtree) (e : N * id) : Prop :=
  denote (heap st) (snd e) = Some d /\ (fst e <> 0 -> interned st (snd e)).

Lemma elem_ok_ext : forall st st' d e, ext st st' -> elem_ok st d e -> elem_ok st' d e.
Proof. intros st st' d e He [H1 H2]. split; [eapply ext_denote; eauto|intros H; eapply ext_interned; eauto]. Qed.

Lemma Forall2_impl' : forall A B (P Q : A -> B -> Prop) l l',
  (forall a b, P a b -> Q a b) -> Forall2 P l l' -> Forall2 Q l l'.
Proof. intros A B P Q l l' H F. induction F; constructor; auto. Qed.

(** hashbrown's probe only returns one of the candidates *)
Lemma probe_in : forall (pick : option nat) (cands : list id) i,
  match pick with Some j => nth_error cands j | None => None end = Some i -> In i cands.
Proof. intros [j|] cands i H; [eapply nth_error_In; eauto|discriminate]. Qed.

(** the state after allocating [g], entered in the token cache if [tk] and in the node cache if [nd];
    [alloc st g] = ([pushed st g false false], [length (heap st)]) *)
Definition pushed (st : rstate) (g : gdata) (tk nd : bool) : rstate :=
  {| heap := heap st ++ [g];
     c_tokens := if tk then length (heap st) :: c_tokens st else c_tokens st;
     c_nodes := if nd then length (heap st) :: c_nodes st else c_nodes st |}.

Lemma pushed_inv : forall st g tk nd, cache_inv st ->
  (forall k cs, g = GNode k cs ->
     Forall (fun c => (c < length (heap st))%nat) cs /\ (nd = true -> Forall (interned st) cs)) ->
  cache_inv (pushed st g tk nd) /\ ext st (pushed st g tk nd).
Proof.
  intros st g tk nd (Hwf & Ht & Hn & Hc) Hg.
  assert (He : ext st (pushed st g tk nd)).
  { split; [exists [g]; reflexivity|]. split; [destruct tk|destruct nd]; try apply incl_tl; apply incl_refl. }
  split; [|exact He]. unfold cache_inv, heap_wf. cbn [pushed heap c_tokens c_nodes]. rewrite app_length.
  assert (Hup : forall l (b : bool), Forall (fun i => (i < length (heap st))%nat) l ->
            Forall (fun i => (i < length (heap st) + length [g])%nat) (if b then length (heap st) :: l else l)).
  { intros l b Hl. destruct b; [constructor; [cbn; lia|]|]; (eapply Forall_impl; [|exact Hl]); cbn; intros; lia. }
  split; [|split; [apply Hup, Ht|split; [apply Hup, Hn|]]].
  - intros i k cs H. destruct (Nat.lt_ge_cases i (length (heap st))) as [Hi|Hi].
    + rewrite nth_error_app1 in H by exact Hi. eapply Hwf; eauto.
    + rewrite nth_error_app2 in H by exact Hi. destruct (i - length (heap st))%nat as [|[|n]] eqn:E; try discriminate.
      injection H as ->. eapply Forall_impl; [|exact (proj1 (Hg k cs eq_refl))]. cbn. intros; lia.
  - intros i k cs Hi H. apply Forall_impl with (P := interned st); [intros a; apply (ext_interned _ _ _ He)|].
    assert (Hi' : (nd = true /\ i = length (heap st)) \/ In i (c_nodes st)) by (destruct nd; [destruct Hi as [<-|Hi]|]; auto).
    destruct Hi' as [[Hnd ->]|Hi'].
    + rewrite nth_error_app2, Nat.sub_diag in H by lia. injection H as ->. exact (proj2 (Hg k cs eq_refl) Hnd).
    + rewrite nth_error_app1 in H by exact (proj1 (Forall_forall _ _) Hn i Hi'). exact (Hc i k cs Hi' H).
Qed.

Lemma token_matches_cell : forall st k w i, token_matches st k w i = true -> nth_error (heap st) i = Some (GTok k w).
Proof.
  unfold token_matches. intros st k w i H. destruct (nth_error (heap st) i) as [[k' w'|]|]; try discriminate.
  apply andb_true_iff in H as [Hk Hw]. apply N.eqb_eq in Hk. apply text_eqb_eq in Hw. congruence.
Qed.

Lemma node_matches_cell : forall st k cs i, node_matches st k cs i = true -> nth_error (heap st) i = Some (GNode k cs).
Proof.
  unfold node_matches. intros st k cs i H. destruct (nth_error (heap st) i) as [[|k' cs']|]; try discriminate.
  apply andb_true_iff in H as [Hk Hcs]. apply N.eqb_eq in Hk. apply ids_eqb_eq in Hcs. congruence.
Qed.

Lemma children_spec : forall st ds children, Forall2 (elem_ok st) ds children ->
  Forall (fun c => (c < length (heap st))%nat) (map snd children) /\
  map (fun c => nth c (dens (heap st)) ddummy) (map snd children) = ds /\
  (existsb (fun c => fst c =? 0) children = false -> Forall (interned st) (map snd children)).
Proof.
  intros st ds children H. induction H as [|d e ds cs [Hd Hint] _ (IH1 & IH2 & IH3)]; cbn [map existsb]; [auto|].
  split; [constructor; [eapply denote_some_lt; eauto|exact IH1]|]. split; [f_equal; [apply denote_nth, Hd|exact IH2]|].
  intros Hz. apply orb_false_iff in Hz as [Hz1 Hz2]. constructor; [|exact (IH3 Hz2)].
  apply Hint. intros C. rewrite C in Hz1. discriminate.
Qed.

(** the two ways [cache_node] allocates: entered in the node cache ([nd]), which it does only if no child has hash 0,
    or not entered and then handed out with hash [h] = 0 *)
Lemma new_node_spec : forall st k ds children nd h,
  cache_inv st -> Forall2 (elem_ok st) ds children ->
  (nd = true -> existsb (fun c => fst c =? 0) children = false) -> (nd = false -> h = 0) ->
  let st1 := pushed st (GNode k (map snd children)) false nd in
  cache_inv st1 /\ ext st st1 /\ elem_ok st1 (DNode k ds) (h, length (heap st)).
Proof.
  intros st k ds children nd h Hinv Hch Hnd Hh st1. destruct (children_spec _ _ _ Hch) as (C1 & C2 & C3).
  destruct (pushed_inv st (GNode k (map snd children)) false nd Hinv) as [I1 E1].
  { intros k' cs E. injection E as _ <-. split; [exact C1|]. intros E. exact (C3 (Hnd E)). }
  split; [exact I1|]. split; [exact E1|]. split; cbn [st1 pushed heap fst snd].
  - rewrite denote_new. cbn [den1]. rewrite C2. reflexivity.
  - destruct nd; [intros _; right; left; reflexivity|intros C; destruct (C (Hh eq_refl))].
Qed.

Lemma tree_ind2 (P : tree -> Prop) :
  (forall k s l, P (Tok k s l)) -> (forall k cs, Forall P cs -> P (Node k cs)) -> forall t, P t.
Proof.
  intros Ht Hn. fix IH 1. intros [k s l|k cs]; [apply Ht|]. apply Hn.
  induction cs as [|c cs IHcs]; constructor; [apply IH|exact IHcs].
Qed.

Lemma cache_inv_empty : cache_inv rs_empty.
Proof.
  split; [|split; [constructor|split; [constructor|]]].
  - intros i k cs H. destruct i; discriminate.
  - intros i k cs [].
Qed.

(** from here on the hash functions and the probe's choice among the candidates are arbitrary *)
Section Cache.
  Variable hash_token : tkind -> text -> N.
  Variable hash_node : skind -> list N -> N.
  Variable pick_token : rstate -> N -> list id -> option nat.
  Variable pick_node : rstate -> N -> list id -> option nat.

  Notation cache_token := (cache_token hash_token pick_token).
  Notation cache_node := (cache_node hash_node pick_node).
  Notation rbuild := (rbuild hash_token hash_node pick_token pick_node).

  Lemma cache_token_spec : forall st k w st' e,
    cache_inv st -> cache_token st k w = (st', e) ->
    cache_inv st' /\ ext st st' /\ elem_ok st' (DTok k w) e.
  Proof.
    intros st k w st' e Hinv H. unfold Model.cache_token in H.
    set (cands := filter (token_matches st k w) (c_tokens st)) in *.
    destruct (match pick_token st (hash_token k w) cands with Some j => nth_error cands j | None => None end) as [i|] eqn:Hp.
    - injection H as <- <-. split; [exact Hinv|split; [apply ext_refl|]].
      apply probe_in, filter_In in Hp as [Hin Hm]. apply token_matches_cell in Hm.
      split; cbn [fst snd]; [exact (denote_cell _ _ _ (proj1 Hinv) Hm)|intros _; left; exact Hin].
    - unfold alloc in H. cbn [fst snd heap c_tokens c_nodes] in H. injection H as <- <-.
      destruct (pushed_inv st (GTok k w) true false Hinv) as [I E]; [discriminate|].
      split; [exact I|]. split; [exact E|].
      split; cbn [fst snd heap]; [apply denote_new|intros _; left; left; reflexivity].
  Qed.

  Lemma cache_node_spec : forall st k ds children st' e,
    cache_inv st -> Forall2 (elem_ok st) ds children -> cache_node st k children = (st', e) ->
    cache_inv st' /\ ext st st' /\ elem_ok st' (DNode k ds) e.
  Proof.
    intros st k ds children st' e Hinv Hch H. unfold Model.cache_node, alloc in H.
    assert (Hfresh := new_node_spec st k ds children false 0 Hinv Hch ltac:(discriminate) (fun _ => eq_refl)).
    destruct (Nat.ltb 3 (length children)); [injection H as <- <-; exact Hfresh|].
    destruct (existsb (fun c => fst c =? 0) children) eqn:Hz; [injection H as <- <-; exact Hfresh|].
    clear Hfresh.
    set (ids := map snd children) in *.
    set (cands := filter (node_matches st k ids) (c_nodes st)) in *.
    destruct (match pick_node st (hash_node k (map fst children)) cands with Some j => nth_error cands j | None => None end) as [i|] eqn:Hp.
    - injection H as <- <-. split; [exact Hinv|split; [apply ext_refl|]].
      apply probe_in, filter_In in Hp as [Hin Hm]. apply node_matches_cell in Hm.
      split; cbn [fst snd]; [|intros _; right; exact Hin].
      rewrite (denote_cell _ _ _ (proj1 Hinv) Hm). cbn [den1]. unfold ids. rewrite (proj1 (proj2 (children_spec _ _ _ Hch))). reflexivity.
    - cbn [fst snd heap c_tokens c_nodes] in H. injection H as <- <-.
      exact (new_node_spec st k ds children true _ Hinv Hch (fun _ => Hz) ltac:(discriminate)).
  Qed.

  (** the loops over the children inside [rbuild] and [plain], by name *)
  Definition rbuild_list (txt : text) :=
    fix go (l : list tree) (st : rstate) (acc : list (N * id)) : option (rstate * list (N * id)) :=
      match l with
      | [] => Some (st, acc)
      | c :: r => match rbuild txt c st with
                  | None => None
                  | Some (st', e) => go r st' (acc ++ [e])
                  end
      end.

  Definition plain_list (txt : text) :=
    fix go (l : list tree) : option (list dtree) :=
      match l with
      | [] => Some []
      | c :: r => match plain txt c, go r with
                  | Some d, Some ds => Some (d :: ds)
                  | _, _ => None
                  end
      end.

  Lemma rbuild_node : forall txt k cs st,
    rbuild txt (Node k cs) st =
    match rbuild_list txt cs st [] with None => None | Some (st', children) => Some (cache_node st' k children) end.
  Proof. reflexivity. Qed.

  Lemma plain_node : forall txt k cs,
    plain txt (Node k cs) = match plain_list txt cs with Some ds => Some (DNode k ds) | None => None end.
  Proof. reflexivity. Qed.

  (** a build through the cache and the cache-free content agree: both fail, or the invariant is kept, the state is
      extended and the results are related by [ok] in the new state *)
  Definition agree {R D : Type} (ok : rstate -> D -> R -> Prop) (st : rstate) (r : option (rstate * R)) (p : option D) : Prop :=
    match r, p with
    | Some (st', e), Some d => cache_inv st' /\ ext st st' /\ ok st' d e
    | None, None => True
    | _, _ => False
    end.

  Lemma rbuild_list_agree : forall txt l,
    Forall (fun c => forall st, cache_inv st -> agree elem_ok st (rbuild txt c st) (plain txt c)) l ->
    forall st acc dacc, cache_inv st -> Forall2 (elem_ok st) dacc acc ->
      agree (fun st' ds children => Forall2 (elem_ok st') (dacc ++ ds) children) st
            (rbuild_list txt l st acc) (plain_list txt l).
  Proof.
    induction l as [|c r IHr]; intros HF st acc dacc Hinv Hacc; cbn [rbuild_list plain_list agree].
    - split; [exact Hinv|]. split; [apply ext_refl|]. rewrite app_nil_r. exact Hacc.
    - inversion HF as [|? ? Hc Hr]; subst. specialize (Hc st Hinv).
      destruct (rbuild txt c st) as [[st2 e2]|], (plain txt c) as [d|]; try contradiction; [|exact I].
      destruct Hc as (B1 & B2 & B4).
      assert (Hacc2 : Forall2 (elem_ok st2) (dacc ++ [d]) (acc ++ [e2])).
      { apply Forall2_app; [|constructor; [exact B4|constructor]].
        eapply Forall2_impl'; [|exact Hacc]. intros; eapply elem_ok_ext; eauto. }
      specialize (IHr Hr st2 _ _ B1 Hacc2). fold (rbuild_list txt) (plain_list txt).
      destruct (rbuild_list txt r st2 (acc ++ [e2])) as [[st1 children]|], (plain_list txt r) as [ds|]; try exact IHr.
      destruct IHr as (C1 & C2 & C4). split; [exact C1|]. split; [eapply ext_trans; eauto|].
      rewrite <- app_assoc in C4. exact C4.
  Qed.

  Lemma rbuild_agree : forall txt t st, cache_inv st -> agree elem_ok st (rbuild txt t st) (plain txt t).
  Proof.
    intros txt t. induction t as [k s l|k cs IH] using tree_ind2; intros st Hinv.
    - cbn [Model.rbuild plain]. destruct (slice txt s (s + l)) as [w|]; [|exact I].
      destruct (cache_token st k w) as [st1 e1] eqn:Hc. exact (cache_token_spec _ _ _ _ _ Hinv Hc).
    - rewrite rbuild_node, plain_node. pose proof (rbuild_list_agree txt cs IH st [] [] Hinv (Forall2_nil _)) as G.
      destruct (rbuild_list txt cs st []) as [[st1 children]|], (plain_list txt cs) as [ds|]; [|destruct G..|exact I].
      destruct G as (G1 & G2 & G4). destruct (cache_node st1 k children) as [st2 e2] eqn:Hc.
      destruct (cache_node_spec _ _ _ _ _ _ G1 G4 Hc) as (A & B & C). split; [exact A|]. split; [eapply ext_trans; eauto|exact C].
  Qed.

  Lemma rbuild_spec : forall txt t st st' e,
    cache_inv st -> rbuild txt t st = Some (st', e) ->
    cache_inv st' /\ ext st st' /\ exists d, plain txt t = Some d /\ elem_ok st' d e.
  Proof.
    intros txt t st st' e Hinv H. pose proof (rbuild_agree txt t st Hinv) as A. rewrite H in A.
    destruct (plain txt t) as [d|]; [|contradiction]. destruct A as (A1 & A2 & A3). eauto.
  Qed.

  (** the cache does not decide whether the build panics either *)
  Lemma rbuild_none_iff : forall txt t st, cache_inv st -> (rbuild txt t st = None <-> plain txt t = None).
  Proof.
    intros txt t st Hinv. pose proof (rbuild_agree txt t st Hinv) as A.
    destruct (rbuild txt t st) as [[st' e]|], (plain txt t); try contradiction; split; congruence.
  Qed.
End Cache.
