From EV Require Import C01.Model C04.Model C04.Proofs C04.Corr.
Local Open Scope N_scope.

Section AnyHashing.
  (** arbitrary hash functions and an arbitrary outcome of hashbrown's probe among the entries that satisfy
      the equality closure: none of the theorems below depends on them *)
  Variable hash_token : tkind -> text -> N.
  Variable hash_node : skind -> list N -> N.
  Variable pick_token : rstate -> N -> list id -> option nat.
  Variable pick_node : rstate -> N -> list id -> option nat.
  Notation rbuild := (rbuild hash_token hash_node pick_token pick_node).

  (** the invariant (heap well-founded, cache entries allocated, children of interned nodes interned) holds for
      the empty cache and is preserved by every build; the heap only grows (green elements are immutable) *)
  Theorem cache_inv_preserved :
    cache_inv rs_empty /\
    forall (txt : text) (t : tree) (st st' : rstate) (e : N * id),
      cache_inv st -> rbuild txt t st = Some (st', e) ->
      cache_inv st' /\ exists added, heap st' = heap st ++ added.
  Proof.
    split; [exact cache_inv_empty|].
    intros txt t st st' e Hinv H.
    destruct (rbuild_spec hash_token hash_node pick_token pick_node _ _ _ _ _ Hinv H) as (A & (B & _) & _).
    split; [exact A|exact B].
  Qed.

  (** for every cache state satisfying the invariant — i.e. after ANY history of earlier builds — building a tree
      through the cache yields an element whose content is exactly the tree's own kinds and token texts *)
  Theorem cached_build_denotes : forall (txt : text) (t : tree) (st st' : rstate) (h : N) (i : id),
    cache_inv st -> rbuild txt t st = Some (st', (h, i)) ->
    exists d, plain txt t = Some d /\ denote (heap st') i = Some d.
  Proof.
    intros txt t st st' h i Hinv H.
    destruct (rbuild_spec hash_token hash_node pick_token pick_node _ _ _ _ _ Hinv H) as (_ & _ & d & P & (D & _)).
    exists d. split; [exact P|exact D].
  Qed.

  (** hence: the same tree built after two different histories has the same content (a fresh build is the case
      [st2 = rs_empty]) *)
  Theorem history_independent : forall (txt : text) (t : tree) (st1 st1' st2 st2' : rstate) (e1 e2 : N * id),
    cache_inv st1 -> cache_inv st2 ->
    rbuild txt t st1 = Some (st1', e1) -> rbuild txt t st2 = Some (st2', e2) ->
    denote (heap st1') (snd e1) = denote (heap st2') (snd e2).
  Proof.
    intros txt t st1 st1' st2 st2' [h1 i1] [h2 i2] I1 I2 H1 H2.
    destruct (cached_build_denotes _ _ _ _ _ _ I1 H1) as (d1 & P1 & D1).
    destruct (cached_build_denotes _ _ _ _ _ _ I2 H2) as (d2 & P2 & D2).
    cbn [snd]. congruence.
  Qed.

  (** the cache does not decide whether the build panics *)
  Theorem panic_independent : forall (txt : text) (t : tree) (st : rstate),
    cache_inv st -> (rbuild txt t st = None <-> plain txt t = None).
  Proof. exact (rbuild_none_iff hash_token hash_node pick_token pick_node). Qed.

  Notation cached_parse := (cached_parse hash_token hash_node pick_token pick_node).

  (** the error list never reads the cache ([cached_parse]: errors are collected before the builder runs) *)
  Theorem errors_independent : forall st1 st2 txt evs errors,
    snd (cached_parse st1 txt evs errors) = snd (cached_parse st2 txt evs errors).
  Proof. reflexivity. Qed.

  (** end to end with C01's builder: tree content after any history = content of the cache-free tree *)
  Theorem cached_parse_denotes : forall st txt evs errors st' h i,
    cache_inv st -> fst (cached_parse st txt evs errors) = Some (st', (h, i)) ->
    exists tr d, run evs = Some tr /\ plain txt tr = Some d /\ denote (heap st') i = Some d.
  Proof.
    intros st txt evs errors st' h i Hinv H. unfold Model.cached_parse in H. cbn [fst] in H.
    destruct (run evs) as [tr|]; [|discriminate].
    destruct (cached_build_denotes _ _ _ _ _ _ Hinv H) as (d & P & D). exists tr, d. auto.
  Qed.
End AnyHashing.

(** non-vacuity: the same two-statement text built twice through one cache.  With a probe that finds entries the
    second build allocates nothing (everything is shared, same root pointer); with a probe that never finds
    anything it allocates everything again; the content is the same in both cases. *)
Example cache_example :
  let txt := [97; 32; 97] in
  let tr := Node SK_Chunk [Node SK_Block [Tok TK_TkName 0 1; Tok TK_TkWhitespace 1 1; Tok TK_TkName 2 1]] in
  let ht := fun k w => 1 + k + N.of_nat (length w) in
  let hn := fun k hs => 1 + k + sumN hs in
  let hit := fun (_ : rstate) (_ : N) (_ : list id) => Some 0%nat in
  let miss := fun (_ : rstate) (_ : N) (_ : list id) => @None nat in
  match rbuild ht hn hit hit txt tr rs_empty with
  | Some (st1, (_, r1)) =>
      match rbuild ht hn hit hit txt tr st1, rbuild ht hn miss miss txt tr st1 with
      | Some (st2, (_, r2)), Some (st3, (_, r3)) =>
          r2 = r1 /\ length (heap st2) = length (heap st1) /\ length (heap st1) = 4%nat (* a, ' ', Block, Chunk *) /\
          r3 <> r1 /\ length (heap st3) = 9%nat /\
          denote (heap st2) r2 = denote (heap st3) r3 /\ denote (heap st3) r3 = plain txt tr
      | _, _ => False
      end
  | None => False
  end.
Proof. vm_compute. repeat split; discriminate. Qed.
