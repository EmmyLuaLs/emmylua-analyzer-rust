(** C35/Proofs.v — lemmas: the export is a function of the index as a multiset (sorting
    with entry-identifying keys), every main-workspace item is rendered exactly once. *)
From Coq Require Import Permutation Sorting.Sorted Lia.
From EV Require Import C35.Model Gen.C35_sort.
Local Open Scope N_scope.

Lemma sort_if_perm : forall A K b (key : A -> K) cmp l, Permutation (sort_if b key cmp l) l.
Proof. intros. destruct b; cbn [sort_if]; [apply isort_perm|apply Permutation_refl]. Qed.

Lemma In_sort_if : forall A K b (key : A -> K) cmp l x, In x (sort_if b key cmp l) <-> In x l.
Proof. intros. split; apply Permutation_in; [|symmetry]; apply sort_if_perm. Qed.

Lemma filter_true : forall A (l : list A), filter (fun _ => true) l = l.
Proof. induction l as [|x r IH]; cbn [filter]; [reflexivity|]. rewrite IH. reflexivity. Qed.

Lemma occ_perm : forall A K (key : A -> K) cmp k l l', Permutation l l' -> occ key cmp k l = occ key cmp k l'.
Proof. intros. unfold occ. apply Permutation_length. apply perm_filter. assumption. Qed.

Lemma occ_zero : forall A K (key : A -> K) cmp k l, total_order cmp ->
  (forall y, In y l -> key y <> k) -> occ key cmp k l = 0%nat.
Proof.
  intros A K key cmp k l Ho. unfold occ. induction l as [|x r IH]; intros H; cbn [filter length]; [reflexivity|].
  destruct (cmp (key x) k) eqn:E.
  - exfalso. apply (H x); [left; reflexivity|]. apply (to_eq _ Ho). exact E.
  - apply IH. intros y Hy. apply H. right. exact Hy.
  - apply IH. intros y Hy. apply H. right. exact Hy.
Qed.

Lemma filter_key_unique : forall A K (key : A -> K) cmp l x, total_order cmp ->
  NoDup (map key l) -> In x l ->
  filter (fun y => match cmp (key y) (key x) with Eq => true | _ => false end) l = [x].
Proof.
  intros A K key cmp l x Ho. induction l as [|y r IH]; intros Hnd Hin; [destruct Hin|].
  cbn [map] in Hnd. inversion Hnd as [|? ? Hy Hr]; subst. cbn [filter]. destruct Hin as [->|Hin].
  - rewrite (to_refl _ Ho). f_equal. apply length_zero_iff_nil, (occ_zero _ _ key cmp (key x) r Ho).
    intros z Hz Heq. apply Hy. rewrite <- Heq. apply in_map. exact Hz.
  - destruct (cmp (key y) (key x)) eqn:E; [|apply IH; assumption..].
    exfalso. apply Hy. apply (to_eq _ Ho) in E. rewrite E. apply in_map. exact Hin.
Qed.

Lemma occ_one : forall A K (key : A -> K) cmp l x, total_order cmp ->
  NoDup (map key l) -> In x l -> occ key cmp (key x) l = 1%nat.
Proof. intros A K key cmp l x Ho Hnd Hin. unfold occ. rewrite filter_key_unique by assumption. reflexivity. Qed.

Lemma occ_map : forall A B K (f : A -> B) (key : B -> K) cmp k l,
  occ key cmp k (map f l) = occ (fun a => key (f a)) cmp k l.
Proof.
  intros. unfold occ. induction l as [|x r IH]; cbn [map filter]; [reflexivity|].
  destruct (cmp (key (f x)) k); cbn [length]; rewrite ?IH; reflexivity.
Qed.

Lemma filter_filter : forall A (p q : A -> bool) l, filter q (filter p l) = filter (fun x => p x && q x) l.
Proof.
  induction l as [|x r IH]; cbn [filter]; [reflexivity|].
  destruct (p x); cbn [filter andb]; [destruct (q x)|]; rewrite IH; reflexivity.
Qed.

(** an item with a unique id occurs once among the items that pass a filter, in whatever order, if it
    passes, and not at all otherwise *)
Lemma occ_filtered : forall A (id : A -> N) p l l' x,
  NoDup (map id l) -> In x l -> Permutation l' (filter p l) ->
  occ id N.compare (id x) l' = if p x then 1%nat else 0%nat.
Proof.
  intros A id p l l' x Hnd Hin Hp. rewrite (occ_perm _ _ id N.compare (id x) _ _ Hp). unfold occ.
  set (E := fun y => match N.compare (id y) (id x) with Eq => true | _ => false end).
  (* select by the key first: that leaves [x] alone *)
  rewrite filter_filter, (filter_ext _ (fun y => E y && p y)), <- filter_filter by (intros; apply andb_comm).
  subst E. rewrite (filter_key_unique _ _ id N.compare l x N_total_order Hnd Hin).
  cbn [filter]. destruct (p x); reflexivity.
Qed.

Lemma NoDup_pair : forall A (a b : A), a <> b -> NoDup [a; b].
Proof. intros A a b H. constructor; [intros [E|[]]; auto|]. constructor; [intros []|constructor]. Qed.

Lemma StronglySorted_weaken : forall A (R S : A -> A -> Prop) l,
  (forall x y, R x y -> S x y) -> StronglySorted R l -> StronglySorted S l.
Proof.
  intros A R S l H. induction 1 as [|x r Hr IH Hall]; constructor; [exact IH|].
  eapply Forall_impl; [|exact Hall]. intros z. apply H.
Qed.

Lemma path_total_order : total_order path_cmp.
Proof. apply list_total_order. exact text_total_order. Qed.
Lemma mkey_total_order : total_order mkey_cmp.
Proof. apply pair_total_order; [exact text_total_order|apply opt_total_order; exact path_total_order]. Qed.
Lemma lkey_total_order : total_order lkey_cmp.
Proof. apply pair_total_order; [apply opt_total_order; exact path_total_order|exact N_total_order]. Qed.
Lemma tkey_total_order : total_order tkey_cmp.
Proof. apply pair_total_order; [exact text_total_order|apply list_total_order; exact lkey_total_order]. Qed.
Lemma gname_total_order : total_order gname_cmp.
Proof. apply opt_total_order. exact text_total_order. Qed.
Lemma gkey_total_order : total_order gkey_cmp.
Proof. apply pair_total_order; [exact gname_total_order|exact lkey_total_order]. Qed.
Lemma rloc_total_order : total_order rloc_cmp.
Proof. apply pair_total_order; [exact path_total_order|exact N_total_order]. Qed.

Lemma NoDup_map_pair_r : forall A B C (f : A -> B) (g : A -> C) l,
  NoDup (map g l) -> NoDup (map (fun x => (f x, g x)) l).
Proof. intros A B C f g l H. apply (NoDup_map_inv snd). rewrite map_map. exact H. Qed.

Lemma wf_modules_of_distinct : forall ms, modules_distinct ms -> wf_modules ms.
Proof. intros ms H. unfold wf_modules, mkey, mkey_k, modules_key_has_path. apply NoDup_map_pair_r. exact H. Qed.
Lemma wf_types_of_distinct : forall ts, types_distinct ts -> wf_types ts.
Proof. intros ts H. unfold wf_types, tkey, tkey_k, types_key_has_locs. apply NoDup_map_pair_r. exact H. Qed.
Lemma wf_globals_of_distinct : forall gs, globals_distinct gs -> wf_globals gs.
Proof. intros gs H. unfold wf_globals, gkey, gkey_k, gkey_n, globals_key_exact_name, globals_key_has_decl_id. apply NoDup_map_pair_r. exact H. Qed.

Lemma modules_k_reproducible : forall skip ms ms',
  NoDup (map (mkey_k true) ms) -> Permutation ms ms' ->
  export_modules_k true true skip ms = export_modules_k true true skip ms'.
Proof.
  intros skip ms ms' Hwf Hp. unfold export_modules_k, sort_if.
  rewrite (isort_perm_invariant _ _ (mkey_k true) mkey_cmp mkey_total_order ms ms' Hwf Hp). reflexivity.
Qed.

Lemma modules_reproducible : forall ms ms',
  wf_modules ms -> Permutation ms ms' -> export_modules ms = export_modules ms'.
Proof. (* typechecks as long as Gen.C35_sort says: sorted, by a key that has the path *)
  exact (modules_k_reproducible modules_skip_no_export).
Qed.

Lemma types_reproducible : forall ts ts',
  wf_types ts -> Permutation ts ts' -> export_types ts = export_types ts'.
Proof.
  intros ts ts' Hwf Hp. unfold export_types, export_types_f, types_sorted, sort_if.
  rewrite (isort_perm_invariant _ _ tkey tkey_cmp tkey_total_order
             (filter type_is_main ts) (filter type_is_main ts') Hwf (perm_filter _ _ _ _ Hp)).
  reflexivity.
Qed.

Lemma globals_reproducible : forall gs gs',
  wf_globals gs -> Permutation gs gs' -> export_globals gs = export_globals gs'.
Proof.
  intros gs gs' Hwf Hp. unfold export_globals, export_globals_f, export_globals_n, globals_sorted, sort_if. fold gkey_k. fold gkey.
  rewrite (isort_perm_invariant _ _ gkey gkey_cmp gkey_total_order
             (filter g_main gs) (filter g_main gs') Hwf (perm_filter _ _ _ _ Hp)).
  reflexivity.
Qed.

Lemma export_reproducible : forall ms ms' ts ts' gs gs',
  modules_distinct ms -> types_distinct ts -> globals_distinct gs ->
  Permutation ms ms' -> Permutation ts ts' -> Permutation gs gs' ->
  export ms ts gs = export ms' ts' gs'.
Proof.
  intros. unfold export.
  rewrite (modules_reproducible ms ms'), (types_reproducible ts ts'), (globals_reproducible gs gs');
    auto using wf_modules_of_distinct, wf_types_of_distinct, wf_globals_of_distinct.
Qed.

Lemma type_locs_reproducible : forall t t',
  NoDup (rendered_locs (td_locs t)) -> Permutation (td_locs t) (td_locs t') ->
  export_locs_f type_locs_sorted t = export_locs_f type_locs_sorted t'.
Proof.
  intros t t' Hnd Hp. unfold export_locs_f, type_locs_sorted, sort_if.
  assert (forall l l', Permutation l l' -> Permutation (rendered_locs l) (rendered_locs l')) as Hr.
  { induction 1; cbn [rendered_locs].
    - constructor.
    - destruct (l_path x); [apply perm_skip|]; assumption.
    - destruct (l_path x), (l_path y); try apply Permutation_refl. apply perm_swap.
    - eapply perm_trans; eassumption. }
  apply (isort_perm_invariant _ _ (fun k => k) rloc_cmp rloc_total_order).
  - rewrite map_id. exact Hnd.
  - apply Hr. exact Hp.
Qed.

Lemma modules_k_once : forall with_path sorted ms m,
  NoDup (map mi_file ms) -> In m ms ->
  occ mi_file N.compare (mi_file m) (export_modules_k with_path sorted false ms) = if mi_main m then 1%nat else 0%nat.
Proof.
  intros with_path sorted ms m Hnd Hin. unfold export_modules_k. cbn [andb negb]. rewrite filter_true.
  apply (occ_filtered _ mi_file mi_main ms); [exact Hnd|exact Hin|]. apply perm_filter, sort_if_perm.
Qed.

Lemma modules_complete_once : forall ms m,
  NoDup (map mi_file ms) -> In m ms ->
  occ mi_file N.compare (mi_file m) (export_modules ms) = if mi_main m then 1%nat else 0%nat.
Proof. exact (modules_k_once modules_key_has_path modules_sorted). Qed.

Lemma types_complete_once : forall ts t,
  NoDup (map td_id ts) -> In t ts ->
  occ (fun e => td_id (fst e)) N.compare (td_id t) (export_types ts)
  = if type_is_main t && type_exported_kind t then 1%nat else 0%nat.
Proof.
  intros ts t Hnd Hin. unfold export_types, export_types_f. rewrite occ_map.
  apply (occ_filtered _ td_id (fun t => type_is_main t && type_exported_kind t) ts); [exact Hnd|exact Hin|].
  rewrite <- filter_filter. apply perm_filter, sort_if_perm.
Qed.

Lemma gkey_le_name : forall x y, lek gkey gkey_cmp x y -> lek g_name gname_cmp x y.
Proof.
  unfold lek, gkey, gkey_k, gkey_n, globals_key_exact_name, gkey_cmp, pair_cmp. cbn [fst snd]. intros x y H Hgt. apply H.
  unfold gname_cmp in Hgt. rewrite Hgt. reflexivity.
Qed.

(** what is rendered before the de-duplication, sorted by name *)
Definition rendered_globals (gs : list global_decl) : list global_decl :=
  filter global_rendered (sort_if globals_sorted gkey gkey_cmp (filter g_main gs)).

Lemma rendered_globals_sorted : forall gs, StronglySorted (lek g_name gname_cmp) (rendered_globals gs).
Proof.
  intros gs. unfold rendered_globals, globals_sorted, sort_if.
  apply StronglySorted_filter. eapply StronglySorted_weaken; [apply gkey_le_name|].
  apply isort_sorted_le. exact gkey_total_order.
Qed.

Lemma rendered_globals_In : forall gs g,
  In g (rendered_globals gs) <-> (In g gs /\ g_main g = true /\ global_rendered g = true).
Proof. intros gs g. unfold rendered_globals. rewrite filter_In, In_sort_if, filter_In. tauto. Qed.

Lemma export_globals_dedup : forall gs, export_globals gs = dedup g_name gname_cmp (rendered_globals gs).
Proof. reflexivity. Qed.

Lemma globals_subset : forall gs e, In e (export_globals gs) -> In e gs /\ g_main e = true /\ g_typed e = true.
Proof.
  intros gs e H. rewrite export_globals_dedup in H.
  destruct (dedup_sorted_spec _ _ g_name gname_cmp gname_total_order _ (rendered_globals_sorted gs)) as (_ & _ & Hsub).
  apply Hsub in H. apply rendered_globals_In in H. destruct H as (H1 & H2 & H3).
  split; [exact H1|]. split; [exact H2|].
  unfold global_rendered in H3. destruct (g_name e); [exact H3|discriminate].
Qed.

Lemma globals_once : forall gs n,
  (exists g, In g gs /\ g_main g = true /\ g_typed g = true /\ g_name g = Some n) ->
  occ g_name gname_cmp (Some n) (export_globals gs) = 1%nat.
Proof.
  intros gs n (g & H1 & H2 & H3 & H4). rewrite export_globals_dedup.
  destruct (dedup_sorted_spec _ _ g_name gname_cmp gname_total_order _ (rendered_globals_sorted gs)) as (Hnd & Hkeys & _).
  assert (In (Some n) (map g_name (dedup g_name gname_cmp (rendered_globals gs)))) as Hin.
  { apply Hkeys. rewrite <- H4. apply in_map. apply rendered_globals_In.
    split; [exact H1|]. split; [exact H2|]. unfold global_rendered. rewrite H4. exact H3. }
  apply in_map_iff in Hin. destruct Hin as (x & Hx1 & Hx2). rewrite <- Hx1.
  apply occ_one; [exact gname_total_order|exact Hnd|exact Hx2].
Qed.

Lemma globals_none : forall gs n,
  (forall g, In g gs -> g_main g = true -> g_typed g = true -> g_name g <> Some n) ->
  occ g_name gname_cmp (Some n) (export_globals gs) = 0%nat.
Proof.
  intros gs n H. apply occ_zero; [exact gname_total_order|].
  intros y Hy. apply globals_subset in Hy. destruct Hy as (H1 & H2 & H3). apply H; assumption.
Qed.

(** the flags matter: without the sort / the de-duplication / with the skip the statements fail *)
Definition mA : module_info := {| mi_file := 1; mi_path := Some [[97]]; mi_name := [97]; mi_main := true; mi_export := true |}.
Definition mB : module_info := {| mi_file := 2; mi_path := Some [[98]]; mi_name := [98]; mi_main := true; mi_export := false |}.

Lemma modules_reproducible_iff_sorted : forall sorted,
  (forall ms ms', wf_modules ms -> Permutation ms ms' ->
     export_modules_f sorted false ms = export_modules_f sorted false ms') <-> sorted = true.
Proof.
  intros sorted. split.
  - intros H. destruct sorted; [reflexivity|]. exfalso.
    assert (wf_modules [mA; mB]) as Hwf by (apply NoDup_pair; discriminate).
    specialize (H [mA; mB] [mB; mA] Hwf (perm_swap _ _ _)). vm_compute in H. discriminate.
  - intros ->. exact (modules_k_reproducible false).
Qed.

Definition mC : module_info := {| mi_file := 3; mi_path := Some [[97]; [105]]; mi_name := [97]; mi_main := true; mi_export := true |}.

(** ties of a key that does not identify the module stay in enumeration order *)
Lemma modules_reproducible_iff_key_has_path : forall with_path,
  (forall ms ms', modules_distinct ms -> Permutation ms ms' ->
     export_modules_k with_path true false ms = export_modules_k with_path true false ms') <-> with_path = true.
Proof.
  intros with_path. split.
  - intros H. destruct with_path; [reflexivity|]. exfalso.
    assert (modules_distinct [mA; mC]) as Hd by (apply NoDup_pair; discriminate).
    specialize (H [mA; mC] [mC; mA] Hd (perm_swap _ _ _)). vm_compute in H. discriminate.
  - intros -> ms ms' Hd. apply modules_k_reproducible. apply NoDup_map_pair_r. exact Hd.
Qed.

Lemma modules_complete_iff_not_skipped : forall skip,
  (forall ms m, NoDup (map mi_file ms) -> In m ms -> mi_main m = true ->
     occ mi_file N.compare (mi_file m) (export_modules_f true skip ms) = 1%nat) <-> skip = false.
Proof.
  intros skip. split.
  - intros H. destruct skip; [|reflexivity]. exfalso.
    assert (NoDup (map mi_file [mA; mB])) as Hnd by (apply NoDup_pair; discriminate).
    specialize (H [mA; mB] mB Hnd (or_intror (or_introl eq_refl)) eq_refl). vm_compute in H. discriminate.
  - intros -> ms m Hnd Hin Hmain. unfold export_modules_f. rewrite modules_k_once, Hmain by assumption. reflexivity.
Qed.

Definition gA1 : global_decl := {| g_name := Some [71]; g_path := Some [[97]]; g_pos := 0; g_line := 1; g_main := true; g_typed := true |}.
Definition gA2 : global_decl := {| g_name := Some [71]; g_path := Some [[98]]; g_pos := 4; g_line := 2; g_main := true; g_typed := true |}.

Lemma globals_once_iff_dedup : forall dedupf,
  (forall gs n, (exists g, In g gs /\ g_main g = true /\ g_typed g = true /\ g_name g = Some n) ->
     occ g_name gname_cmp (Some n) (export_globals_f true dedupf gs) = 1%nat) <-> dedupf = true.
Proof.
  intros dedupf. split.
  - intros H. destruct dedupf; [reflexivity|]. exfalso.
    specialize (H [gA1; gA2] [71]).
    assert (exists g, In g [gA1; gA2] /\ g_main g = true /\ g_typed g = true /\ g_name g = Some [71]) as Hex.
    { exists gA1. cbn. auto. }
    specialize (H Hex). vm_compute in H. discriminate.
  - intros ->. exact globals_once.
Qed.

(** the de-duplication needs the sort to keep equal names adjacent: sorted by the exact name *)
Definition gS1 : global_decl := {| g_name := Some [83]; g_path := Some [[97]]; g_pos := 0; g_line := 1; g_main := true; g_typed := true |}.
Definition gs1 : global_decl := {| g_name := Some [115]; g_path := Some [[97]]; g_pos := 11; g_line := 2; g_main := true; g_typed := true |}.
Definition gS2 : global_decl := {| g_name := Some [83]; g_path := Some [[98]]; g_pos := 0; g_line := 1; g_main := true; g_typed := true |}.

Lemma globals_once_iff_sort_refines_dedup : forall exact,
  (forall gs n, (exists g, In g gs /\ g_main g = true /\ g_typed g = true /\ g_name g = Some n) ->
     occ g_name gname_cmp (Some n) (export_globals_n exact true true gs) = 1%nat) <-> exact = true.
Proof.
  intros exact. split.
  - intros H. destruct exact; [reflexivity|]. exfalso.
    specialize (H [gS1; gs1; gS2] [83]).
    assert (exists g, In g [gS1; gs1; gS2] /\ g_main g = true /\ g_typed g = true /\ g_name g = Some [83]) as Hex.
    { exists gS1. cbn. auto. }
    specialize (H Hex). vm_compute in H. discriminate.
  - intros ->. exact globals_once.
Qed.

Lemma merged_bases_reproducible : forall parts parts',
  NoDup (map cp_file parts) -> Permutation parts parts' -> merged_bases_f true parts = merged_bases_f true parts'.
Proof.
  intros parts parts' Hnd Hp. unfold merged_bases_f, sort_if.
  rewrite (isort_perm_invariant _ _ cp_file N.compare N_total_order parts parts' Hnd Hp). reflexivity.
Qed.

Lemma split_class_content_reproducible : forall parts parts',
  NoDup (map cp_file parts) -> Permutation parts parts' -> merged_bases parts = merged_bases parts'.
Proof. exact merged_bases_reproducible. Qed.

Lemma split_class_reproducible_iff_sorted : forall sorted,
  (forall parts parts', NoDup (map cp_file parts) -> Permutation parts parts' ->
     merged_bases_f sorted parts = merged_bases_f sorted parts') <-> sorted = true.
Proof.
  intros sorted. split.
  - intros H. destruct sorted; [reflexivity|]. exfalso.
    pose (a := {| cp_file := 1; cp_bases := [[70]] |}). pose (b := {| cp_file := 2; cp_bases := [[66]] |}).
    assert (NoDup (map cp_file [a; b])) as Hnd by (apply NoDup_pair; discriminate).
    specialize (H [a; b] [b; a] Hnd (perm_swap _ _ _)). vm_compute in H. discriminate.
  - intros ->. exact merged_bases_reproducible.
Qed.

Definition ex_modules : list module_info :=
  [ {| mi_file := 7; mi_path := Some [[109]; [98]]; mi_name := [98]; mi_main := true; mi_export := false |};
    {| mi_file := 3; mi_path := None; mi_name := [115]; mi_main := false; mi_export := true |};
    {| mi_file := 5; mi_path := Some [[109]; [97]]; mi_name := [97]; mi_main := true; mi_export := true |};
    {| mi_file := 9; mi_path := Some [[108]; [97]]; mi_name := [97]; mi_main := false; mi_export := true |} ].

Definition ex_globals : list global_decl :=
  [ {| g_name := Some [71; 50]; g_path := Some [[109]; [98]]; g_pos := 0; g_line := 1; g_main := true; g_typed := true |};
    {| g_name := Some [71; 49]; g_path := Some [[109]; [98]]; g_pos := 9; g_line := 2; g_main := true; g_typed := true |};
    {| g_name := Some [71; 49]; g_path := Some [[109]; [97]]; g_pos := 3; g_line := 1; g_main := true; g_typed := true |};
    {| g_name := Some [76]; g_path := Some [[108]; [97]]; g_pos := 0; g_line := 1; g_main := false; g_typed := true |} ].

Lemma export_example :
  map mi_file (export_modules ex_modules) = [5; 7]
  /\ map mi_file (export_modules (rev ex_modules)) = [5; 7]
  /\ map (fun g => (g_name g, g_line g)) (export_globals ex_globals) = [(Some [71; 49], 1); (Some [71; 50], 1)]
  /\ export_globals (rev ex_globals) = export_globals ex_globals.
Proof. vm_compute. repeat split. Qed.
