(** C27/Props.v — property theorems only.  Each is closed by [exact] of a lemma of Proofs.v. *)
From Coq Require Import List NArith Bool String.
Import ListNotations.
From EV Require Import Base.LTS Gen.C27_Notify Gen.C27_Sync C27.Model C27.Proofs.
From EV Require C29.Model C29.Proofs.
Local Open Scope N_scope.

(** TABLE OBLIGATION (re-checked against today's dispatch_notification! lists): didOpen, didChange
    and didClose are all awaited inline on the main loop. *)
Theorem today_all_inline : all_inline today = true.
Proof. exact Proofs.today_all_inline. Qed.

(** If open/change/close are all handled inline then — for EVERY environment, initial state,
    notification sequence and EVERY schedule (interleaving of the main loop with the spawned
    handlers of all other notifications) — at quiescence the documents are exactly what handling
    the notifications one after the other in message order gives; in particular every document
    holds the text of the last notification about it (editor text always, analysed text for
    workspace files), and a document closed last holds no editor text and is gone from the
    analysis when it is not on disk, resp. analysed with its on-disk content when it is a
    workspace module on disk. *)
Theorem inline_in_order :
  forall (e : env) (tb : table) (d0 : docs) (ns : list notif) (sched : list label) (s : state),
    all_inline tb = true ->
    run (step e tb) (init d0 ns) sched = Some s ->
    quiescent (step e tb) s ->
    s_docs s = apply_all e ns d0 /\
    forall u,
      match last_of u ns LNone with
      | LText t => d_open (s_docs s) u = Some t /\ (is_ws e u = true -> d_vfs (s_docs s) u = Some t)
      | LClosed => d_open (s_docs s) u = None /\ (on_disk e u = false -> d_vfs (s_docs s) u = None) /\
                   (forall t, on_disk e u = true -> is_mod e u = true -> disk_text e u = Some t ->
                              d_vfs (s_docs s) u = None \/ d_vfs (s_docs s) u = Some t)
      | LNone => d_open (s_docs s) u = d_open d0 u /\ d_vfs (s_docs s) u = d_vfs d0 u
      end.
Proof. exact Proofs.inline_in_order. Qed.

(** The same for the tables read off today's source. *)
Theorem today_in_order :
  forall (e : env) (d0 : docs) (ns : list notif) (sched : list label) (s : state),
    run (step e today) (init d0 ns) sched = Some s ->
    quiescent (step e today) s ->
    s_docs s = apply_all e ns d0.
Proof. exact Proofs.today_in_order. Qed.

(** Every schedule is finite (bounded by a measure of the initial state) and can be completed to
    a quiescent state: the hypothesis of [inline_in_order] is always reachable. *)
Theorem schedules_terminate :
  forall (e : env) (tb : table) (d0 : docs) (ns : list notif) (sched : list label) (s : state),
    run (step e tb) (init d0 ns) sched = Some s ->
    (List.length sched <= measure (init d0 ns))%nat /\
    exists sched' s', run (step e tb) s sched' = Some s' /\ quiescent (step e tb) s'.
Proof. exact Proofs.schedules_terminate. Qed.

(** With didOpen spawned and didChange inline (the table before the repair) the statement is
    false: a schedule of the main loop and ONE spawned task ends with the analysis on the didOpen
    text although the last notification was the didChange. *)
Definition open_spawned : table := fun k => match k with KOpen => false | _ => true end.

Theorem spawned_open_refuted :
  exists (e : env) (ns : list notif) (sched : list label) (s : state),
    run (step e open_spawned) (init empty_docs ns) sched = Some s /\
    quiescent (step e open_spawned) s /\
    is_ws e 1 = true /\
    last_of 1 ns LNone = LText 20 /\
    d_vfs (s_docs s) 1 = Some 10 /\ d_open (s_docs s) 1 = Some 10.
Proof. exact Proofs.spawned_open_refuted. Qed.

(** [inline_in_order] treats every task other than the three document handlers as a non-writer of
    document texts.  The one task that does write them is a workspace reload (it re-indexes the
    workspace with a SNAPSHOT of the open documents and then re-applies what changed meanwhile, decided
    by the open-documents version).  That interleaving is the LTS of C29/Model.v; the statement below is
    its convergence theorem (C29/Proofs.reload_converges) instantiated with the bump rule read off
    TODAY's source, so it — and this property's proof side — breaks when [sync_open_file] stops bumping
    the version on every call.

    TABLE OBLIGATION: sync_open_file / close_open_file bump the version unconditionally, and the
    handler / reload section orders are the modelled ones. *)
Theorem today_version_bumps :
  sync_bumps_always = true /\ close_bumps_always = true /\ handler_sections_ok = true /\ reload_sections_ok = true.
Proof. exact Proofs.today_version_bumps. Qed.

(** For every disk, start state, list of document notifications, number of reload requests and EVERY
    interleaving of the inline handlers' sections with the reload's sections: at quiescence the editor
    texts are the message-order result and every open workspace document is analysed with the text of
    its last notification (a closed one with its disk content, or not at all). *)
Theorem last_text_wins_across_reload :
  forall (disk : C29.Model.uri -> option C29.Model.text) (s0 s : C29.Model.st),
    C29.Model.start disk s0 ->
    C29.Model.reach disk sync_bumps_always s0 s ->
    C29.Model.quiescent s ->
    forall u,
      C29.Model.wopen s u = C29.Model.editor (C29.Model.wopen s0) (C29.Model.queue s0) u /\
      C29.Model.an s u = match C29.Model.wopen s u with Some t => Some t | None => disk u end.
Proof. exact Proofs.last_text_wins_across_reload. Qed.

(** With a version that is bumped only for documents that were not open before, an edit of an already
    open document that lands between the reload's snapshot and its re-index is lost: quiescent, editor
    text 2, analysed text 1. *)
Theorem bump_only_new_refuted :
  C29.Model.start C29.Proofs.no_disk C29.Proofs.stale_start /\
  exists s, C29.Model.reach C29.Proofs.no_disk false C29.Proofs.stale_start s /\ C29.Model.quiescent s /\
            C29.Model.wopen s 0%nat = Some 2%nat /\ C29.Model.an s 0%nat = Some 1%nat.
Proof. exact Proofs.bump_only_new_refuted. Qed.

(** non-vacuity: three documents, re-open after close, an empty change, spawned didSave tasks
    interleaved at arbitrary points; the run is quiescent and ends in message order *)
Example inline_example :
  let e := {| is_ws := fun u => u <? 10; on_disk := fun u => u =? 2; is_mod := fun u => u <? 10; disk_text := fun u => if u =? 2 then Some 0 else None |} in
  let all := (fun _ : kind => true) in
  let ns := [NOpen 1 10; NOther false 2; NChange 1 (Some 11); NOpen 2 20; NClose 1; NOther false 1;
             NOpen 1 12; NChange 2 None; NClose 2; NOpen 30 40; NChange 1 (Some 13)] in
  let sched := [LMain; LMain; LMain; LMain; LMain; LTask 0; LMain; LMain; LMain; LMain; LMain; LMain; LTask 0;
                LMain; LMain; LMain; LMain; LMain; LMain; LMain; LMain; LTask 1; LMain; LMain; LMain; LMain; LMain;
                LMain; LMain; LMain; LMain; LMain; LMain; LMain; LMain; LMain; LTask 0; LTask 0] in
  match run (step e all) (init empty_docs ns) sched with
  | Some s => quiescentb s = true /\
              d_open (s_docs s) 1 = Some 13 /\ d_vfs (s_docs s) 1 = Some 13 /\
              d_open (s_docs s) 2 = None /\ d_vfs (s_docs s) 2 = Some 0 /\
              d_open (s_docs s) 30 = Some 40 /\ d_vfs (s_docs s) 30 = None
  | None => False
  end.
Proof. exact Proofs.inline_example. Qed.
