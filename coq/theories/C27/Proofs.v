(** With every handler inline, the documents the running handler will leave behind ([cur]), followed by
    the notifications still queued, always amount to the whole history applied in order; spawned tasks
    are then no-ops.  [holds] reads off the last notification about a uri what that uri ends with. *)
From Coq Require Import List NArith Bool String Arith Lia.
Import ListNotations.
From EV Require Import Base.LTS Gen.C27_Notify C27.Model.
Local Open Scope list_scope.

Arguments N.eqb : simpl never.

Lemma pc_size_pos : forall p, 1 <= pc_size p.
Proof. destruct p; cbn; lia. Qed.

Lemma exec_size : forall e p d d' q, exec e p d = (d', Some q) -> pc_size q < pc_size p.
Proof.
  intros e p d d' q H. destruct p; cbn [exec] in H.
  - (* POC1 *) inversion H; subst; cbn; lia.
  - (* POC2 *) destruct sp; inversion H; subst; cbn; lia.
  - (* POC3 *) inversion H.
  - (* PCL1 *) inversion H; subst; cbn; lia.
  - (* PCL2 *) destruct (negb (on_disk e u)); [inversion H|].
    destruct (d_vfs d u) as [cur|]; [|inversion H].
    destruct (negb (is_mod e u)); [inversion H; subst; cbn; lia|].
    destruct (disk_text e u) as [t|]; [|inversion H].
    destruct (N.eqb cur t); inversion H; subst; cbn; lia.
  - (* PCL3 *) inversion H.
  - (* PCL4 *) inversion H.
  - (* PNop *) destruct k; inversion H; subst; cbn; lia.
Qed.

Lemma finish_fuel : forall e n m p d,
  pc_size p <= n -> pc_size p <= m -> finish n e p d = finish m e p d.
Proof.
  intros e. induction n as [|n IH]; intros m p d Hn Hm.
  - pose proof (pc_size_pos p). lia.
  - destruct m as [|m]; [pose proof (pc_size_pos p); lia|].
    cbn [finish]. destruct (exec e p d) as [d' [q|]] eqn:E; [|reflexivity].
    apply exec_size in E. apply IH; lia.
Qed.

Lemma fin_unfold : forall e p d,
  fin e p d = match exec e p d with (d', None) => d' | (d', Some q) => fin e q d' end.
Proof.
  intros e p d. unfold fin. pose proof (pc_size_pos p) as Hp.
  destruct (pc_size p) as [|m] eqn:Es; [lia|]. cbn [finish].
  destruct (exec e p d) as [d' [q|]] eqn:E; [|reflexivity].
  apply exec_size in E. apply finish_fuel; lia.
Qed.

Lemma fin_nop : forall e k d, fin e (PNop k) d = d.
Proof.
  intros e. induction k as [|k IH]; intros d; rewrite fin_unfold; cbn [exec]; [reflexivity|apply IH].
Qed.

Lemma fin_oc : forall e u t d,
  fin e (POC1 u t) d =
  if is_some (d_vfs d u) || is_ws e u then set_vfs u (Some t) (set_open u (Some t) d)
  else set_open u (Some t) d.
Proof.
  intros. rewrite fin_unfold. cbn [exec]. rewrite fin_unfold. cbn [exec].
  destruct (is_some (d_vfs d u) || is_ws e u); [|reflexivity].
  rewrite fin_unfold. reflexivity.
Qed.

Definition after_close (e : env) (u : uri) (d1 : docs) : docs :=
  if negb (on_disk e u) then set_vfs u None d1
  else match d_vfs d1 u with
       | None => d1
       | Some cur =>
           if negb (is_mod e u) then set_vfs u None d1
           else match disk_text e u with
                | Some t => if N.eqb cur t then d1 else set_vfs u (Some t) d1
                | None => d1
                end
       end.

Lemma fin_cl : forall e u d, fin e (PCL1 u) d = after_close e u (set_open u None d).
Proof.
  intros. rewrite fin_unfold. cbn [exec]. rewrite fin_unfold. cbn [exec]. unfold after_close.
  destruct (negb (on_disk e u)); [reflexivity|].
  destruct (d_vfs (set_open u None d) u) as [cur|]; [|reflexivity].
  destruct (negb (is_mod e u)); [rewrite fin_unfold; reflexivity|].
  destruct (disk_text e u) as [t|]; [|reflexivity].
  destruct (N.eqb cur t); [reflexivity|]. rewrite fin_unfold. reflexivity.
Qed.

Definition is_nop (p : pc) : Prop := exists k, p = PNop k.

Lemma Forall_remove_nth : forall {A} (P : A -> Prop) k l, Forall P l -> Forall P (remove_nth k l).
Proof.
  intros A P. induction k as [|k IH]; intros [|x r] H; cbn [remove_nth]; try constructor.
  - inversion H; assumption.
  - inversion H; assumption.
  - inversion H; subst. apply IH. assumption.
Qed.

Lemma Forall_replace_nth : forall {A} (P : A -> Prop) k y l, P y -> Forall P l -> Forall P (replace_nth k y l).
Proof.
  intros A P. induction k as [|k IH]; intros y [|x r] Hy H; cbn [replace_nth]; try constructor.
  - assumption.
  - inversion H; assumption.
  - inversion H; assumption.
  - inversion H; subst. apply IH; assumption.
Qed.

Definition cur (e : env) (s : state) : docs :=
  match s_main s with Some p => fin e p (s_docs s) | None => s_docs s end.

Definition inv (e : env) (d0 : docs) (ns : list notif) (s : state) : Prop :=
  Forall is_nop (s_tasks s) /\ apply_all e (s_input s) (cur e s) = apply_all e ns d0.

Lemma inv_step : forall e tb d0 ns l s s',
  all_inline tb = true -> inv e d0 ns s -> step e tb l s = Some s' -> inv e d0 ns s'.
Proof.
  intros e tb d0 ns l s s' Hall [Hnop Heq] Hstep.
  unfold all_inline in Hall. apply andb_true_iff in Hall as [Hall Hc]. apply andb_true_iff in Hall as [Ho Hch].
  destruct l as [|k]; cbn [step] in Hstep.
  - destruct (s_main s) as [p|] eqn:Em.
    + destruct (exec e p (s_docs s)) as [d' p'] eqn:E. inversion Hstep; subst s'; clear Hstep.
      split; [exact Hnop|]. unfold cur in *. cbn [s_main s_docs s_input]. rewrite Em in Heq.
      rewrite fin_unfold, E in Heq. destruct p'; exact Heq.
    + destruct (s_input s) as [|n r] eqn:Ei; [discriminate|]. inversion Hstep; subst s'; clear Hstep.
      unfold cur in Heq. rewrite Em in Heq. unfold apply_all in Heq. cbn [fold_left] in Heq.
      unfold apply_notif at 2 in Heq.
      destruct (first_pc n) as [p|] eqn:Ef.
      * destruct (inline_of tb n) eqn:Ein.
        -- split; [exact Hnop|]. unfold cur. cbn [s_main s_docs s_input]. exact Heq.
        -- (* only an [NOther false k] can be spawned *)
           destruct n as [u t|u t|u|sync k]; cbn [inline_of] in Ein; try congruence.
           cbn [first_pc] in Ef. inversion Ef; subst p. subst sync.
           split.
           ++ cbn [s_tasks]. apply Forall_app. split; [exact Hnop|]. constructor; [exists k; reflexivity|constructor].
           ++ unfold cur. cbn [s_main s_docs s_input]. rewrite fin_nop in Heq. exact Heq.
      * split; [exact Hnop|]. unfold cur. cbn [s_main s_docs s_input]. exact Heq.
  - destruct (nth_error (s_tasks s) k) as [p|] eqn:En; [|discriminate].
    destruct (proj1 (Forall_forall _ _) Hnop p (nth_error_In _ _ En)) as [j Hj]. subst p. cbn [exec] in Hstep.
    inversion Hstep; subst s'; clear Hstep. split.
    + cbn [s_tasks]. destruct j.
      * apply Forall_remove_nth. exact Hnop.
      * apply Forall_replace_nth; [exists j; reflexivity|exact Hnop].
    + unfold cur in *. cbn [s_main s_docs s_input]. exact Heq.
Qed.

Definition pick (s : state) : option label :=
  match s_tasks s with
  | _ :: _ => Some (LTask 0)
  | [] => match s_main s, s_input s with
          | None, [] => None
          | _, _ => Some LMain
          end
  end.

Lemma quiescentb_sound : forall e tb s, quiescentb s = true -> quiescent (step e tb) s.
Proof.
  intros e tb s H. unfold quiescentb in H.
  destruct (s_main s) eqn:Em; [discriminate|]. destruct (s_input s) eqn:Ei; [|discriminate].
  destruct (s_tasks s) eqn:Et; [|discriminate].
  intros [|k]; cbn [step]; rewrite ?Em, ?Ei, ?Et; [reflexivity|]. destruct k; reflexivity.
Qed.

Lemma pick_spec : forall e tb, picks (step e tb) pick.
Proof.
  intros e tb s. unfold pick. destruct (s_tasks s) as [|p r] eqn:Et.
  - destruct (s_main s) as [p|] eqn:Em.
    + cbn [step]. rewrite Em. destruct (exec e p (s_docs s)). eexists; reflexivity.
    + destruct (s_input s) as [|n r] eqn:Ei.
      * apply quiescentb_sound. unfold quiescentb. rewrite Em, Ei, Et. reflexivity.
      * cbn [step]. rewrite Em, Ei. eexists; reflexivity.
  - cbn [step]. rewrite Et. cbn [nth_error]. destruct (exec e p (s_docs s)). eexists; reflexivity.
Qed.

Lemma quiescent_shape : forall e tb s,
  quiescent (step e tb) s -> s_main s = None /\ s_input s = [] /\ s_tasks s = [].
Proof.
  intros e tb s Hq. pose proof (quiescent_pick _ _ _ pick (pick_spec e tb) s Hq) as Hp. unfold pick in Hp.
  destruct (s_tasks s); [|discriminate]. destruct (s_main s); [discriminate|]. destruct (s_input s); [auto|discriminate].
Qed.

Lemma inline_run : forall e tb d0 ns sched s,
  all_inline tb = true ->
  run (step e tb) (init d0 ns) sched = Some s -> quiescent (step e tb) s ->
  s_docs s = apply_all e ns d0.
Proof.
  intros e tb d0 ns sched s Hall Hr Hq.
  assert (Hi : inv e d0 ns s).
  { eapply (run_invariant _ _ (step e tb) (inv e d0 ns)); [| |exact Hr].
    - intros l s1 s2 H1 H2. eapply inv_step; eassumption.
    - split; [constructor|reflexivity]. }
  destruct Hi as [_ Heq]. destruct (quiescent_shape e tb s Hq) as [Hm [Hi _]].
  unfold cur in Heq. rewrite Hm, Hi in Heq. exact Heq.
Qed.

Definition holds (e : env) (u : uri) (a : last_about) (d0 d : docs) : Prop :=
  match a with
  | LNone => d_open d u = d_open d0 u /\ d_vfs d u = d_vfs d0 u
  | LText t => d_open d u = Some t /\ (is_ws e u = true -> d_vfs d u = Some t)
  | LClosed => d_open d u = None /\ (on_disk e u = false -> d_vfs d u = None) /\
               (forall t, on_disk e u = true -> is_mod e u = true -> disk_text e u = Some t ->
                          d_vfs d u = None \/ d_vfs d u = Some t)
  end.

Lemma upd_same : forall f u v, upd f u v u = v.
Proof. intros. unfold upd. rewrite N.eqb_refl. reflexivity. Qed.

Lemma upd_other : forall f u v x, N.eqb u x = false -> upd f u v x = f x.
Proof. intros. unfold upd. rewrite N.eqb_sym, H. reflexivity. Qed.

Lemma oc_frame : forall e v t d u, N.eqb v u = false ->
  d_open (fin e (POC1 v t) d) u = d_open d u /\ d_vfs (fin e (POC1 v t) d) u = d_vfs d u.
Proof.
  intros. rewrite fin_oc. destruct (is_some (d_vfs d v) || is_ws e v);
    cbn [set_vfs set_open d_open d_vfs]; rewrite ?upd_other by assumption; split; reflexivity.
Qed.

Lemma oc_hit : forall e u t d,
  d_open (fin e (POC1 u t) d) u = Some t /\ (is_ws e u = true -> d_vfs (fin e (POC1 u t) d) u = Some t).
Proof.
  intros. rewrite fin_oc. destruct (is_some (d_vfs d u) || is_ws e u) eqn:E;
    cbn [set_vfs set_open d_open d_vfs]; rewrite ?upd_same; split; try reflexivity.
  intros Hw. rewrite Hw, orb_true_r in E. discriminate.
Qed.

Lemma cl_frame : forall e v d u, N.eqb v u = false ->
  d_open (fin e (PCL1 v) d) u = d_open d u /\ d_vfs (fin e (PCL1 v) d) u = d_vfs d u.
Proof.
  intros. rewrite fin_cl. unfold after_close.
  destruct (negb (on_disk e v)); [|destruct (d_vfs (set_open v None d) v) as [cur|];
    [destruct (negb (is_mod e v)); [|destruct (disk_text e v) as [t|]; [destruct (N.eqb cur t)|]]|]];
    cbn [set_vfs set_open d_open d_vfs]; rewrite ?upd_other by assumption; split; reflexivity.
Qed.

Lemma cl_hit : forall e u d,
  d_open (fin e (PCL1 u) d) u = None /\ (on_disk e u = false -> d_vfs (fin e (PCL1 u) d) u = None) /\
  (forall t, on_disk e u = true -> is_mod e u = true -> disk_text e u = Some t ->
             d_vfs (fin e (PCL1 u) d) u = None \/ d_vfs (fin e (PCL1 u) d) u = Some t).
Proof.
  intros. rewrite fin_cl. unfold after_close.
  destruct (negb (on_disk e u)) eqn:E.
  - cbn [set_vfs set_open d_open d_vfs]. rewrite !upd_same. split; [reflexivity|]. split; [reflexivity|]. intros; left; reflexivity.
  - apply negb_false_iff in E.
    destruct (d_vfs (set_open u None d) u) as [cur|] eqn:Ev.
    + destruct (negb (is_mod e u)) eqn:Em.
      * cbn [set_vfs set_open d_open d_vfs]. rewrite !upd_same. split; [reflexivity|]. split; [reflexivity|]. intros; left; reflexivity.
      * destruct (disk_text e u) as [t|] eqn:Ed.
        -- destruct (N.eqb cur t) eqn:Ec.
           ++ apply N.eqb_eq in Ec. subst cur. cbn [set_open d_open]. rewrite upd_same. split; [reflexivity|].
              split; [intros Hd; congruence|]. intros t' _ _ Ht. inversion Ht; subst. right. exact Ev.
           ++ cbn [set_vfs set_open d_open d_vfs]. rewrite !upd_same. split; [reflexivity|].
              split; [intros Hd; congruence|]. intros t' _ _ Ht. inversion Ht; subst. right. reflexivity.
        -- cbn [set_open d_open]. rewrite upd_same. split; [reflexivity|]. split; [intros Hd; congruence|]. intros; discriminate.
    + cbn [set_open d_open]. rewrite upd_same. split; [reflexivity|]. split; [intros; exact Ev|]. intros; left; exact Ev.
Qed.

Lemma holds_step : forall e u acc d0 d n,
  holds e u acc d0 d ->
  holds e u (match about u n with LNone => acc | x => x end) d0 (apply_notif e d n).
Proof.
  intros e u acc d0 d n H. unfold apply_notif.
  assert (Hframe : forall d', d_open d' u = d_open d u -> d_vfs d' u = d_vfs d u -> holds e u acc d0 d').
  { intros d' Ho Hv. unfold holds in *. destruct acc; rewrite Ho, Hv; exact H. }
  destruct n as [v t|v [t|]|v|sync k]; cbn [about first_pc].
  1, 2: destruct (N.eqb v u) eqn:E;
    [apply N.eqb_eq in E; subst v; apply oc_hit|destruct (oc_frame e v t d u E); apply Hframe; assumption].
  - exact H.
  - destruct (N.eqb v u) eqn:E.
    + apply N.eqb_eq in E. subst v. apply cl_hit.
    + destruct (cl_frame e v d u E). apply Hframe; assumption.
  - rewrite fin_nop. exact H.
Qed.

Lemma holds_all : forall e u ns acc d0 d,
  holds e u acc d0 d -> holds e u (last_of u ns acc) d0 (apply_all e ns d).
Proof.
  intros e u. induction ns as [|n r IH]; intros acc d0 d H; [exact H|].
  unfold apply_all. cbn [fold_left last_of]. apply IH. apply holds_step. exact H.
Qed.

Lemma last_wins : forall e u ns d0, holds e u (last_of u ns LNone) d0 (apply_all e ns d0).
Proof. intros. apply holds_all. split; reflexivity. Qed.

Definition measure (s : state) : nat :=
  fold_right (fun n acc => 1 + match first_pc n with Some p => pc_size p | None => 0 end + acc) 0 (s_input s)
  + match s_main s with Some p => pc_size p | None => 0 end
  + fold_right (fun p acc => pc_size p + acc) 0 (s_tasks s).

Definition tasks_size (l : list pc) : nat := fold_right (fun p acc => pc_size p + acc) 0 l.

Lemma tasks_size_cons : forall x r, tasks_size (x :: r) = pc_size x + tasks_size r.
Proof. reflexivity. Qed.

Lemma tasks_size_app : forall a b, tasks_size (a ++ b) = tasks_size a + tasks_size b.
Proof.
  induction a as [|x a IH]; intros b; cbn [app]; [reflexivity|].
  rewrite !tasks_size_cons, IH. lia.
Qed.

Lemma tasks_size_remove : forall k l p, nth_error l k = Some p -> tasks_size l = pc_size p + tasks_size (remove_nth k l).
Proof.
  induction k as [|k IH]; intros [|x r] p H; cbn [nth_error] in H; try discriminate.
  - inversion H; subst. reflexivity.
  - cbn [remove_nth]. rewrite !tasks_size_cons, (IH r p H). lia.
Qed.

Lemma tasks_size_replace : forall k l p q, nth_error l k = Some p ->
  tasks_size (replace_nth k q l) + pc_size p = tasks_size l + pc_size q.
Proof.
  induction k as [|k IH]; intros [|x r] p q H; cbn [nth_error] in H; try discriminate.
  - inversion H; subst. cbn [replace_nth]. rewrite !tasks_size_cons. lia.
  - cbn [replace_nth]. rewrite !tasks_size_cons. specialize (IH r p q H). lia.
Qed.

Lemma step_measure : forall e tb l s s', step e tb l s = Some s' -> measure s' < measure s.
Proof.
  intros e tb l s s' H. unfold measure. fold (tasks_size (s_tasks s)). fold (tasks_size (s_tasks s')).
  destruct l as [|k]; cbn [step] in H.
  - destruct (s_main s) as [p|] eqn:Em.
    + destruct (exec e p (s_docs s)) as [d' p'] eqn:E. inversion H; subst s'; clear H.
      cbn [s_input s_main s_tasks]. destruct p' as [q|].
      * apply exec_size in E. lia.
      * pose proof (pc_size_pos p). lia.
    + destruct (s_input s) as [|n r] eqn:Ei; [discriminate|]. inversion H; subst s'; clear H.
      cbn [fold_right]. destruct (first_pc n) as [p|].
      * destruct (inline_of tb n); cbn [s_input s_main s_tasks]; rewrite ?tasks_size_app, ?tasks_size_cons; cbn [tasks_size fold_right]; lia.
      * cbn [s_input s_main s_tasks]. lia.
  - destruct (nth_error (s_tasks s) k) as [p|] eqn:En; [|discriminate].
    destruct (exec e p (s_docs s)) as [d' p'] eqn:E. inversion H; subst s'; clear H.
    cbn [s_input s_main s_tasks]. destruct p' as [q|].
    + apply exec_size in E. pose proof (tasks_size_replace k _ p q En). lia.
    + pose proof (tasks_size_remove k _ p En). pose proof (pc_size_pos p). lia.
Qed.

Lemma schedules_terminate :
  forall (e : env) (tb : table) (d0 : docs) (ns : list notif) (sched : list label) (s : state),
    run (step e tb) (init d0 ns) sched = Some s ->
    (List.length sched <= measure (init d0 ns))%nat /\
    exists sched' s', run (step e tb) s sched' = Some s' /\ quiescent (step e tb) s'.
Proof.
  intros e tb d0 ns sched s. exact (terminates _ _ _ measure pick (step_measure e tb) (pick_spec e tb) sched _ s).
Qed.

Lemma inline_in_order :
  forall (e : env) (tb : table) (d0 : docs) (ns : list notif) (sched : list label) (s : state),
    all_inline tb = true ->
    run (step e tb) (init d0 ns) sched = Some s ->
    quiescent (step e tb) s ->
    s_docs s = apply_all e ns d0 /\
    forall u,
      match last_of u ns LNone with
      | LText t => d_open (s_docs s) u = Some t /\ (is_ws e u = true -> d_vfs (s_docs s) u = Some t)
      | LClosed => d_open (s_docs s) u = None /\ (on_disk e u = false -> d_vfs (s_docs s) u = None) /\
                   (forall t, on_disk e u = true -> is_mod e u = true -> disk_text e u = Some t ->
                              d_vfs (s_docs s) u = None \/ d_vfs (s_docs s) u = Some t)
      | LNone => d_open (s_docs s) u = d_open d0 u /\ d_vfs (s_docs s) u = d_vfs d0 u
      end.
Proof.
  intros e tb d0 ns sched s Hall Hr Hq.
  pose proof (inline_run e tb d0 ns sched s Hall Hr Hq) as Heq. split; [exact Heq|].
  intros u. rewrite Heq. pose proof (last_wins e u ns d0) as H. unfold holds in H.
  destruct (last_of u ns LNone); exact H.
Qed.

Lemma today_all_inline : all_inline today = true.
Proof. vm_compute. reflexivity. Qed.

Lemma today_in_order :
  forall (e : env) (d0 : docs) (ns : list notif) (sched : list label) (s : state),
    run (step e today) (init d0 ns) sched = Some s ->
    quiescent (step e today) s ->
    s_docs s = apply_all e ns d0.
Proof. intros. eapply inline_run; [exact today_all_inline|eassumption|assumption]. Qed.

Definition open_spawned : table := fun k => match k with KOpen => false | _ => true end.

Lemma spawned_open_refuted :
  exists (e : env) (ns : list notif) (sched : list label) (s : state),
    run (step e open_spawned) (init empty_docs ns) sched = Some s /\
    quiescent (step e open_spawned) s /\
    is_ws e 1%N = true /\
    last_of 1%N ns LNone = LText 20%N /\
    d_vfs (s_docs s) 1%N = Some 10%N /\ d_open (s_docs s) 1%N = Some 10%N.
Proof.
  exists {| is_ws := fun _ => true; on_disk := fun _ => false; is_mod := fun _ => true; disk_text := fun _ => None |},
         [NOpen 1%N 10%N; NChange 1%N (Some 20%N)],
         (* main: dequeue didOpen (spawned), dequeue didChange, run its three sections; then the task *)
         [LMain; LMain; LMain; LMain; LMain; LTask 0; LTask 0; LTask 0].
  eexists. split; [vm_compute; reflexivity|].
  split; [apply quiescentb_sound; reflexivity|]. repeat split; reflexivity.
Qed.

Local Open Scope N_scope.
Lemma inline_example :
  let e := {| is_ws := fun u => u <? 10; on_disk := fun u => u =? 2; is_mod := fun u => u <? 10; disk_text := fun u => if u =? 2 then Some 0 else None |} in
  let all := (fun _ : kind => true) in
  let ns := [NOpen 1 10; NOther false 2; NChange 1 (Some 11); NOpen 2 20; NClose 1; NOther false 1;
             NOpen 1 12; NChange 2 None; NClose 2; NOpen 30 40; NChange 1 (Some 13)] in
  let sched := [LMain; LMain; LMain; LMain; LMain; LTask 0; LMain; LMain; LMain; LMain; LMain; LMain; LTask 0;
                LMain; LMain; LMain; LMain; LMain; LMain; LMain; LMain; LTask 1; LMain; LMain; LMain; LMain; LMain;
                LMain; LMain; LMain; LMain; LMain; LMain; LMain; LMain; LMain; LTask 0; LTask 0] in
  match run (step e all) (init empty_docs ns) sched with
  | Some s => quiescentb s = true /\
              d_open (s_docs s) 1 = Some 13 /\ d_vfs (s_docs s) 1 = Some 13 /\
              d_open (s_docs s) 2 = None /\ d_vfs (s_docs s) 2 = Some 0 /\
              d_open (s_docs s) 30 = Some 40 /\ d_vfs (s_docs s) 30 = None
  | None => False
  end.
Proof. vm_compute. repeat split; reflexivity. Qed.

(** The interleaving of the inline handlers with a workspace reload (snapshot / clear / re-index /
    version loop) is the LTS of C29/Model.v, parametrised by whether [sync_open_file] bumps the
    open-documents version on every call; C29/Proofs.v proves convergence for [always = true].
    Here the parameter is instantiated with the fact regenerated from today's source. *)
Require EV.C29.Model EV.C29.Proofs.
Require Import EV.Gen.C27_Sync.

Lemma today_version_bumps :
  sync_bumps_always = true /\ close_bumps_always = true /\ handler_sections_ok = true /\ reload_sections_ok = true.
Proof. repeat split; reflexivity. Qed.

Lemma last_text_wins_across_reload :
  forall (disk : C29.Model.uri -> option C29.Model.text) (s0 s : C29.Model.st),
    C29.Model.start disk s0 ->
    C29.Model.reach disk sync_bumps_always s0 s ->
    C29.Model.quiescent s ->
    forall u,
      C29.Model.wopen s u = C29.Model.editor (C29.Model.wopen s0) (C29.Model.queue s0) u /\
      C29.Model.an s u = match C29.Model.wopen s u with Some t => Some t | None => disk u end.
Proof.
  intros disk s0 s H0 Hr Hq u. destruct today_version_bumps as [Hb _]. rewrite Hb in Hr.
  exact (C29.Proofs.reload_converges disk s0 s H0 Hr Hq u).
Qed.

Lemma bump_only_new_refuted :
  C29.Model.start C29.Proofs.no_disk C29.Proofs.stale_start /\
  exists s, C29.Model.reach C29.Proofs.no_disk false C29.Proofs.stale_start s /\ C29.Model.quiescent s /\
            C29.Model.wopen s 0%nat = Some 2%nat /\ C29.Model.an s 0%nat = Some 1%nat.
Proof. exact C29.Proofs.bump_only_new_refuted. Qed.
