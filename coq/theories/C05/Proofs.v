From EV Require Import C05.Model C05.Facts C05.Res C05.Layer2 C05.Total.
From Coq Require String Ascii.
Import String.StringSyntax.
Delimit Scope string_scope with str.
Local Open Scope N_scope.

Lemma print_only_adds_blank : forall c ds e out,
  emitted c ds = Some e -> print c ds = Some out -> BlankEdit e out.
Proof.
  intros c ds e out He Ho. unfold emitted in He. unfold print in Ho.
  destruct (run c ds) as [st|] eqn:R; cbn [bind] in He, Ho; [|discriminate].
  inversion He; subst e. inversion Ho; subst out.
  pose proof (run_rout_blank_edit c ds st R) as H. unfold rout_blank_edit in H. rewrite remit_rev in H.
  apply be_rev in H. rewrite rev_involutive in H. exact H.
Qed.

Lemma print_preserves_atoms_gen : forall c ds out,
  print c ds = Some out -> suffix_ok ds = true ->
  exists a, ResL ds a /\ nonblank out = nonblank a.
Proof.
  intros c ds out H Hok. unfold print in H. destruct (run c ds) as [st|] eqn:R; cbn [bind] in H; [|discriminate].
  destruct (run_resolution _ _ _ R Hok) as [a [Ha Hb]].
  exists a. split; [exact Ha|]. rewrite <- Hb. symmetry. apply be_nonblank, (print_only_adds_blank c ds).
  - unfold emitted. rewrite R. reflexivity.
  - unfold print. rewrite R. exact H.
Qed.

Lemma print_preserves_atoms : forall c ds out,
  print c ds = Some out -> ifbreak_ok_list ds = true -> suffix_ok ds = true ->
  nonblank out = nonblank (atoms_list ds).
Proof.
  intros c ds out H Hib Hok. destruct (print_preserves_atoms_gen _ _ _ H Hok) as [a [Ha Hb]].
  rewrite Hb. apply resl_ifbreak_ok; assumption.
Qed.

Lemma print_total : forall c ds, exists out, print c ds = Some out.
Proof.
  intros c ds. destruct (run_total c ds) as [st H]. unfold print. rewrite H. cbn [bind]. eexists; reflexivity.
Qed.

Lemma errors_returned_unchanged : forall builder c src, reformat true builder c src = Some src.
Proof. reflexivity. Qed.

(** without the line-suffix discipline the printer can lose text: a line suffix pushed while the
    final flush is running is never printed *)
Lemma print_preserves_atoms_refuted_without_suffix_ok :
  exists c ds out, print c ds = Some out /\ ifbreak_ok_list ds = true /\
                   nonblank out <> nonblank (atoms_list ds).
Proof.
  exists (mkCfg 80 false 4 false 1 0), [LineSuffix [LineSuffix [Atom KText [120]]]], [].
  split; [vm_compute; reflexivity|]. split; [reflexivity|]. vm_compute. discriminate.
Qed.

(** ... and can reorder it: text printed after a pending line suffix overtakes it *)
Lemma print_reorders_without_suffix_ok :
  exists c ds out, print c ds = Some out /\ ifbreak_ok_list ds = true /\
                   nonblank out <> nonblank (atoms_list ds).
Proof.
  exists (mkCfg 80 false 4 false 1 0), [LineSuffix [Atom KText [120]]; Atom KText [121]; HardLine], [121; 120; 10].
  split; [vm_compute; reflexivity|]. split; [reflexivity|]. vm_compute. discriminate.
Qed.

Definition t_of (s : String.string) : text := map (fun a => Ascii.N_of_ascii a) (String.list_ascii_of_string s).

Definition example_ir : list doc :=
  [Atom KSourceToken (t_of "local"%str); Space; Atom KSourceToken (t_of "t"%str); Space; Atom KSyntaxToken (t_of "="%str); Space;
   Group [Atom KSyntaxToken (t_of "{"%str);
          Indent [SoftLine; Atom KSourceToken (t_of "a"%str); Atom KSyntaxToken (t_of ","%str); SoftLine;
                  Atom KSourceToken (t_of "b"%str); IfBreak (Atom KSyntaxToken (t_of ","%str)) (DList []) None];
          SoftLine; Atom KSyntaxToken (t_of "}"%str)] false None;
   LineSuffix [Space; Atom KText (t_of "-- c"%str)];
   HardLine].

Lemma print_example :
  suffix_ok example_ir = true /\ ifbreak_ok_list example_ir = false /\
  print (mkCfg 80 false 4 false 1 0) example_ir = Some (t_of "local t = { a, b } -- c"%str ++ [10]) /\
  print (mkCfg 10 true 4 true 1 0) example_ir =
    Some (t_of "local t = {"%str ++ [13; 10; 9] ++ t_of "a,"%str ++ [13; 10; 9] ++ t_of "b,"%str ++ [13; 10] ++ t_of "} -- c"%str ++ [13; 10]) /\
  exists a, ResL example_ir a /\ nonblank a = t_of "localt={a,b,}--c"%str.
Proof.
  split; [vm_compute; reflexivity|]. split; [vm_compute; reflexivity|].
  split; [vm_compute; reflexivity|]. split; [vm_compute; reflexivity|].
  eexists. split; [repeat econstructor|vm_compute; reflexivity].
Qed.
