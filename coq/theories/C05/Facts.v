(** C05/Facts.v — a state predicate kept by the seven operations through which the printer changes its
    state holds after a run ([run_pres]); so [rout] is a blank edit of the pushed atom texts. *)
From EV Require Import C05.Model.
From Coq Require Import ZArith.
Local Open Scope N_scope.

(** [wlp o Q]: if [o] is a value, the value satisfies [Q]; [defined o]: [o] is a value.
    Both pass through [bind]. *)

Definition wlp {A} (o : option A) (Q : A -> Prop) : Prop := forall a, o = Some a -> Q a.
Definition defined {A} (o : option A) : Prop := exists a, o = Some a.

Lemma wlp_some : forall A (a : A) (Q : A -> Prop), Q a -> wlp (Some a) Q.
Proof. intros A a Q H b E. inversion E; subst b. exact H. Qed.

Lemma wlp_none : forall A (Q : A -> Prop), wlp None Q.
Proof. intros A Q a E. discriminate E. Qed.

Lemma wlp_bind : forall A B (o : option A) (k : A -> option B) (P : A -> Prop) (Q : B -> Prop),
  wlp o P -> (forall a, P a -> wlp (k a) Q) -> wlp (bind o k) Q.
Proof. intros A B [a|] k P Q Ho Hk b E; [exact (Hk a (Ho a eq_refl) b E)|discriminate E]. Qed.

Lemma wlp_let : forall A B (o : option A) (k : A -> option B) (Q : B -> Prop),
  (forall a, wlp (k a) Q) -> wlp (bind o k) Q.
Proof. intros A B [a|] k Q Hk; [apply Hk|apply wlp_none]. Qed.

Lemma defined_some : forall A (a : A), defined (Some a).
Proof. intros A a. exists a. reflexivity. Qed.

Lemma defined_bind : forall A B (o : option A) (k : A -> option B),
  defined o -> (forall a, defined (k a)) -> defined (bind o k).
Proof. intros A B o k [a E] Hk. rewrite E. apply Hk. Qed.

(** induction along the recursion of [fill_with]: from a list to the tail of its tail *)
Lemma fill_ind : forall A (P : list A -> Prop),
  P [] -> (forall x rest, match rest with [] => True | _ :: rest2 => P rest2 end -> P (x :: rest)) -> forall l, P l.
Proof.
  intros A P H0 H1. fix IH 1. intros [|x rest]; [exact H0|]. apply H1. destruct rest as [|y rest2]; [exact I|apply IH].
Qed.

Lemma be_refl : forall a, BlankEdit a a.
Proof. induction a; constructor; assumption. Qed.

Lemma be_app : forall a o a' o', BlankEdit a o -> BlankEdit a' o' -> BlankEdit (a ++ a') (o ++ o').
Proof. intros a o a' o' H H'. induction H; cbn [app]; [exact H'|constructor; assumption..]. Qed.

Lemma be_rev : forall a o, BlankEdit a o -> BlankEdit (rev a) (rev o).
Proof.
  intros a o H. induction H; cbn [rev].
  - constructor.
  - apply be_app; [exact IHBlankEdit|]. apply BE_keep. constructor.
  - rewrite <- (app_nil_r (rev a)). apply be_app; [exact IHBlankEdit|]. apply BE_ins; [assumption|constructor].
  - rewrite <- (app_nil_r (rev o)). apply be_app; [exact IHBlankEdit|]. apply BE_del. constructor.
Qed.

Lemma nonblank_cons : forall ch t, nonblank (ch :: t) = if is_blank ch then nonblank t else ch :: nonblank t.
Proof. intros ch t. unfold nonblank. cbn [filter]. destruct (is_blank ch); reflexivity. Qed.

Lemma nonblank_app : forall a b, nonblank (a ++ b) = nonblank a ++ nonblank b.
Proof. intros a b. apply filter_app. Qed.

Lemma be_nonblank : forall a o, BlankEdit a o -> nonblank a = nonblank o.
Proof.
  intros a o H. induction H.
  - reflexivity.
  - rewrite !nonblank_cons, IHBlankEdit. reflexivity.
  - rewrite nonblank_cons, H. assumption.
  - assumption.
Qed.

Lemma be_drop_spaces : forall a o, BlankEdit a o -> BlankEdit a (drop_spaces o).
Proof.
  intros a o H. induction H; cbn [drop_spaces].
  - constructor.
  - destruct (N.eqb_spec ch SPc) as [->|_]; [apply BE_del; exact IHBlankEdit|apply BE_keep; exact H].
  - destruct (ch =? SPc); [exact IHBlankEdit|apply BE_ins; assumption].
  - apply BE_del. exact IHBlankEdit.
Qed.

Lemma be_rev_append_keep : forall s a o, BlankEdit a o -> BlankEdit (rev_append s a) (rev_append s o).
Proof.
  induction s as [|x s IH]; intros a o H; cbn [rev_append]; [exact H|].
  apply IH. apply BE_keep. exact H.
Qed.

Lemma be_rev_append_ins : forall s a o, forallb is_blank s = true -> BlankEdit a o -> BlankEdit a (rev_append s o).
Proof.
  induction s as [|x s IH]; intros a o Hs H; cbn [rev_append]; [exact H|].
  cbn [forallb] in Hs. apply andb_true_iff in Hs. destruct Hs as [Hx Hs].
  apply IH; [exact Hs|]. apply BE_ins; assumption.
Qed.

Definition emit (st : state) : text := atoms_of_evs (evs st).

Lemma sfx_flush_pending : forall c s st, sfx (flush_pending c s st) = sfx st.
Proof.
  intros c s st. unfold flush_pending. destruct (pending st); [|reflexivity].
  destruct s; reflexivity.
Qed.

Lemma sfx_push_text : forall c b s st, sfx (push_text c b s st) = sfx st.
Proof. intros. apply sfx_flush_pending. Qed.

(** the pushed atom texts, reversed like [rout] *)
Fixpoint remit (l : list ev) : text :=
  match l with
  | [] => []
  | EvAtom s :: r => rev_append s (remit r)
  | _ :: r => remit r
  end.

Lemma remit_rev : forall l, remit l = rev (atoms_of_evs l).
Proof.
  induction l as [|e l IH]; [reflexivity|].
  destruct e; cbn [remit atoms_of_evs]; try exact IH.
  rewrite rev_append_rev, rev_app_distr, IH. reflexivity.
Qed.

Lemma spaces_blank : forall k, forallb is_blank (spaces k) = true.
Proof.
  intros k. unfold spaces. induction (N.to_nat k) as [|n IH]; [reflexivity|exact IH].
Qed.

Lemma indent_str_blank : forall c, forallb is_blank (indent_str c) = true.
Proof. intros c. unfold indent_str. destruct (use_tab c); [reflexivity|apply spaces_blank]. Qed.

Lemma repeat_text_blank : forall s k, forallb is_blank s = true -> forallb is_blank (repeat_text s k) = true.
Proof.
  intros s k Hs. induction k as [|k IH]; [reflexivity|].
  cbn [repeat_text]. rewrite forallb_app, Hs, IH. reflexivity.
Qed.

Lemma newline_blank : forall c, forallb is_blank (newline_str c) = true.
Proof. intros c. unfold newline_str. destruct (use_crlf c); reflexivity. Qed.

Section Preserve.
  Variable c : cfg.
  Variable I : state -> Prop.
  Hypothesis I_atom : forall s st, I st -> I (push_text c true s st).
  Hypothesis I_blank : forall s st, forallb is_blank s = true -> I st -> I (push_text c false s st).
  Hypothesis I_newline : forall st, I st -> I (push_newline c st).
  Hypothesis I_level : forall l st, I st -> I (set_level l st).
  Hypothesis I_sfx_nil : forall st, I st -> I (set_sfx [] st).
  Hypothesis I_sfx_push : forall ds st, I st -> I (set_sfx (sfx st ++ [ds]) st).
  Hypothesis I_gm : forall g b st, I st -> I (gm_insert g b st).

  Lemma push_spaces_pres : forall k st, I st -> I (push_spaces c k st).
  Proof.
    intros k st HI. unfold push_spaces. destruct (0 <? k); [|exact HI].
    apply I_blank; [apply spaces_blank|exact HI].
  Qed.

  Section Level.
  Variable pd : doc -> mode -> state -> option state.
  Variable fw : list doc -> option N.
  Variable fit : list (N * bool) -> list doc -> Z -> option bool.
  Variable hh : list doc -> option bool.
  Hypothesis Hpd : forall d m st, I st -> wlp (pd d m st) I.

  Lemma docs_with_pres : forall ds m st, I st -> wlp (docs_with pd ds m st) I.
  Proof.
    unfold docs_with. induction ds as [|d ds IH]; intros m st HI; cbn [fold_docs].
    - apply wlp_some, HI.
    - eapply wlp_bind; [apply Hpd, HI|]. intros s Hs. apply IH, Hs.
  Qed.

  Lemma flush_fold_pres : forall L st, I st -> wlp (fold_lists (fun s st => docs_with pd s Break st) L st) I.
  Proof.
    induction L as [|s L IH]; intros st HI; cbn [fold_lists]; [apply wlp_some, HI|].
    eapply wlp_bind; [apply docs_with_pres, HI|exact IH].
  Qed.

  Lemma flush_with_pres : forall st, I st -> wlp (flush_with pd st) I.
  Proof.
    intros st HI. unfold flush_with. destruct (sfx st); [apply wlp_some, HI|apply flush_fold_pres, I_sfx_nil, HI].
  Qed.

  Lemma newline_with_pres : forall st, I st -> wlp (newline_with c pd st) I.
  Proof.
    intros st HI. unfold newline_with. eapply wlp_bind; [apply flush_with_pres, HI|].
    intros s Hs. apply wlp_some, I_newline, Hs.
  Qed.

  Lemma fill_with_pres : forall l st, I st -> wlp (fill_with c pd fit l st) I.
  Proof.
    induction l as [|content rest IH] using fill_ind; intros st HI; cbn [fill_with]; [apply wlp_some, HI|].
    apply wlp_let. intros cf. eapply wlp_bind; [apply Hpd, HI|]. intros s1 Hs1.
    destruct rest as [|sep rest]; [apply wlp_some, Hs1|].
    apply wlp_let. intros nf. eapply wlp_bind; [apply Hpd, Hs1|exact IH].
  Qed.

  Lemma trail_with_pres : forall m mc t cw st, I st -> wlp (trail_with c pd m mc t cw st) I.
  Proof.
    intros m mc t cw st HI. unfold trail_with. destruct t as [tr|]; [|apply wlp_some, HI].
    apply docs_with_pres, push_spaces_pres, HI.
  Qed.

  Lemma entry_with_pres : forall m mb mc e st, I st -> wlp (entry_with c pd fw m mb mc e st) I.
  Proof.
    intros m mb mc e st HI. unfold entry_with. destruct e as [b a t|ct t].
    - apply wlp_let. intros bw.
      eapply wlp_bind; [apply docs_with_pres, HI|]. intros s1 Hs1.
      eapply wlp_bind.
      { apply docs_with_pres, I_blank; [reflexivity|]. apply push_spaces_pres, Hs1. }
      intros s3 Hs3. apply wlp_let. intros aw.
      apply trail_with_pres, Hs3.
    - eapply wlp_bind; [apply docs_with_pres, HI|]. intros s1 Hs1.
      apply wlp_let. intros cw.
      apply trail_with_pres, Hs1.
  Qed.

  Lemma align_with_pres : forall m mb mc l first st, I st -> wlp (align_with c pd fw m mb mc l first st) I.
  Proof.
    intros m mb mc. induction l as [|e l IH]; intros first st HI; cbn [align_with].
    - apply wlp_some, HI.
    - eapply wlp_bind.
      { destruct first; [apply wlp_some, HI|apply newline_with_pres, HI]. }
      intros s0 Hs0. eapply wlp_bind; [apply entry_with_pres, Hs0|]. intros s1 Hs1. apply IH, Hs1.
  Qed.

  Lemma step_pres : forall d m st, I st -> wlp (step c pd fw fit hh d m st) I.
  Proof.
    intros d m st HI. destruct d; cbn [step].
    - (* Atom *) apply wlp_some, I_atom, HI.
    - (* HardLine *) apply newline_with_pres, HI.
    - (* SoftLine *) destruct m; [apply wlp_some, I_blank; [reflexivity|exact HI]|apply newline_with_pres, HI].
    - (* SoftLineOrEmpty *) destruct m; [apply wlp_some, HI|apply newline_with_pres, HI].
    - (* Space *) apply wlp_some, I_blank; [reflexivity|exact HI].
    - (* Indent *) eapply wlp_bind; [apply docs_with_pres, I_level, HI|]. intros s Hs. apply wlp_some, I_level, Hs.
    - (* Group *) apply wlp_let. intros h.
      apply wlp_let. intros child.
      apply docs_with_pres. destruct id; [apply I_gm|]; exact HI.
    - (* DList *) apply docs_with_pres, HI.
    - (* IfBreak *) apply Hpd, HI.
    - (* Fill *) apply fill_with_pres, HI.
    - (* LineSuffix *) apply wlp_some, I_sfx_push, HI.
    - (* AlignGroup *) apply wlp_let. intros mb.
      apply wlp_let. intros mc.
      apply align_with_pres, HI.
  Qed.
  End Level.

  Lemma print_doc_pres : forall n d m st, I st -> wlp (print_doc n c d m st) I.
  Proof.
    induction n as [|n IH]; intros d m st HI; cbn [print_doc]; [apply wlp_none|].
    apply step_pres; [exact IH|exact HI].
  Qed.

  Lemma run_pres : I init -> forall ds, wlp (run c ds) I.
  Proof.
    intros H0 ds. unfold run, print_docs.
    eapply wlp_bind; [apply docs_with_pres, H0; apply print_doc_pres|].
    intros st. apply flush_with_pres, print_doc_pres.
  Qed.
End Preserve.

Definition rout_blank_edit (st : state) : Prop := BlankEdit (remit (evs st)) (rout st).

Lemma rout_blank_edit_flush_pending : forall c s st, rout_blank_edit st -> rout_blank_edit (flush_pending c s st).
Proof.
  intros c s st H. unfold flush_pending. destruct (pending st) as [w|]; [|exact H].
  destruct s as [|x s]; [exact H|].
  unfold rout_blank_edit. cbn [evs rout remit]. apply be_rev_append_ins; [|exact H].
  apply repeat_text_blank. apply indent_str_blank.
Qed.

Lemma run_rout_blank_edit : forall c ds, wlp (run c ds) rout_blank_edit.
Proof.
  (* [set_level], [set_sfx], [gm_insert] change neither [rout] nor [evs] *)
  intros c. apply (run_pres c rout_blank_edit); try (intros; assumption).
  - (* atom *) intros s st H. unfold push_text, rout_blank_edit. cbn [evs rout remit].
    apply be_rev_append_keep. apply rout_blank_edit_flush_pending. exact H.
  - (* blank *) intros s st Hs H. unfold push_text, rout_blank_edit. cbn [evs rout remit].
    apply be_rev_append_ins; [exact Hs|]. apply rout_blank_edit_flush_pending. exact H.
  - intros st H. unfold push_newline, rout_blank_edit. cbn [evs rout remit].
    apply be_rev_append_ins; [apply newline_blank|]. apply be_drop_spaces. exact H.
  - (* init *) constructor.
Qed.
