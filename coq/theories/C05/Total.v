(** C05/Total.v — the depth budget [size + 2] given by [print] suffices for every IR and configuration.
    It has to cover the document being printed and the line suffixes pending in the state ([psize]),
    since a newline prints those. *)
From EV Require Import C05.Model C05.Facts.
From Coq Require Import ZArith.
Local Open Scope N_scope.

Definition osize (t : option (list doc)) : nat :=
  match t with Some l => S (size_list l) | None => O end.

Definition entry_size (e : entry) : nat :=
  match e with
  | Aligned b a t => S (size_list b + size_list a + osize t)
  | ALine ct t => S (size_list ct + osize t)
  end.

Fixpoint size_entries (l : list entry) : nat :=
  match l with [] => O | e :: r => (entry_size e + size_entries r)%nat end.

Lemma size_indent : forall ds, size (Indent ds) = S (size_list ds). Proof. reflexivity. Qed.
Lemma size_group : forall ds sb id, size (Group ds sb id) = S (size_list ds). Proof. reflexivity. Qed.
Lemma size_dlist : forall ds, size (DList ds) = S (size_list ds). Proof. reflexivity. Qed.
Lemma size_fill : forall ds, size (Fill ds) = S (size_list ds). Proof. reflexivity. Qed.
Lemma size_ls : forall ds, size (LineSuffix ds) = S (size_list ds). Proof. reflexivity. Qed.
Lemma size_ifb : forall b f g, size (IfBreak b f g) = S (size b + size f). Proof. reflexivity. Qed.

Lemma size_ag : forall es, size (AlignGroup es) = S (size_entries es).
Proof.
  intros es. cbn [size]. f_equal.
  induction es as [|e es IH]; [reflexivity|].
  destruct e as [b a t|ct t]; cbn [size_entries entry_size]; rewrite <- IH; destruct t; reflexivity.
Qed.

#[export] Hint Rewrite size_indent size_group size_dlist size_fill size_ls size_ifb size_ag : size.

Lemma size_pos : forall d, (1 <= size d)%nat.
Proof. destruct d; cbn [size]; lia. Qed.

Lemma Forall_size : forall n l, (size_list l <= n)%nat -> Forall (fun d => (size d <= n)%nat) l.
Proof.
  induction l as [|x l IH]; intros H; constructor; cbn [size_list] in H; [lia|apply IH; lia].
Qed.

Lemma Forall_entry_size : forall n l, (size_entries l <= n)%nat -> Forall (fun e => (entry_size e <= n)%nat) l.
Proof.
  induction l as [|x l IH]; intros H; constructor; cbn [size_entries] in H; [lia|apply IH; lia].
Qed.

Fixpoint lsize (L : list (list doc)) : nat :=
  match L with [] => O | s :: r => (S (size_list s) + lsize r)%nat end.

Definition psize (st : state) : nat := lsize (sfx st).

Lemma lsize_app : forall a b, lsize (a ++ b) = (lsize a + lsize b)%nat.
Proof. induction a as [|x a IH]; intros b; cbn [app lsize]; [reflexivity|]. rewrite IH. lia. Qed.

Lemma sum_opt_total : forall f l, Forall (fun d => defined (f d)) l -> defined (sum_opt f l).
Proof.
  induction 1 as [|d l Hd _ IH]; cbn [sum_opt]; [apply defined_some|].
  apply defined_bind; [exact Hd|]. intros a. apply defined_bind; [exact IH|]. intros b. apply defined_some.
Qed.

Lemma max_opt_total : forall A (f : A -> option N) l, Forall (fun e => defined (f e)) l -> defined (max_opt f l).
Proof.
  induction 1 as [|e l He _ IH]; cbn [max_opt]; [apply defined_some|].
  apply defined_bind; [exact He|]. intros a. apply defined_bind; [exact IH|]. intros b. apply defined_some.
Qed.

Lemma any_opt_total : forall f l, Forall (fun d => defined (f d)) l -> defined (any_opt f l).
Proof.
  induction 1 as [|d l Hd _ IH]; cbn [any_opt]; [apply defined_some|].
  apply defined_bind; [exact Hd|]. intros [|]; [apply defined_some|exact IH].
Qed.

Lemma fits_list_total : forall f l, Forall (fun d => forall m rem, defined (f d m rem)) l ->
  forall m rem, defined (fits_list f l m rem).
Proof.
  induction 1 as [|d l Hd _ IH]; intros m rem; cbn [fits_list]; [apply defined_some|].
  apply defined_bind; [apply Hd|]. intros [b|r]; [apply defined_some|apply IH].
Qed.

Lemma fits_rev_total : forall A (f : A -> Z -> option fres) l, Forall (fun e => forall rem, defined (f e rem)) l ->
  forall rem, defined (fits_rev f l rem).
Proof.
  induction 1 as [|e l He _ IH]; intros rem; cbn [fits_rev]; [apply defined_some|].
  apply defined_bind; [apply IH|]. intros [b|r]; [apply defined_some|apply He].
Qed.

Lemma fseq_total : forall x k, defined x -> (forall r, defined (k r)) -> defined (fseq x k).
Proof.
  intros x k Hx Hk. unfold fseq. apply defined_bind; [exact Hx|]. intros [b|r]; [apply defined_some|apply Hk].
Qed.

Lemma fw_doc_total : forall n d, (size d <= n)%nat -> defined (fw_doc n d).
Proof.
  induction n as [|n IH]; intros d Hd; [pose proof (size_pos d); lia|].
  assert (forall l, (size_list l <= n)%nat -> defined (sum_opt (fw_doc n) l)) as HL.
  { intros l Hl. apply sum_opt_total, (Forall_impl _ IH), Forall_size, Hl. }
  assert (forall t, (osize t <= S n)%nat ->
            defined (match t with Some tr => do w <- sum_opt (fw_doc n) tr; Some (1 + w) | None => Some 0 end)) as HT.
  { intros [tr|] Ht; [|apply defined_some]. cbn [osize] in Ht.
    apply defined_bind; [apply HL; lia|]. intros w. apply defined_some. }
  destruct d; autorewrite with size in Hd; cbn [fw_doc]; try apply defined_some; try (apply HL; lia).
  - (* IfBreak *) apply IH. lia.
  - (* AlignGroup *) apply max_opt_total. eapply Forall_impl; [|apply (Forall_entry_size n); lia].
    intros [b a t|ct t] He; cbn [entry_size] in He.
    + apply defined_bind; [apply HL; lia|]. intros x. apply defined_bind; [apply HL; lia|]. intros y.
      apply defined_bind; [apply HT; lia|]. intros z. apply defined_some.
    + apply defined_bind; [apply HL; lia|]. intros x.
      apply defined_bind; [apply HT; lia|]. intros z. apply defined_some.
Qed.

Lemma flat_width_total : forall n ds, (size_list ds <= n)%nat -> defined (flat_width n ds).
Proof. intros n ds H. apply sum_opt_total, (Forall_impl _ (fw_doc_total n)), Forall_size, H. Qed.

Lemma hh_doc_total : forall n d, (size d <= n)%nat -> defined (hh_doc n d).
Proof.
  induction n as [|n IH]; intros d Hd; [pose proof (size_pos d); lia|].
  assert (forall l, (size_list l <= n)%nat -> defined (any_opt (hh_doc n) l)) as HL.
  { intros l Hl. apply any_opt_total, (Forall_impl _ IH), Forall_size, Hl. }
  destruct d; autorewrite with size in Hd; cbn [hh_doc]; try apply defined_some; apply HL; lia.
Qed.

Lemma has_hard_line_total : forall n ds, (size_list ds <= n)%nat -> defined (has_hard_line n ds).
Proof. intros n ds H. apply any_opt_total, (Forall_impl _ (hh_doc_total n)), Forall_size, H. Qed.

Lemma fits_doc_total : forall n gm d m rem, (size d <= n)%nat -> defined (fits_doc n gm d m rem).
Proof.
  induction n as [|n IH]; intros gm d m rem Hd; [pose proof (size_pos d); lia|].
  cbn [fits_doc]. destruct (rem <? 0)%Z; [apply defined_some|].
  assert (forall l m rem, (size_list l <= n)%nat -> defined (fits_list (fits_doc n gm) l m rem)) as HL.
  { intros l m0 r0 Hl. apply fits_list_total. eapply Forall_impl; [|apply Forall_size, Hl].
    intros x Hx m1 r1. apply IH, Hx. }
  assert (forall (t : option (list doc)) m rem, (osize t <= S n)%nat ->
            defined (match t with Some tr => fits_list (fits_doc n gm) tr m rem | None => Some (Cont rem) end)) as HT.
  { intros [tr|] m0 r0 Ht; [|apply defined_some]. cbn [osize] in Ht. apply HL. lia. }
  destruct d; autorewrite with size in Hd; try apply defined_some; try (apply HL; lia).
  - (* SoftLine *) destruct m; apply defined_some.
  - (* SoftLineOrEmpty *) destruct m; apply defined_some.
  - (* IfBreak *) apply IH. destruct (match gid with Some g => gm_get gm g | None => mode_eqb m Break end); lia.
  - (* AlignGroup *) apply fits_rev_total. eapply Forall_impl; [|apply (Forall_entry_size n); lia].
    intros [b a t|ct t] He r0; cbn [entry_size] in He.
    + apply fseq_total; [apply HT; lia|]. intros r1.
      apply fseq_total; [apply HL; lia|]. intros r2. apply HL. lia.
    + apply fseq_total; [apply HT; lia|]. intros r1. apply HL. lia.
Qed.

Lemma fits_impl_total : forall n gm ds rem, (size_list ds <= n)%nat -> defined (fits_impl n gm ds rem).
Proof.
  intros n gm ds rem H. unfold fits_impl. apply defined_bind.
  - apply fits_list_total. eapply Forall_impl; [|apply Forall_size, H].
    intros d Hd m r. apply fits_doc_total, Hd.
  - intros [b|r]; apply defined_some.
Qed.

Lemma psize_push_text : forall c b s st, psize (push_text c b s st) = psize st.
Proof. intros. unfold psize. rewrite sfx_push_text. reflexivity. Qed.

Lemma psize_push_spaces : forall c k st, psize (push_spaces c k st) = psize st.
Proof. intros. unfold push_spaces. destruct (0 <? k); [apply psize_push_text|reflexivity]. Qed.

(** [runs lvl k st o]: when the budget [lvl] covers [k] and what is pending in [st], [o] is a state
    in which at most [k] more is pending.  [k] is the size of the part being printed: sizes add up
    along [bind], and one level of the budget pays for one constructor. *)
Definition runs (lvl k : nat) (st : state) (o : option state) : Prop :=
  (k + psize st <= lvl)%nat -> exists st', o = Some st' /\ (psize st' <= psize st + k)%nat.

Lemma runs_ret : forall lvl k st s, psize s = psize st -> runs lvl k st (Some s).
Proof. intros lvl k st s E _. exists s. split; [reflexivity|lia]. Qed.

Lemma runs_bind : forall lvl k1 k2 st o g,
  runs lvl k1 st o -> (forall s, runs lvl k2 s (g s)) -> runs lvl (k1 + k2) st (bind o g).
Proof.
  intros lvl k1 k2 st o g H1 H2 H. destruct H1 as [s1 [-> L1]]; [lia|].
  destruct (H2 s1) as [s2 [E2 L2]]; [lia|]. exists s2. split; [exact E2|lia].
Qed.

Lemma runs_let : forall A lvl k st (o : option A) g,
  ((k + psize st <= lvl)%nat -> defined o) -> (forall a, runs lvl k st (g a)) -> runs lvl k st (bind o g).
Proof. intros A lvl k st o g Ho Hg H. destruct (Ho H) as [a ->]. exact (Hg a H). Qed.

Lemma runs_le : forall lvl k k' st o, runs lvl k st o -> (k <= k')%nat -> runs lvl k' st o.
Proof. intros lvl k k' st o H Hk H'. destruct H as [s [E L]]; [lia|]. exists s. split; [exact E|lia]. Qed.

Lemma runs_S : forall lvl k st o, runs lvl k st o -> runs (S lvl) (S k) st o.
Proof. intros lvl k st o H H'. destruct H as [s [E L]]; [lia|]. exists s. split; [exact E|lia]. Qed.

Lemma runs_pre : forall lvl k st s o, psize s = psize st -> runs lvl k s o -> runs lvl k st o.
Proof. intros lvl k st s o E H. unfold runs in *. rewrite <- E. exact H. Qed.

Lemma runs_post : forall lvl k st o g, (forall s, psize (g s) = psize s) -> runs lvl k st o ->
  runs lvl k st (bind o (fun s => Some (g s))).
Proof.
  intros lvl k st o g Hg H H'. destruct (H H') as [s [-> L]]. exists (g s). split; [reflexivity|]. rewrite Hg. exact L.
Qed.

(** One level of the printer at budget [S lvl], the recursive calls at budget [lvl]. *)
Section Total.
  Variable c : cfg.
  Variable lvl : nat.
  Variable pd : doc -> mode -> state -> option state.
  Variable fw : list doc -> option N.
  Variable fit : list (N * bool) -> list doc -> Z -> option bool.
  Variable hh : list doc -> option bool.
  Hypothesis Hpd : forall d m st, runs lvl (size d) st (pd d m st).
  Hypothesis Hfw : forall ds, (size_list ds <= lvl)%nat -> defined (fw ds).
  Hypothesis Hfit : forall gm ds rem, (size_list ds <= lvl)%nat -> defined (fit gm ds rem).
  Hypothesis Hhh : forall ds, (size_list ds <= lvl)%nat -> defined (hh ds).

  Lemma docs_total : forall ds m st, runs lvl (size_list ds) st (docs_with pd ds m st).
  Proof.
    unfold docs_with. induction ds as [|d ds IH]; intros m st; cbn [fold_docs size_list].
    - apply runs_ret; reflexivity.
    - apply runs_bind; [apply Hpd|apply IH].
  Qed.

  Lemma flush_fold_total : forall L st, runs lvl (lsize L) st (fold_lists (fun s st => docs_with pd s Break st) L st).
  Proof.
    induction L as [|s L IH]; intros st; cbn [fold_lists lsize].
    - apply runs_ret; reflexivity.
    - apply runs_bind; [|apply IH]. eapply runs_le; [apply docs_total|apply le_S, le_n].
  Qed.

  Lemma flush_total : forall st, runs lvl 0 st (flush_with pd st).
  Proof.
    intros st. unfold flush_with. destruct (sfx st) as [|s L] eqn:E; [apply runs_ret; reflexivity|].
    (* emptying [sfx] frees the [lsize (s :: L)] that printing the suffixes needs *)
    intros H. destruct (flush_fold_total (s :: L) (set_sfx [] st)) as [s1 [E1 L1]].
    - unfold psize in H. rewrite E in H. unfold psize. cbn [set_sfx sfx lsize] in *. lia.
    - exists s1. split; [exact E1|]. unfold psize in *. rewrite E. cbn [set_sfx sfx lsize] in *. lia.
  Qed.

  Lemma newline_total : forall st, runs lvl 0 st (newline_with c pd st).
  Proof.
    intros st. apply (runs_post _ _ _ _ (push_newline c)); [reflexivity|apply flush_total].
  Qed.

  Lemma fill_total : forall l st, runs lvl (size_list l) st (fill_with c pd fit l st).
  Proof.
    induction l as [|content rest IH] using fill_ind; intros st; cbn [fill_with size_list]; [apply runs_ret; reflexivity|].
    apply runs_let; [intros H; apply Hfit; cbn [size_list]; lia|]. intros cf.
    apply runs_bind; [apply Hpd|]. intros s1.
    destruct rest as [|sep rest]; [apply runs_ret; reflexivity|]. cbn [size_list].
    apply runs_let; [intros H; destruct rest; [apply defined_some|apply Hfit; cbn [size_list] in *; lia]|]. intros nf.
    apply runs_bind; [apply Hpd|exact IH].
  Qed.

  Lemma trail_total : forall m mc t cw st, runs lvl (osize t) st (trail_with c pd m mc t cw st).
  Proof.
    intros m mc t cw st. unfold trail_with. destruct t as [tr|]; cbn [osize]; [|apply runs_ret; reflexivity].
    eapply runs_le; [|apply le_S, le_n]. eapply runs_pre; [apply psize_push_spaces|apply docs_total].
  Qed.

  Lemma entry_total : forall m mb mc e st, runs lvl (entry_size e) st (entry_with c pd fw m mb mc e st).
  Proof.
    intros m mb mc e st. unfold entry_with. destruct e as [b a t|ct t]; cbn [entry_size]; intros H.
    - assert (defined (fw b)) as Hb by (apply Hfw; lia). assert (defined (fw a)) as Ha by (apply Hfw; lia).
      revert H. apply (runs_le _ (size_list b + (size_list a + osize t))); [|lia].
      apply runs_let; [intros _; exact Hb|]. intros bw.
      apply runs_bind; [apply docs_total|]. intros s1.
      eapply runs_pre; [rewrite psize_push_text; apply psize_push_spaces|].
      apply runs_bind; [apply docs_total|]. intros s3.
      apply runs_let; [intros _; exact Ha|]. intros aw. apply trail_total.
    - assert (defined (fw ct)) as Hc by (apply Hfw; lia).
      revert H. apply (runs_le _ (size_list ct + osize t)); [|lia].
      apply runs_bind; [apply docs_total|]. intros s1.
      apply runs_let; [intros _; exact Hc|]. intros cw. apply trail_total.
  Qed.

  Lemma align_total : forall m mb mc l first st,
    runs lvl (size_entries l) st (align_with c pd fw m mb mc l first st).
  Proof.
    intros m mb mc. induction l as [|e l IH]; intros first st; cbn [align_with size_entries].
    - apply runs_ret; reflexivity.
    - apply (runs_bind _ 0); [destruct first; [apply runs_ret; reflexivity|apply newline_total]|]. intros s0.
      apply runs_bind; [apply entry_total|apply IH].
  Qed.

  Lemma step_total : forall d m st, runs (S lvl) (size d) st (step c pd fw fit hh d m st).
  Proof.
    intros d m st. destruct d; autorewrite with size; cbn [step size].
    - (* Atom *) apply runs_ret, psize_push_text.
    - (* HardLine *) apply runs_S, newline_total.
    - (* SoftLine *) destruct m; [apply runs_ret, psize_push_text|apply runs_S, newline_total].
    - (* SoftLineOrEmpty *) destruct m; [apply runs_ret; reflexivity|apply runs_S, newline_total].
    - (* Space *) apply runs_ret, psize_push_text.
    - (* Indent *) apply runs_S, (runs_post _ _ _ _ (fun s => set_level (level s - 1) s)); [reflexivity|].
      eapply runs_pre; [|apply docs_total]; reflexivity.
    - (* Group *) apply runs_S. apply runs_let; [intros H; apply Hhh; lia|]. intros h.
      apply runs_let.
      { intros H. destruct (should_break || h); [apply defined_some|].
        apply defined_bind; [apply Hfit; lia|]. intros f. apply defined_some. }
      intros child. eapply runs_pre; [|apply docs_total]. destruct id; reflexivity.
    - (* DList *) apply runs_S, docs_total.
    - (* IfBreak *) apply runs_S. destruct (match gid with Some g => gm_get (gmap st) g | None => mode_eqb m Break end);
        [apply (runs_le _ (size d1))|apply (runs_le _ (size d2))]; try apply Hpd; lia.
    - (* Fill *) apply runs_S, fill_total.
    - (* LineSuffix: what it adds to the pending size is its own size *)
      intros _. eexists. split; [reflexivity|]. unfold psize. cbn [set_sfx sfx]. rewrite lsize_app. cbn [lsize]. lia.
    - (* AlignGroup *) apply runs_S. intros H.
      assert (Forall (fun e => (entry_size e <= lvl)%nat) es) as He by (apply Forall_entry_size; lia).
      revert H. apply runs_let.
      { intros _. apply max_opt_total. eapply Forall_impl; [|exact He].
        intros [b a t|ct t] Hin; cbn [entry_size] in Hin; [apply Hfw; lia|apply defined_some]. }
      intros mb. apply runs_let.
      { intros _. unfold max_content_of. destruct (existsb has_trailing es); [|apply defined_some].
        apply max_opt_total. eapply Forall_impl; [|exact He].
        intros [b a t|ct t] Hin; cbn [entry_size] in Hin; [|apply Hfw; lia].
        apply defined_bind; [apply Hfw; lia|]. intros w. apply defined_some. }
      intros mc. apply align_total.
  Qed.
End Total.

Lemma print_doc_total : forall n c d m st, runs n (size d) st (print_doc n c d m st).
Proof.
  induction n as [|n IH]; intros c d m st; [intros H; pose proof (size_pos d); lia|].
  apply (step_total c n); [apply IH|apply flat_width_total|apply fits_impl_total|apply has_hard_line_total].
Qed.

Lemma run_total : forall c ds, defined (run c ds).
Proof.
  intros c ds. unfold run, print_docs. set (n := S (S (size_list ds))).
  assert (runs n (size_list ds + 0) init (do st <- docs_with (print_doc n c) ds Break init; flush_with (print_doc n c) st)) as H.
  { apply runs_bind; [apply docs_total|intros s; apply flush_total]; apply print_doc_total. }
  destruct H as [st [E _]]; [unfold n; cbn; lia|]. exists st. exact E.
Qed.
