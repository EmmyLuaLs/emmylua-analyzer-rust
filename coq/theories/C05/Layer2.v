(** C05/Layer2.v — for an IR that obeys the line-suffix discipline the printer pushes the text of the IR in
    document order: printing [d] grows the non-blank text "pushed so far ++ still pending in line
    suffixes" by the non-blank text of a resolution of [d]. *)
From EV Require Import C05.Model C05.Facts C05.Res.
From Coq Require Import ZArith.
Local Open Scope N_scope.

Definition pend (st : state) : text := flat_map atoms_list (sfx st).
Definition tot (st : state) : text := nonblank (emit st) ++ nonblank (pend st).

(** [p] is the flag that [sok] threads: only when it is [true] may the pending suffixes hold
    non-blank text *)
Definition Inv (st : state) (p : bool) : Prop :=
  Forall (fun s => plain_list s = true) (sfx st) /\ (p = false -> nonblank (pend st) = []).

(** [eqv st st']: a step that pushed only blanks and did not touch the pending suffixes *)
Definition eqv (st st' : state) : Prop := emit st' = emit st /\ sfx st' = sfx st.

Lemma eqv_refl : forall st, eqv st st.
Proof. intros st. split; reflexivity. Qed.

Lemma tot_eqv : forall st st', eqv st st' -> tot st' = tot st.
Proof. intros st st' [H1 H2]. unfold tot, pend. rewrite H1, H2. reflexivity. Qed.

Lemma Inv_eqv : forall st st' p, eqv st st' -> Inv st p -> Inv st' p.
Proof. intros st st' p [H1 H2] [H3 H4]. unfold Inv, pend in *. rewrite H2. split; assumption. Qed.

Lemma emit_flush_pending : forall c s st, emit (flush_pending c s st) = emit st.
Proof.
  intros c s st. unfold flush_pending. destruct (pending st); [|reflexivity].
  destruct s; reflexivity.
Qed.

Lemma emit_push_atom : forall c s st, emit (push_text c true s st) = emit st ++ s.
Proof.
  intros c s st. unfold push_text, emit. cbn [evs atoms_of_evs].
  fold (emit (flush_pending c s st)). rewrite emit_flush_pending. reflexivity.
Qed.

Lemma eqv_push_blank : forall c s st, eqv st (push_text c false s st).
Proof. intros c s st. split; [apply emit_flush_pending|apply sfx_push_text]. Qed.

Lemma eqv_push_newline : forall c st, eqv st (push_newline c st).
Proof. intros c st. split; reflexivity. Qed.

Lemma eqv_set_level : forall l st, eqv st (set_level l st).
Proof. intros. split; reflexivity. Qed.

Lemma eqv_gm_insert : forall g b st, eqv st (gm_insert g b st).
Proof. intros. split; reflexivity. Qed.

Lemma eqv_push_spaces : forall c k st, eqv st (push_spaces c k st).
Proof.
  intros c k st. unfold push_spaces. destruct (0 <? k); [apply eqv_push_blank|apply eqv_refl].
Qed.

Lemma Inv_weaken : forall st p q, (q = false -> p = false) -> Inv st p -> Inv st q.
Proof. intros st p q Hpq [H1 H2]. split; [exact H1|]. intros Hq. exact (H2 (Hpq Hq)). Qed.

(** [spec R so st o]: if [o] is the state reached from [st] by printing a piece of IR with
    resolutions [R] and discipline [so], the text pushed or pending has grown by a resolution. *)
Definition spec (R : text -> Prop) (so : bool -> option bool) (st : state) (o : option state) : Prop :=
  forall st' p p', o = Some st' -> so p = Some p' -> Inv st p ->
    exists a, R a /\ tot st' = tot st ++ nonblank a /\ Inv st' p'.

Definition Spec (R : text -> Prop) (so : bool -> option bool) (f : state -> option state) : Prop :=
  forall st, spec R so st (f st).

Lemma spec_ret : forall (R : text -> Prop) st s, R [] -> eqv st s -> spec R Some st (Some s).
Proof.
  intros R st s HR He st' p p' E Ep HI. inversion E; inversion Ep; subst. exists []. split; [exact HR|].
  split; [rewrite app_nil_r; apply tot_eqv, He|exact (Inv_eqv _ _ _ He HI)].
Qed.

Lemma spec_bind : forall (R1 R2 R : text -> Prop) so1 so2 st o k,
  (forall a b, R1 a -> R2 b -> R (a ++ b)) ->
  spec R1 so1 st o -> (forall s, spec R2 so2 s (k s)) ->
  spec R (fun p => bind (so1 p) so2) st (bind o k).
Proof.
  intros R1 R2 R so1 so2 st o k HR H1 H2 st' p p' E Ep HI.
  destruct o as [s1|]; [|discriminate E]. destruct (so1 p) as [p1|] eqn:E1; [|discriminate Ep].
  destruct (H1 s1 p p1 eq_refl E1 HI) as (a & Ha & Ht & Hi).
  destruct (H2 s1 st' p1 p' E Ep Hi) as (b & Hb & Ht' & Hi').
  exists (a ++ b). split; [exact (HR a b Ha Hb)|]. split; [|exact Hi'].
  rewrite Ht', Ht, nonblank_app, app_assoc. reflexivity.
Qed.

Lemma spec_let : forall A R so st (o : option A) k, (forall a, spec R so st (k a)) -> spec R so st (bind o k).
Proof. intros A R so st [a|] k H; [apply H|]. intros st' p p' E. discriminate E. Qed.

Lemma spec_pre : forall R so st s o, eqv st s -> spec R so s o -> spec R so st o.
Proof.
  intros R so st s o He H st' p p' E Ep HI.
  destruct (H st' p p' E Ep (Inv_eqv _ _ _ He HI)) as (a & Ha & Ht & Hi).
  exists a. rewrite Ht, (tot_eqv _ _ He). auto.
Qed.

Lemma spec_post : forall R so st o g, (forall s, eqv s (g s)) -> spec R so st o ->
  spec R so st (bind o (fun s => Some (g s))).
Proof.
  intros R so st [s|] g Hg H st' p p' E Ep HI; [|discriminate E]. inversion E; subst st'.
  destruct (H s p p' eq_refl Ep HI) as (a & Ha & Ht & Hi).
  exists a. rewrite (tot_eqv _ _ (Hg s)). split; [exact Ha|]. split; [exact Ht|exact (Inv_eqv _ _ _ (Hg s) Hi)].
Qed.

Lemma spec_conseq : forall (R R' : text -> Prop) so st o, (forall a, R a -> R' a) -> spec R so st o -> spec R' so st o.
Proof.
  intros R R' so st o HR H st' p p' E Ep HI. destruct (H st' p p' E Ep HI) as (a & Ha & Ht).
  exists a. split; [exact (HR a Ha)|exact Ht].
Qed.

Lemma spec_ext : forall R so so' st o, (forall p, so p = so' p) -> spec R so' st o -> spec R so st o.
Proof. intros R so so' st o Hso H st' p p' E Ep. rewrite Hso in Ep. exact (H st' p p' E Ep). Qed.

(** a step after which nothing is pending also fits a discipline that does not record it *)
Lemma spec_flushed : forall R st o, spec R (fun _ => Some false) st o -> spec R Some st o.
Proof.
  intros R st o H st' p p' E Ep HI. inversion Ep; subst p'.
  destruct (H st' p false E eq_refl HI) as (a & Ha & Ht & Hi).
  exists a. split; [exact Ha|]. split; [exact Ht|]. apply (Inv_weaken _ false); [reflexivity|exact Hi].
Qed.

Section Layer2.
  Variable c : cfg.
  Variable pd : doc -> mode -> state -> option state.
  Variable fw : list doc -> option N.
  Variable fit : list (N * bool) -> list doc -> Z -> option bool.
  Variable hh : list doc -> option bool.
  Hypothesis Hpd : forall d m, Spec (Res d) (sok d) (pd d m).

  Lemma docs_spec : forall ds m, Spec (ResL ds) (sok_list ds) (docs_with pd ds m).
  Proof.
    unfold docs_with. induction ds as [|d ds IH]; intros m st; cbn [fold_docs].
    - apply spec_ret; [constructor|apply eqv_refl].
    - apply (spec_bind (Res d) (ResL ds) _ (sok d) (sok_list ds)); [intros; constructor; assumption|apply Hpd|apply IH].
  Qed.

  Lemma flush_fold : forall L st, Forall (fun s => plain_list s = true) L -> Inv st false ->
    wlp (fold_lists (fun s st => docs_with pd s Break st) L st)
        (fun st' => tot st' = tot st ++ nonblank (flat_map atoms_list L) /\ Inv st' false).
  Proof.
    induction L as [|s L IH]; intros st HL HI; cbn [fold_lists flat_map].
    - apply wlp_some. rewrite app_nil_r. split; [reflexivity|exact HI].
    - inversion HL as [|x l Hs HL']; subst. intros st' E.
      destruct (docs_with pd s Break st) as [s1|] eqn:E1; [|discriminate E].
      destruct (docs_spec s Break st s1 false false E1 (plain_sok_list_false _ Hs) HI) as (a & Ha & Ht & Hi).
      destruct (IH s1 HL' Hi st' E) as [Ht' Hi']. split; [|exact Hi'].
      rewrite Ht', Ht, (resl_plain _ _ Ha Hs), nonblank_app, app_assoc. reflexivity.
  Qed.

  (** flushing prints what was pending: the total does not change, and nothing is pending after *)
  Lemma flush_spec : forall R : text -> Prop, R [] -> Spec R (fun _ => Some false) (flush_with pd).
  Proof.
    intros R HR st st' p p' E Ep [HI1 HI2]. inversion Ep; subst p'. exists []. split; [exact HR|].
    rewrite app_nil_r. unfold flush_with in E. destruct (sfx st) as [|s L] eqn:Es.
    - inversion E; subst st'. split; [reflexivity|]. unfold Inv, pend. rewrite Es. split; [constructor|reflexivity].
    - destruct (flush_fold (s :: L) (set_sfx [] st) HI1) with (a := st') as [Ht Hi]; [|exact E|].
      { split; [constructor|reflexivity]. }
      split; [|exact Hi]. rewrite Ht. unfold tot at 1 2, pend. cbn [set_sfx sfx emit evs flat_map].
      rewrite Es, app_nil_r. reflexivity.
  Qed.

  Lemma newline_spec : forall R : text -> Prop, R [] -> Spec R (fun _ => Some false) (newline_with c pd).
  Proof.
    intros R HR st. apply (spec_post _ _ _ _ (push_newline c)); [apply eqv_push_newline|apply flush_spec, HR].
  Qed.

  Lemma fill_spec : forall l, Spec (ResL l) (sok_list l) (fill_with c pd fit l).
  Proof.
    induction l as [|content rest IH] using fill_ind; intros st; cbn [fill_with]; [apply spec_ret; [constructor|apply eqv_refl]|].
    apply spec_let. intros cf.
    apply (spec_bind (Res content) (ResL rest) _ (sok content) (sok_list rest)); [intros; constructor; assumption|apply Hpd|].
    intros s1. destruct rest as [|sep rest]; [apply spec_ret; [constructor|apply eqv_refl]|].
    apply spec_let. intros nf.
    apply (spec_bind (Res sep) (ResL rest) _ (sok sep) (sok_list rest)); [intros; constructor; assumption|apply Hpd|exact IH].
  Qed.

  Lemma trail_spec : forall m mc t cw, Spec (ResO t) (sok_opt t) (trail_with c pd m mc t cw).
  Proof.
    intros m mc t cw st. unfold trail_with. destruct t as [tr|].
    - apply (spec_conseq (ResL tr)); [apply RO_some|].
      eapply spec_pre; [apply eqv_push_spaces|apply docs_spec].
    - apply spec_ret; [constructor|apply eqv_refl].
  Qed.

  (** the text of an entry is what it contributes in front of the text of the entries after it *)
  Definition ResE1 (e : entry) (x : text) : Prop := forall r w, ResE r w -> ResE (e :: r) (x ++ w).

  Lemma entry_spec : forall m mb mc e, Spec (ResE1 e) (sok_entry e) (entry_with c pd fw m mb mc e).
  Proof.
    intros m mb mc e st. unfold entry_with. destruct e as [b a t|ct t]; cbn [sok_entry].
    - apply spec_let. intros bw.
      apply (spec_bind (ResL b) (fun yz => exists y z, yz = y ++ z /\ ResL a y /\ ResO t z)).
      { intros x ? Hx (y & z & -> & Hy & Hz) r w Hr. rewrite <- !app_assoc. constructor; assumption. }
      { apply docs_spec. }
      intros s1. eapply spec_pre; [apply eqv_push_spaces|]. eapply spec_pre; [apply eqv_push_blank|].
      apply (spec_bind (ResL a) (ResO t)); [intros y z Hy Hz; exists y, z; auto|apply docs_spec|].
      intros s3. apply spec_let. intros aw. apply trail_spec.
    - apply (spec_bind (ResL ct) (ResO t)).
      { intros x z Hx Hz r w Hr. rewrite <- app_assoc. constructor; assumption. }
      { apply docs_spec. }
      intros s1. apply spec_let. intros cw. apply trail_spec.
  Qed.

  Lemma align_spec : forall m mb mc l first,
    Spec (ResE l) (sok_entries l first) (align_with c pd fw m mb mc l first).
  Proof.
    intros m mb mc. induction l as [|e l IH]; intros first st; cbn [align_with sok_entries].
    - apply spec_ret; [constructor|apply eqv_refl].
    - assert (forall s0, spec (ResE (e :: l)) (fun p => bind (sok_entry e p) (sok_entries l false)) s0
                (bind (entry_with c pd fw m mb mc e s0) (align_with c pd fw m mb mc l false))) as Hin.
      { intros s0. apply (spec_bind (ResE1 e) (ResE l)); [intros x w Hx Hw; exact (Hx l w Hw)|apply entry_spec|apply IH]. }
      destruct first; [apply Hin|].
      apply (spec_bind (eq []) (ResE (e :: l)) _ (fun _ => Some false) (fun p => bind (sok_entry e p) (sok_entries l false)));
        [intros ? w <- Hw; exact Hw|apply newline_spec; reflexivity|exact Hin].
  Qed.

  Lemma step_spec : forall d m, Spec (Res d) (sok d) (step c pd fw fit hh d m).
  Proof.
    intros d m st. destruct d; cbn [step].
    - (* Atom: allowed after a pending suffix only if it has no non-blank text *)
      intros st' p p' E Hs [HI1 HI2]. inversion E; subst st'. cbn [sok] in Hs.
      destruct (p && negb (isnil (nonblank s))) eqn:Ec; [discriminate Hs|]. inversion Hs; subst p'.
      exists s. split; [constructor|].
      unfold Inv, tot, pend. rewrite emit_push_atom, sfx_push_text, nonblank_app. fold (pend st).
      split; [|split; assumption].
      apply andb_false_iff in Ec. destruct Ec as [->|Ec].
      + rewrite (HI2 eq_refl), !app_nil_r. reflexivity.
      + destruct (nonblank s); [rewrite !app_nil_r; reflexivity|discriminate Ec].
    - (* HardLine *) apply newline_spec. constructor.
    - (* SoftLine *)
      destruct m; [apply spec_ret; [constructor|apply eqv_push_blank]|apply spec_flushed, newline_spec; constructor].
    - (* SoftLineOrEmpty *)
      destruct m; [apply spec_ret; [constructor|apply eqv_refl]|apply spec_flushed, newline_spec; constructor].
    - (* Space *) apply spec_ret; [constructor|apply eqv_push_blank].
    - (* Indent *) apply (spec_conseq (ResL ds)); [apply R_indent|].
      apply (spec_post _ _ _ _ (fun s => set_level (level s - 1) s)); [intros s; apply eqv_set_level|].
      eapply spec_pre; [apply eqv_set_level|apply docs_spec].
    - (* Group *) apply (spec_conseq (ResL ds)); [apply R_group|].
      apply spec_let. intros h. apply spec_let. intros child.
      eapply spec_pre; [|apply docs_spec]. destruct id; [apply eqv_gm_insert|apply eqv_refl].
    - (* DList *) apply (spec_conseq (ResL ds)); [apply R_list|]. apply docs_spec.
    - (* IfBreak: either branch may be printed; the discipline keeps the worse of the two *)
      intros st' p p' E Hs HI. cbn [sok] in Hs.
      destruct (sok d1 p) as [p1|] eqn:Ep1; [|discriminate Hs].
      destruct (sok d2 p) as [p2|] eqn:Ep2; [|discriminate Hs]. inversion Hs; subst p'.
      destruct (match gid with Some g => gm_get (gmap st) g | None => mode_eqb m Break end).
      + destruct (Hpd d1 m st st' p p1 E Ep1 HI) as (a & Ha & Ht & Hi).
        exists a. split; [apply R_ifb_b; exact Ha|]. split; [exact Ht|].
        apply (Inv_weaken _ p1); [apply orb_false_iff|exact Hi].
      + destruct (Hpd d2 m st st' p p2 E Ep2 HI) as (a & Ha & Ht & Hi).
        exists a. split; [apply R_ifb_f; exact Ha|]. split; [exact Ht|].
        apply (Inv_weaken _ p2); [apply orb_false_iff|exact Hi].
    - (* Fill *) apply (spec_conseq (ResL ds)); [apply R_fill|]. apply fill_spec.
    - (* LineSuffix: its text becomes pending *)
      intros st' p p' E Hs [HI1 HI2]. inversion E; subst st'. cbn [sok] in Hs.
      destruct (plain_list ds) eqn:Ep; [|discriminate]. inversion Hs; subst.
      exists (atoms_list ds). split; [constructor; apply plain_resl; exact Ep|].
      assert (pend (set_sfx (sfx st ++ [ds]) st) = pend st ++ atoms_list ds) as Hp.
      { unfold pend. cbn [set_sfx sfx]. rewrite flat_map_app. cbn [flat_map]. rewrite app_nil_r. reflexivity. }
      unfold Inv, tot. rewrite Hp, nonblank_app. split; [apply app_assoc|]. split.
      + cbn [set_sfx sfx]. apply Forall_app. split; [exact HI1|]. constructor; [exact Ep|constructor].
      + intros Hf. apply orb_false_iff in Hf. destruct Hf as [Hf1 Hf2]. rewrite (HI2 Hf1).
        destruct (nonblank (atoms_list ds)); [reflexivity|discriminate Hf2].
    - (* AlignGroup *) apply (spec_ext _ _ (sok_entries es true)); [apply sok_ag|].
      apply (spec_conseq (ResE es)); [apply R_ag|].
      apply spec_let. intros mb. apply spec_let. intros mc. apply align_spec.
  Qed.
End Layer2.

Lemma print_doc_spec : forall n c d m, Spec (Res d) (sok d) (print_doc n c d m).
Proof.
  induction n as [|n IH]; intros c d m; cbn [print_doc]; [intros st st' p p' E; discriminate E|].
  apply step_spec, IH.
Qed.

Lemma run_resolution : forall c ds st,
  run c ds = Some st -> suffix_ok ds = true ->
  exists a, ResL ds a /\ nonblank (emit st) = nonblank a.
Proof.
  intros c ds st H Hok. unfold suffix_ok in Hok. destruct (sok_list ds false) as [p'|] eqn:Es; [|discriminate].
  assert (Inv init false) as H0 by (split; [constructor|reflexivity]).
  assert (spec (ResL ds) (fun p => bind (sok_list ds p) (fun _ => Some false)) init (run c ds)) as HS.
  { apply (spec_bind (ResL ds) (eq [])); [intros a ? Ha <-; rewrite app_nil_r; exact Ha| |].
    - apply docs_spec, print_doc_spec.
    - intros s. apply flush_spec; [apply print_doc_spec|reflexivity]. }
  destruct (HS st false false H) as (a & Ha & Ht & _ & Hi); [rewrite Es; reflexivity|exact H0|].
  exists a. split; [exact Ha|].
  unfold tot in Ht. rewrite (Hi eq_refl), app_nil_r in Ht. exact Ht.
Qed.
