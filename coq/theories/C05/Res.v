(** C05/Res.v — structural induction over the nested IR type, and the "resolution" relation:
    [Res d a] holds when [a] is the text of [d] in document order with every [IfBreak] replaced by
    one of its two branches. *)
From EV Require Import C05.Model C05.Facts.
Local Open Scope N_scope.

Section DocInd.
  Variable P : doc -> Prop.
  Variable PL : list doc -> Prop.
  Variable PO : option (list doc) -> Prop.
  Variable PE : list entry -> Prop.
  Hypothesis H_atom : forall k s, P (Atom k s).
  Hypothesis H_hard : P HardLine.
  Hypothesis H_soft : P SoftLine.
  Hypothesis H_softe : P SoftLineOrEmpty.
  Hypothesis H_space : P Space.
  Hypothesis H_indent : forall ds, PL ds -> P (Indent ds).
  Hypothesis H_group : forall ds sb id, PL ds -> P (Group ds sb id).
  Hypothesis H_list : forall ds, PL ds -> P (DList ds).
  Hypothesis H_ifb : forall b f g, P b -> P f -> P (IfBreak b f g).
  Hypothesis H_fill : forall ds, PL ds -> P (Fill ds).
  Hypothesis H_ls : forall ds, PL ds -> P (LineSuffix ds).
  Hypothesis H_ag : forall es, PE es -> P (AlignGroup es).
  Hypothesis H_nil : PL [].
  Hypothesis H_cons : forall d r, P d -> PL r -> PL (d :: r).
  Hypothesis H_none : PO None.
  Hypothesis H_some : forall l, PL l -> PO (Some l).
  Hypothesis H_enil : PE [].
  Hypothesis H_ealigned : forall b a t r, PL b -> PL a -> PO t -> PE r -> PE (Aligned b a t :: r).
  Hypothesis H_eline : forall ct t r, PL ct -> PO t -> PE r -> PE (ALine ct t :: r).

  Fixpoint doc_ind2 (d : doc) : P d :=
    let fl := fix fl (l : list doc) : PL l :=
      match l with [] => H_nil | x :: r => H_cons x r (doc_ind2 x) (fl r) end in
    let fo := fun t : option (list doc) =>
      match t return PO t with Some l => H_some l (fl l) | None => H_none end in
    match d return P d with
    | Atom k s => H_atom k s
    | HardLine => H_hard
    | SoftLine => H_soft
    | SoftLineOrEmpty => H_softe
    | Space => H_space
    | Indent ds => H_indent ds (fl ds)
    | Group ds sb id => H_group ds sb id (fl ds)
    | DList ds => H_list ds (fl ds)
    | IfBreak b f g => H_ifb b f g (doc_ind2 b) (doc_ind2 f)
    | Fill ds => H_fill ds (fl ds)
    | LineSuffix ds => H_ls ds (fl ds)
    | AlignGroup es =>
        H_ag es ((fix fe (l : list entry) : PE l :=
                    match l return PE l with
                    | [] => H_enil
                    | Aligned b a t :: r => H_ealigned b a t r (fl b) (fl a) (fo t) (fe r)
                    | ALine ct t :: r => H_eline ct t r (fl ct) (fo t) (fe r)
                    end) es)
    end.

  Fixpoint docs_ind2 (l : list doc) : PL l :=
    match l with [] => H_nil | x :: r => H_cons x r (doc_ind2 x) (docs_ind2 r) end.
End DocInd.

Scheme Res_mut := Induction for Res Sort Prop
  with ResL_mut := Induction for ResL Sort Prop
  with ResO_mut := Induction for ResO Sort Prop
  with ResE_mut := Induction for ResE Sort Prop.

Lemma ResL_app : forall l1 a1, ResL l1 a1 -> forall l2 a2, ResL l2 a2 -> ResL (l1 ++ l2) (a1 ++ a2).
Proof.
  induction 1; intros l2 a2 H2; cbn [app].
  - exact H2.
  - rewrite <- app_assoc. constructor; [assumption|]. apply IHResL. exact H2.
Qed.

(** the inline fixpoints of the structural functions are their list versions *)

Lemma atoms_indent : forall ds, atoms (Indent ds) = atoms_list ds. Proof. reflexivity. Qed.
Lemma atoms_group : forall ds sb id, atoms (Group ds sb id) = atoms_list ds. Proof. reflexivity. Qed.
Lemma atoms_dlist : forall ds, atoms (DList ds) = atoms_list ds. Proof. reflexivity. Qed.
Lemma atoms_fill : forall ds, atoms (Fill ds) = atoms_list ds. Proof. reflexivity. Qed.
Lemma atoms_ls : forall ds, atoms (LineSuffix ds) = atoms_list ds. Proof. reflexivity. Qed.
Lemma atoms_ag : forall es, atoms (AlignGroup es) = atoms_entries es. Proof. reflexivity. Qed.

Definition plain_opt (t : option (list doc)) : bool :=
  match t with Some x => plain_list x | None => true end.

Fixpoint plain_entries (l : list entry) : bool :=
  match l with
  | [] => true
  | Aligned b a t :: r => plain_list b && plain_list a && plain_opt t && plain_entries r
  | ALine ct t :: r => plain_list ct && plain_opt t && plain_entries r
  end.

Lemma plain_ag : forall es, plain (AlignGroup es) = plain_entries es. Proof. reflexivity. Qed.
Lemma plain_indent : forall ds, plain (Indent ds) = plain_list ds. Proof. reflexivity. Qed.
Lemma plain_group : forall ds sb id, plain (Group ds sb id) = plain_list ds. Proof. reflexivity. Qed.
Lemma plain_dlist : forall ds, plain (DList ds) = plain_list ds. Proof. reflexivity. Qed.
Lemma plain_fill : forall ds, plain (Fill ds) = plain_list ds. Proof. reflexivity. Qed.

Definition ifbreak_ok_opt (t : option (list doc)) : bool :=
  match t with Some x => ifbreak_ok_list x | None => true end.

Fixpoint ifbreak_ok_entries (l : list entry) : bool :=
  match l with
  | [] => true
  | Aligned b a t :: r => ifbreak_ok_list b && ifbreak_ok_list a && ifbreak_ok_opt t && ifbreak_ok_entries r
  | ALine ct t :: r => ifbreak_ok_list ct && ifbreak_ok_opt t && ifbreak_ok_entries r
  end.

Lemma ifbreak_ok_ag : forall es, ifbreak_ok (AlignGroup es) = ifbreak_ok_entries es. Proof. reflexivity. Qed.
Lemma ifbreak_ok_indent : forall ds, ifbreak_ok (Indent ds) = ifbreak_ok_list ds. Proof. reflexivity. Qed.
Lemma ifbreak_ok_group : forall ds sb id, ifbreak_ok (Group ds sb id) = ifbreak_ok_list ds. Proof. reflexivity. Qed.
Lemma ifbreak_ok_dlist : forall ds, ifbreak_ok (DList ds) = ifbreak_ok_list ds. Proof. reflexivity. Qed.
Lemma ifbreak_ok_fill : forall ds, ifbreak_ok (Fill ds) = ifbreak_ok_list ds. Proof. reflexivity. Qed.
Lemma ifbreak_ok_ls : forall ds, ifbreak_ok (LineSuffix ds) = ifbreak_ok_list ds. Proof. reflexivity. Qed.

Definition sok_opt (t : option (list doc)) (p : bool) : option bool :=
  match t with Some l => sok_list l p | None => Some p end.

Definition sok_entry (e : entry) (p0 : bool) : option bool :=
  match e with
  | Aligned b a t => do p1 <- sok_list b p0; do p2 <- sok_list a p1; sok_opt t p2
  | ALine ct t => do p1 <- sok_list ct p0; sok_opt t p1
  end.

Fixpoint sok_entries (l : list entry) (first : bool) (p : bool) : option bool :=
  match l with
  | [] => Some p
  | e :: r =>
      do p' <- sok_entry e (if first then p else false);
      sok_entries r false p'
  end.

Lemma sok_ag : forall es p, sok (AlignGroup es) p = sok_entries es true p.
Proof.
  intros es p. cbn [sok]. generalize true as first. revert p.
  induction es as [|e es IH]; intros p first; [reflexivity|].
  (* the per-entry match written out inside [sok] is [sok_entry] *)
  match goal with
  | |- bind ?X ?K = _ => transitivity (bind (sok_entry e (if first then p else false)) K)
  end.
  - destruct e; reflexivity.
  - cbn [sok_entries]. destruct (sok_entry e (if first then p else false)); cbn [bind]; [apply IH|reflexivity].
Qed.

Lemma sok_indent : forall ds p, sok (Indent ds) p = sok_list ds p. Proof. reflexivity. Qed.
Lemma sok_group : forall ds sb id p, sok (Group ds sb id) p = sok_list ds p. Proof. reflexivity. Qed.
Lemma sok_dlist : forall ds p, sok (DList ds) p = sok_list ds p. Proof. reflexivity. Qed.
Lemma sok_fill : forall ds p, sok (Fill ds) p = sok_list ds p. Proof. reflexivity. Qed.

Lemma text_eqb_eq : forall a b, text_eqb a b = true -> a = b.
Proof.
  unfold text_eqb. induction a as [|x a IH]; intros [|y b] H; try discriminate; [reflexivity|].
  apply andb_true_iff in H. destruct H as [H1 H2]. apply N.eqb_eq in H1. subst y.
  f_equal. apply IH. exact H2.
Qed.

Lemma text_eqb_refl : forall a, text_eqb a a = true.
Proof.
  unfold text_eqb. induction a as [|x a IH]; [reflexivity|]. rewrite N.eqb_refl. exact IH.
Qed.

(** In the inductions below the statement for a constructor that only wraps a list ([Indent], [Group],
    ..., [AlignGroup], [Some]) is convertible to the statement for the list; those cases and the empty
    ones are closed first.  For [sok], [AlignGroup] is not a mere wrapper ([sok_ag]). *)

Lemma resl_ifbreak_ok :
  forall l a, ResL l a -> ifbreak_ok_list l = true -> nonblank a = nonblank (atoms_list l).
Proof.
  intros l0 a0 H0. pattern l0, a0, H0.
  apply (ResL_mut
           (fun d a _ => ifbreak_ok d = true -> nonblank a = nonblank (atoms d))
           _
           (fun t a _ => ifbreak_ok_opt t = true -> nonblank a = nonblank (atoms_opt t))
           (fun es a _ => ifbreak_ok_entries es = true -> nonblank a = nonblank (atoms_entries es)));
    try reflexivity; try (intros until 2; assumption);
    try (intros; cbn [ifbreak_ok_list ifbreak_ok_entries atoms_list atoms_entries] in *;
         rewrite !andb_true_iff in *; rewrite !nonblank_app; intuition congruence).
  - (* R_ifb_b: the break branch has the non-blank text of the flat one, which [atoms] reads *)
    intros b f g a _ IH H. cbn [ifbreak_ok] in H. rewrite !andb_true_iff in H. destruct H as [[Hb _] He].
    apply text_eqb_eq in He. cbn [atoms]. rewrite <- He. exact (IH Hb).
  - intros b f g a _ IH H. cbn [ifbreak_ok] in H. rewrite !andb_true_iff in H. destruct H as [[_ Hf] _].
    exact (IH Hf).
Qed.

Lemma resl_plain : forall l a, ResL l a -> plain_list l = true -> a = atoms_list l.
Proof.
  intros l0 a0 H0. pattern l0, a0, H0.
  apply (ResL_mut
           (fun d a _ => plain d = true -> a = atoms d)
           _
           (fun t a _ => plain_opt t = true -> a = atoms_opt t)
           (fun es a _ => plain_entries es = true -> a = atoms_entries es));
    try reflexivity; try (intros until 2; assumption); try (intros; discriminate);
    intros; cbn [plain_list plain_entries atoms_list atoms_entries] in *;
    rewrite !andb_true_iff in *; intuition congruence.
Qed.

Lemma plain_resl : forall l, plain_list l = true -> ResL l (atoms_list l).
Proof.
  intros l0. pattern l0.
  apply (docs_ind2
           (fun d => plain d = true -> Res d (atoms d))
           _
           (fun t => plain_opt t = true -> ResO t (atoms_opt t))
           (fun es => plain_entries es = true -> ResE es (atoms_entries es)));
    try (intros; constructor; auto; fail); try (intros; discriminate);
    intros; cbn [plain_list plain_entries atoms_list atoms_entries] in *;
    rewrite !andb_true_iff in *; constructor; tauto.
Qed.

Lemma plain_sok_list_false : forall l, plain_list l = true -> sok_list l false = Some false.
Proof.
  intros l0. pattern l0.
  apply (docs_ind2
           (fun d => plain d = true -> sok d false = Some false)
           _
           (fun t => plain_opt t = true -> sok_opt t false = Some false)
           (fun es => plain_entries es = true -> forall first, sok_entries es first false = Some false));
    try reflexivity; try (intros until 1; assumption); try (intros; discriminate).
  - intros es IH H. rewrite sok_ag. apply IH, H.
  - intros d r IH1 IH2 H. cbn [plain_list] in H. rewrite andb_true_iff in H. destruct H as [H1 H2].
    cbn [sok_list]. rewrite (IH1 H1). exact (IH2 H2).
  - intros b a t r IH1 IH2 IH3 IH4 H first. cbn [plain_entries] in H.
    rewrite !andb_true_iff in H. destruct H as [[[H1 H2] H3] H4].
    cbn [sok_entries sok_entry]. replace (if first then false else false) with false by (destruct first; reflexivity).
    rewrite (IH1 H1). cbn [bind]. rewrite (IH2 H2). cbn [bind]. rewrite (IH3 H3). exact (IH4 H4 false).
  - intros ct t r IH1 IH3 IH4 H first. cbn [plain_entries] in H.
    rewrite !andb_true_iff in H. destruct H as [[H1 H3] H4].
    cbn [sok_entries sok_entry]. replace (if first then false else false) with false by (destruct first; reflexivity).
    rewrite (IH1 H1). cbn [bind]. rewrite (IH3 H3). exact (IH4 H4 false).
Qed.
