(** The per-file code sets of [DiagnosticIndex] (file_diagnostic_disabled / file_diagnostic_enabled) as a
    per-file fact store and its refinement.  Facts of a file: (kind, code) pairs, kind 0 = disabled, else enabled. *)
From EV Require Import Base.StoreSM C33.Model C33.Lemmas C08.SimpleModels C08.Module C08.Global.
Local Open Scope N_scope.

Definition dfacts : Type := list (N * N).

Definition diag_store : store didx dfacts (N * N) (bool * bool) :=
  mkStore _ _ _ _ d_init d_add d_remove d_clear d_get d_mentions
          (fun s => [N.of_nat (length (d_dis s)); N.of_nat (length (d_en s))]).

Definition is0 (k : N) : bool := k =? 0.
Definition ins_all (l : list N) (codes : list N) : list N := fold_left (fun l c => set_insert c l) codes l.
Definition codes_of (dis : bool) (facts : dfacts) : list N :=
  map snd (filter (fun x => Bool.eqb (is0 (fst x)) dis) facts).
Definition setlist (dis : bool) (facts : dfacts) : list N := ins_all [] (codes_of dis facts).
Definition facts_of (f : N) (a : list (N * dfacts)) : dfacts := match ngetN f a with Some x => x | None => [] end.

Definition diag_R (s : didx) (a : list (N * dfacts)) : Prop :=
  NoDup (keys _ a) /\ NoDup (map fst (d_dis s)) /\ NoDup (map fst (d_en s)) /\
  forall f, ngetN f (d_dis s) = ne_opt (setlist true (facts_of f a)) /\
            ngetN f (d_en s) = ne_opt (setlist false (facts_of f a)).

Definition mem (c : N) (l : list N) : bool := existsb (N.eqb c) l.
Definition diag_aobs (a : list (N * dfacts)) (q : N * N) : bool * bool :=
  (mem (snd q) (setlist true (facts_of (fst q) a)), mem (snd q) (setlist false (facts_of (fst q) a))).
Definition has (dis : bool) (fx : N * dfacts) : bool := negb (is_nil (setlist dis (snd fx))).
Definition diag_asize (a : list (N * dfacts)) : list N :=
  [N.of_nat (length (filter (has true) a)); N.of_nat (length (filter (has false) a))].

Lemma ins_all_nonnil : forall codes l, l <> [] -> ins_all l codes <> [].
Proof.
  unfold ins_all. induction codes as [|c codes IH]; intros l H; cbn [fold_left]; [exact H|].
  apply IH. unfold set_insert. destruct (existsb (N.eqb c) l); [exact H|]. destruct l; discriminate.
Qed.

Definition add_codes (f : N) (codes : list N) (m : list (N * list N)) : list (N * list N) :=
  fold_left (fun m c => set_add f c m) codes m.

Lemma add_codes_spec : forall f codes m g, NoDup (map fst m) ->
  NoDup (map fst (add_codes f codes m)) /\
  ngetN g (add_codes f codes m) =
    if g =? f then match ngetN f m with
                   | Some l => Some (ins_all l codes)
                   | None => ne_opt (ins_all [] codes)
                   end
    else ngetN g m.
Proof.
  unfold add_codes. induction codes as [|c codes IH]; intros m g Hnd; cbn [fold_left].
  - split; [exact Hnd|]. destruct (N.eqb_spec g f) as [->|]; [|reflexivity]. destruct (ngetN f m); reflexivity.
  - destruct (IH (set_add f c m) g (nodup_upd N.eqb_spec f (set_insert c) [c] m Hnd)) as [A B]. split; [exact A|].
    rewrite B. unfold set_add. rewrite !(aget_upd N.eqb_spec), N.eqb_refl.
    destruct (N.eqb_spec g f) as [->|Hne]; [|reflexivity].
    destruct (ngetN f m) as [l|]; [reflexivity|].
    change (ins_all [] (c :: codes)) with (ins_all [c] codes).
    pose proof (ins_all_nonnil codes [c]) as Hn.
    destruct (ins_all [c] codes); [exfalso; apply Hn; [discriminate | reflexivity] | reflexivity].
Qed.

Lemma d_add_tables : forall f facts s,
  d_dis (d_add f facts s) = add_codes f (codes_of true facts) (d_dis s) /\
  d_en (d_add f facts s) = add_codes f (codes_of false facts) (d_en s).
Proof.
  unfold d_add, add_codes, codes_of. induction facts as [|[k c] facts IH]; intro s; cbn [fold_left filter fst snd]; [auto|].
  unfold is0. destruct (N.eqb_spec k 0) as [->|Hk]; cbn [Bool.eqb map snd fold_left];
    destruct (IH (mkDidx (set_add f c (d_dis s)) (d_en s))) as [A1 B1];
    destruct (IH (mkDidx (d_dis s) (set_add f c (d_en s)))) as [A2 B2]; cbn [d_dis d_en] in *; auto.
Qed.

Lemma facts_of_snoc : forall (a : list (N * dfacts)) f (x : dfacts) g, ~ In f (keys _ a) ->
  facts_of g (a ++ [(f, x)]) = if g =? f then x else facts_of g a.
Proof.
  intros a f x g Hn. unfold facts_of. rewrite aget_app. cbn [aget].
  destruct (N.eqb_spec g f) as [->|Hne].
  - destruct (ngetN f a) as [y|] eqn:E; [|reflexivity]. exfalso. apply Hn, (In_keys_iff N.eqb_spec). eauto.
  - destruct (ngetN g a); reflexivity.
Qed.

Lemma facts_of_absent : forall (a : list (N * dfacts)) f, ~ In f (keys _ a) -> facts_of f a = [].
Proof.
  intros a f Hn. unfold facts_of. destruct (ngetN f a) as [y|] eqn:E; [|reflexivity].
  exfalso. apply Hn, (In_keys_iff N.eqb_spec). eauto.
Qed.

Lemma nget_al_remove : forall F (a : list (N * F)) f g,
  ngetN g (al_remove _ f a) = if g =? f then None else ngetN g a.
Proof.
  intros F a f g. unfold al_remove.
  rewrite (filter_ext _ (fun kv => negb (f =? fst kv))) by (intro kv; rewrite N.eqb_sym; reflexivity).
  rewrite <- (adel_filter (eqb := N.eqb)). apply nget_del.
Qed.

Lemma diag_r_add : forall s a f (x : dfacts), diag_R s a -> ~ In f (keys _ a) -> NoDup (keys _ a) -> diag_R (d_add f x s) (a ++ [(f, x)]).
Proof.
  intros s a f x [Ha [H1 [H2 HR]]] Hn _. destruct (d_add_tables f x s) as [T1 T2]. unfold diag_R. rewrite T1, T2.
  split; [unfold keys; rewrite map_app; cbn [map fst]; apply nodup_snoc; assumption|].
  split; [apply (add_codes_spec f _ _ 0 H1)|]. split; [apply (add_codes_spec f _ _ 0 H2)|]. intro g.
  rewrite (proj2 (add_codes_spec f _ _ g H1)), (proj2 (add_codes_spec f _ _ g H2)), (facts_of_snoc a f x g Hn).
  destruct (HR f) as [F1 F2]. rewrite (facts_of_absent a f Hn) in F1, F2. cbn in F1, F2. rewrite F1, F2.
  destruct (g =? f); [split; reflexivity | apply HR].
Qed.

Lemma diag_r_remove : forall s a f, diag_R s a -> NoDup (keys _ a) -> diag_R (d_remove f s) (al_remove _ f a).
Proof.
  intros s a f [Ha [H1 [H2 HR]]] _. split; [apply nodup_al_remove; exact Ha|].
  split; [apply nodup_adel; exact H1|]. split; [apply nodup_adel; exact H2|]. intro g. cbn [d_remove d_dis d_en].
  rewrite !nget_del. unfold facts_of. rewrite nget_al_remove.
  destruct (N.eqb_spec g f) as [->|Hne]; [split; reflexivity | apply HR].
Qed.

Lemma diag_r_clear : forall s a, diag_R s a -> diag_R (d_clear s) [].
Proof. intros s a _. repeat split; constructor. Qed.

Lemma diag_r_obs : forall s a q, diag_R s a -> d_get s q = diag_aobs a q.
Proof.
  intros s a [f c] [_ [_ [_ HR]]]. unfold d_get, diag_aobs. cbn [fst snd]. destruct (HR f) as [F1 F2]. rewrite F1, F2.
  unfold mem. destruct (setlist true (facts_of f a)), (setlist false (facts_of f a)); reflexivity.
Qed.

Lemma table_length : forall (dis : bool) (m : list (N * list N)) (a : list (N * dfacts)),
  NoDup (keys _ a) -> NoDup (map fst m) ->
  (forall f, ngetN f m = ne_opt (setlist dis (facts_of f a))) ->
  length m = length (filter (has dis) a).
Proof.
  intros dis m a Ha Hm HR. rewrite <- (map_length fst (filter (has dis) a)).
  apply (keys_length N.eqb_spec); [exact Hm | apply nodup_map_filter; exact Ha|].
  intro f. rewrite HR. unfold facts_of. split.
  - intros [l Hl]. destruct (ngetN f a) as [x|] eqn:E; [|discriminate].
    apply (aget_In N.eqb_spec) in E. apply in_map_iff. exists (f, x). split; [reflexivity|].
    apply filter_In. split; [exact E|]. unfold has. cbn [snd]. destruct (setlist dis x); [discriminate | reflexivity].
  - intro H. apply in_map_iff in H. destruct H as [[g x] [<- Hin]]. apply filter_In in Hin. destruct Hin as [Hin Hh].
    cbn [fst]. rewrite (In_nodup_aget N.eqb_spec g x a Ha Hin). unfold has in Hh. cbn [snd] in Hh.
    destruct (setlist dis x); [discriminate | cbn [ne_opt]; eauto].
Qed.

Lemma diag_r_size : forall s a, diag_R s a ->
  [N.of_nat (length (d_dis s)); N.of_nat (length (d_en s))] = diag_asize a.
Proof.
  intros s a [Ha [H1 [H2 HR]]]. unfold diag_asize.
  rewrite (table_length true (d_dis s) a Ha H1 (fun f => proj1 (HR f))).
  rewrite (table_length false (d_en s) a Ha H2 (fun f => proj2 (HR f))). reflexivity.
Qed.

Lemma diag_r_mentions : forall s a f, diag_R s a -> ~ In f (keys _ a) -> d_mentions s f = false.
Proof.
  intros s a f [_ [_ [_ HR]]] Hn. unfold d_mentions. destruct (HR f) as [F1 F2].
  rewrite (facts_of_absent a f Hn) in F1, F2. cbn in F1, F2.
  rewrite (no_key_of_aget_none _ f _ F1), (no_key_of_aget_none _ f _ F2). reflexivity.
Qed.

Lemma facts_of_move : forall (a : list (N * dfacts)) f (x : dfacts) g, NoDup (keys _ a) -> In (f, x) a ->
  facts_of g (al_remove _ f a ++ [(f, x)]) = facts_of g a.
Proof.
  intros a f x g Hnd Hin. rewrite facts_of_snoc by apply notin_al_remove.
  unfold facts_of. rewrite nget_al_remove. destruct (N.eqb_spec g f) as [->|_]; [|reflexivity].
  rewrite (In_nodup_aget N.eqb_spec f x a Hnd Hin). reflexivity.
Qed.

Lemma diag_r_move_obs : forall a f (x : dfacts) q, NoDup (keys _ a) -> In (f, x) a -> True ->
  diag_aobs (al_remove _ f a ++ [(f, x)]) q = diag_aobs a q.
Proof. intros a f x q Hnd Hin _. unfold diag_aobs. rewrite facts_of_move by assumption. reflexivity. Qed.

Lemma diag_r_move_size : forall a f (x : dfacts), NoDup (keys _ a) -> In (f, x) a ->
  diag_asize (al_remove _ f a ++ [(f, x)]) = diag_asize a.
Proof.
  intros a f x Hnd Hin. destruct (al_remove_split _ a f x Hnd Hin) as [l1 [l2 [Ha Hr]]]. unfold diag_asize. rewrite Hr, Ha, !filter_app. cbn [filter]. rewrite !app_length.
  destruct (has true (f, x)), (has false (f, x)); cbn [length app]; rewrite ?app_length; cbn [length];
    (f_equal; [f_equal; lia | f_equal; f_equal; lia]).
Qed.

Definition diag_refinement : refinement _ _ _ _ diag_store :=
  mkRef _ _ _ _ diag_store diag_R diag_aobs diag_asize (fun _ _ => True)
        (conj (NoDup_nil N) (conj (NoDup_nil N) (conj (NoDup_nil N) (fun f => conj eq_refl eq_refl))))
        diag_r_add diag_r_remove diag_r_clear diag_r_obs diag_r_size diag_r_mentions diag_r_move_obs diag_r_move_size.
