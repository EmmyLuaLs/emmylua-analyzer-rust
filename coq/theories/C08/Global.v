(** [LuaGlobalIndex] as a per-file fact store and its refinement.
    The facts of a file are its global declarations (name, position), in source order. *)
From EV Require Import Base.StoreSM C33.Model C33.Lemmas C08.SimpleModels C08.Module.
Local Open Scope N_scope.

Definition gfacts : Type := list (N * N).

Definition glob_store : store gidx gfacts N (option (list (N * N))) :=
  mkStore _ _ _ _ g_init g_add g_remove g_clear g_get g_mentions (fun s => [N.of_nat (length s)]).

(** the declarations of [nm] contributed by one file / by all indexed files, in submission order *)
Definition mine (nm f : N) (facts : gfacts) : list (N * N) :=
  map (fun x => (f, snd x)) (filter (fun x => fst x =? nm) facts).
Definition decls (a : list (N * gfacts)) (nm : N) : list (N * N) := flat_map (fun fx => mine nm (fst fx) (snd fx)) a.
Definition names (a : list (N * gfacts)) : list N := flat_map (fun fx => map fst (snd fx)) a.

Definition ne_opt {A} (l : list A) : option (list A) := match l with [] => None | _ => Some l end.

Definition glob_R (s : gidx) (a : list (N * gfacts)) : Prop :=
  NoDup (map fst s) /\ forall nm, ngetN nm s = ne_opt (decls a nm).

Definition glob_aobs (a : list (N * gfacts)) (nm : N) : option (list (N * N)) := ne_opt (decls a nm).
Definition glob_asize (a : list (N * gfacts)) : list N := [N.of_nat (length (nodup N.eq_dec (names a)))].

(** no other file declares a global that [f] declares *)
Definition glob_excl (a : list (N * gfacts)) (f : N) : Prop :=
  forall x g y nm, In (f, x) a -> In (g, y) a -> g <> f -> In nm (map fst x) -> ~ In nm (map fst y).

Lemma decls_app : forall a b nm, decls (a ++ b) nm = decls a nm ++ decls b nm.
Proof. intros. unfold decls. apply flat_map_app. Qed.

Lemma g_add_spec : forall f facts s nm, NoDup (map fst s) ->
  NoDup (map fst (g_add f facts s)) /\
  ngetN nm (g_add f facts s) = match ngetN nm s with Some l0 => Some (l0 ++ mine nm f facts) | None => ne_opt (mine nm f facts) end.
Proof.
  unfold g_add. induction facts as [|[n p] facts IH]; intros s nm Hnd; cbn [fold_left].
  - split; [exact Hnd|]. unfold mine. cbn. destruct (ngetN nm s); [rewrite app_nil_r|]; reflexivity.
  - cbn [fst snd]. destruct (IH _ nm (nodup_upd N.eqb_spec n (fun l => l ++ [(f, p)]) [(f, p)] s Hnd)) as [H1 H2]. split; [exact H1|].
    rewrite H2, (aget_upd N.eqb_spec). unfold mine. cbn [filter fst]. destruct (N.eqb_spec nm n) as [->|Hne].
    + rewrite N.eqb_refl. cbn [map snd]. destruct (ngetN n s) as [l|]; [rewrite <- app_assoc|]; reflexivity.
    + destruct (N.eqb_spec n nm); [congruence | reflexivity].
Qed.

Lemma g_remove_spec : forall f s nm, NoDup (map fst s) ->
  NoDup (map fst (g_remove f s)) /\
  (forall k, In k (map fst (g_remove f s)) -> In k (map fst s)) /\
  ngetN nm (g_remove f s) = match ngetN nm s with Some l => ne_opt (filter (fun d => negb (fst d =? f)) l) | None => None end.
Proof.
  induction s as [|[n l] s IH]; intros nm Hnd; cbn [g_remove].
  - split; [constructor|]. split; [auto | reflexivity].
  - cbn [map fst] in Hnd. inversion Hnd as [|? ? Hn Hnd']; subst. destruct (IH nm Hnd') as [H1 [H2 H3]].
    destruct (filter (fun d => negb (fst d =? f)) l) as [|d r] eqn:E; cbn [is_nil].
    + split; [exact H1|]. split; [intros k Hk; right; auto|].
      cbn [aget]. destruct (N.eqb_spec nm n) as [->|Hne]; [|exact H3].
      rewrite E, H3. cbn [ne_opt]. destruct (ngetN n s) as [l2|] eqn:E2; [|reflexivity].
      exfalso. apply Hn, (In_keys_iff N.eqb_spec). eauto.
    + split; [cbn [map fst]; constructor; [intro Hin; apply Hn; auto | exact H1]|].
      split; [intros k [Hk|Hk]; [left; exact Hk | right; auto]|].
      cbn [aget]. destruct (N.eqb_spec nm n) as [->|Hne]; [rewrite E; reflexivity | exact H3].
Qed.

Lemma mine_file : forall nm f facts d, In d (mine nm f facts) -> fst d = f.
Proof. intros nm f facts d H. apply in_map_iff in H. destruct H as [x [<- _]]. reflexivity. Qed.

Lemma decls_remove : forall f a nm,
  decls (al_remove _ f a) nm = filter (fun d => negb (fst d =? f)) (decls a nm).
Proof.
  intros f a nm. unfold decls, al_remove. induction a as [|[g y] a IH]; cbn [filter flat_map fst snd]; [reflexivity|].
  rewrite filter_app, <- IH. destruct (N.eqb_spec g f) as [->|Hne]; cbn [negb flat_map fst snd].
  - rewrite (filter_none _ _ (mine nm f y)); [reflexivity|].
    intros d Hd. rewrite (mine_file _ _ _ _ Hd), N.eqb_refl. reflexivity.
  - f_equal. symmetry. apply filter_all. intros d Hd. rewrite (mine_file _ _ _ _ Hd).
    destruct (N.eqb_spec g f); [contradiction | reflexivity].
Qed.

Lemma decls_single : forall f x nm, decls [(f, x)] nm = mine nm f x.
Proof. intros. unfold decls. cbn [flat_map fst snd]. apply app_nil_r. Qed.

Lemma glob_r_add : forall s a f x, glob_R s a -> ~ In f (keys _ a) -> NoDup (keys _ a) -> glob_R (g_add f x s) (a ++ [(f, x)]).
Proof.
  intros s a f x [Hnd HR] _ _. split; [apply (g_add_spec f x s 0 Hnd)|].
  intro nm. destruct (g_add_spec f x s nm Hnd) as [_ H]. rewrite H, HR, decls_app, decls_single. destruct (decls a nm); reflexivity.
Qed.

Lemma glob_r_remove : forall s a f, glob_R s a -> NoDup (keys _ a) -> glob_R (g_remove f s) (al_remove _ f a).
Proof.
  intros s a f [Hnd HR] _. split; [apply (g_remove_spec f s 0 Hnd)|].
  intro nm. destruct (g_remove_spec f s nm Hnd) as [_ [_ H]]. rewrite H, HR, decls_remove.
  destruct (decls a nm); reflexivity.
Qed.

Lemma glob_r_clear : forall s a, glob_R s a -> glob_R (g_clear s) [].
Proof. intros s a _. split; [constructor | intro nm; reflexivity]. Qed.

Lemma glob_r_obs : forall s a q, glob_R s a -> g_get s q = glob_aobs a q.
Proof. intros s a q [_ HR]. apply HR. Qed.

Lemma mine_nonnil : forall nm f x, mine nm f x <> [] <-> In nm (map fst x).
Proof.
  intros nm f x. unfold mine. induction x as [|[n p] x IH]; cbn [filter map fst In].
  - split; [congruence | intros []].
  - destruct (N.eqb_spec n nm) as [->|Hne]; cbn [map].
    + split; [auto | discriminate].
    + rewrite IH. split; [auto | intros [E|H]; [congruence | exact H]].
Qed.

Lemma decls_nonnil : forall a nm, decls a nm <> [] <-> In nm (names a).
Proof.
  intros a nm. unfold decls, names. induction a as [|[g y] a IH]; cbn [flat_map fst snd].
  - split; [congruence | intros []].
  - rewrite in_app_iff, <- IH, <- (mine_nonnil nm g y). destruct (mine nm g y); cbn [app]; [intuition congruence|].
    split; [left; discriminate | discriminate].
Qed.

Lemma glob_r_size : forall s a, glob_R s a -> [N.of_nat (length s)] = glob_asize a.
Proof.
  intros s a [Hnd HR]. unfold glob_asize. do 2 f_equal.
  apply (keys_length N.eqb_spec); [exact Hnd | apply NoDup_nodup|].
  intro nm. rewrite nodup_In, <- decls_nonnil, HR. destruct (decls a nm); cbn [ne_opt]; split.
  - intros [l Hl]. discriminate.
  - congruence.
  - discriminate.
  - eauto.
Qed.

Lemma decls_files : forall a nm d, In d (decls a nm) -> In (fst d) (keys _ a).
Proof.
  intros a nm d H. unfold decls in H. apply in_flat_map in H. destruct H as [[g y] [Hin Hd]].
  cbn [fst snd] in Hd. rewrite (mine_file _ _ _ _ Hd). exact (in_map fst _ _ Hin).
Qed.

Lemma glob_r_mentions : forall s a f, glob_R s a -> ~ In f (keys _ a) -> g_mentions s f = false.
Proof.
  intros s a f [Hnd HR] Hnot. unfold g_mentions. apply existsb_false. intros [nm l] Hin. cbn [snd].
  apply (In_nodup_aget N.eqb_spec) in Hin; [|exact Hnd]. rewrite HR in Hin.
  apply existsb_false. intros d Hd. destruct (N.eqb_spec (fst d) f) as [E|_]; [|reflexivity].
  exfalso. apply Hnot. rewrite <- E. apply (decls_files a nm).
  destruct (decls a nm) as [|d0 r]; [discriminate|]. inversion Hin; subst l. exact Hd.
Qed.

Lemma glob_r_move_obs : forall a f x q, NoDup (keys _ a) -> In (f, x) a -> glob_excl a f ->
  glob_aobs (al_remove _ f a ++ [(f, x)]) q = glob_aobs a q.
Proof.
  intros a f x q Hnd Hin Hex. destruct (al_remove_split _ a f x Hnd Hin) as [l1 [l2 [Ha Hr]]].
  unfold glob_aobs. f_equal. rewrite Hr, Ha, !decls_app. change ((f, x) :: l2) with ([(f, x)] ++ l2). rewrite !decls_app, !decls_single.
  destruct (mine q f x) as [|d r] eqn:E; [rewrite app_nil_r; reflexivity|].
  (* f declares q: no entry of l2 does *)
  assert (Hq : In q (map fst x)) by (apply (mine_nonnil q f); rewrite E; discriminate).
  assert (H2 : decls l2 q = []).
  { destruct (decls l2 q) as [|d2 r2] eqn:E2; [reflexivity|]. exfalso.
    assert (Hn : In q (names l2)) by (apply decls_nonnil; congruence).
    unfold names in Hn. apply in_flat_map in Hn. destruct Hn as [[g y] [Hg Hy]]. cbn [snd] in Hy.
    assert (Hg' : In (g, y) (al_remove _ f a)) by (rewrite Hr; apply in_or_app; right; exact Hg).
    apply in_al_remove in Hg'. destruct Hg' as [Hga Hne]. exact (Hex x g y q Hin Hga Hne Hq Hy). }
  rewrite H2, !app_nil_r. reflexivity.
Qed.

Lemma glob_r_move_size : forall a f x, NoDup (keys _ a) -> In (f, x) a ->
  glob_asize (al_remove _ f a ++ [(f, x)]) = glob_asize a.
Proof.
  intros a f x Hnd Hin. destruct (al_remove_split _ a f x Hnd Hin) as [l1 [l2 [Ha Hr]]].
  unfold glob_asize. do 2 f_equal. apply nodup_length_ext. intro nm. rewrite Hr, Ha. unfold names.
  rewrite !flat_map_app. cbn [flat_map]. rewrite !in_app_iff. cbn [In]. tauto.
Qed.

Definition glob_refinement : refinement _ _ _ _ glob_store :=
  mkRef _ _ _ _ glob_store glob_R glob_aobs glob_asize glob_excl
        (conj (NoDup_nil N) (fun nm => eq_refl))
        glob_r_add glob_r_remove glob_r_clear glob_r_obs glob_r_size glob_r_mentions glob_r_move_obs glob_r_move_size.
