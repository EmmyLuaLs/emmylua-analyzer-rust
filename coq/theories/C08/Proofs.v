(** The module-index theorems as instances of Base/StoreSM.v; the frame property of LuaPropertyIndex rests on [OW]:
    owner -> property id is injective, so writes and deletions for one owner leave the others alone. *)
From EV Require Import Base.StoreSM C33.Model C33.Spec C33.Lemmas C33.Proofs C08.Module C08.PropertyModel C08.MemberModel.
Local Open Scope N_scope.

Lemma resubmit_obs : forall (c : cfg) (ops : list (hop mfacts)) (f : N) (x : mfacts) (q : str),
  In (f, x) (indexed mfacts ops) -> mod_excl (indexed mfacts ops) f ->
  mod_obs c (state _ _ _ _ (mod_store c) (ops ++ [HUpdate _ f x])) q = mod_obs c (state _ _ _ _ (mod_store c) ops) q.
Proof. intro c. exact (StoreSM.resubmit_obs _ _ _ _ (mod_store c) (mod_refinement c)). Qed.

Lemma resubmit_size : forall (c : cfg) (ops : list (hop mfacts)) (f : N) (x : mfacts),
  In (f, x) (indexed mfacts ops) ->
  mod_size (state _ _ _ _ (mod_store c) (ops ++ [HUpdate _ f x])) = mod_size (state _ _ _ _ (mod_store c) ops).
Proof. intro c. exact (StoreSM.resubmit_size _ _ _ _ (mod_store c) (mod_refinement c)). Qed.

Lemma edit_restore : forall (c : cfg) (ops : list (hop mfacts)) (f : N) (x y : mfacts) (q : str),
  In (f, x) (indexed mfacts ops) -> mod_excl (indexed mfacts ops) f ->
  mod_obs c (state _ _ _ _ (mod_store c) (ops ++ [HUpdate _ f y; HUpdate _ f x])) q
  = mod_obs c (state _ _ _ _ (mod_store c) ops) q
  /\ mod_size (state _ _ _ _ (mod_store c) (ops ++ [HUpdate _ f y; HUpdate _ f x]))
     = mod_size (state _ _ _ _ (mod_store c) ops).
Proof.
  intros c ops f x y q Hin Hex. split.
  - exact (StoreSM.edit_restore_obs _ _ _ _ (mod_store c) (mod_refinement c) ops f x y q Hin Hex).
  - exact (StoreSM.edit_restore_size _ _ _ _ (mod_store c) (mod_refinement c) ops f x y Hin).
Qed.

Lemma resubmit_obs_shared_refuted : exists (c : cfg) (ops : list (hop mfacts)) (f : N) (x : mfacts) (q : str),
  In (f, x) (indexed mfacts ops) /\
  mod_obs c (state _ _ _ _ (mod_store c) (ops ++ [HUpdate _ f x])) q <> mod_obs c (state _ _ _ _ (mod_store c) ops) q.
Proof.
  exists ex_cfg, [HUpdate mfacts 1 ([97], 1, false); HUpdate _ 2 ([97], 1, false)], 1, ([97], 1, false), [97].
  split; [vm_compute; left; reflexivity|]. vm_compute. discriminate.
Qed.

Lemma resubmit_example :
  let c := ex_cfg in
  let ops := [HUpdate mfacts 1 ([97; 46; 98], 1, false); HUpdate _ 2 ([120; 46; 98], 1, false); HUpdate _ 1 ([97; 46; 98], 1, false)] in
  mod_excl (indexed mfacts ops) 1 /\
  mod_obs c (state _ _ _ _ (mod_store c) ops) [98] = Some (1, [97; 46; 98], 1, false) /\
  mod_size (state _ _ _ _ (mod_store c) ops) = [5; 2; 1].
Proof.
  cbv zeta. split; [|split; vm_compute; reflexivity].
  intros x g y Hf Hg Hne. vm_compute in Hf, Hg.
  destruct Hf as [Hf|[Hf|[]]]; [inversion Hf; congruence|]. inversion Hf; subst x.
  destruct Hg as [Hg|[Hg|[]]]; inversion Hg; subst; [|congruence].
  vm_compute. discriminate.
Qed.

Lemma property_resubmit_refuted : exists (s : pidx) (f : N) (facts : list pfact) (owner : N),
  s = p_add f facts (p_add 1 [(0, 0, 1)] p_init) /\
  p_get (p_add f facts (p_remove f s)) owner <> p_get s owner.
Proof.
  exists (p_add 2 [(0, 2, 0)] (p_add 1 [(0, 0, 1)] p_init)), 2, [(0, 2, 0)], 0.
  split; [reflexivity|]. vm_compute. discriminate.
Qed.

Definition OW (omap : list (N * N)) (cnt : N) : Prop :=
  (forall o pid, ngetN o omap = Some pid -> pid < cnt) /\
  (forall o o' pid, ngetN o omap = Some pid -> ngetN o' omap = Some pid -> o = o').

Definition pget2 (props : list (N * prop)) (omap : list (N * N)) (o : N) : option prop :=
  match ngetN o omap with Some pid => ngetN pid props | None => None end.

Lemma ow_new : forall omap cnt o, OW omap cnt -> OW (nsetN o cnt omap) (cnt + 1).
Proof.
  intros omap cnt o [W1 W2]. split.
  - intros a pid Ha. rewrite nget_set in Ha. destruct (N.eqb_spec a o).
    + inversion Ha. lia.
    + pose proof (W1 a pid Ha). lia.
  - intros a b pid Ha Hb. rewrite nget_set in Ha, Hb.
    destruct (N.eqb_spec a o), (N.eqb_spec b o); try congruence.
    + inversion Ha; subst pid. pose proof (W1 b _ Hb). lia.
    + inversion Hb; subst pid. pose proof (W1 a _ Ha). lia.
    + eapply W2; eauto.
Qed.

Lemma ow_del : forall omap cnt o, OW omap cnt -> OW (ndelN o omap) cnt.
Proof.
  intros omap cnt o [W1 W2]. split.
  - intros a pid Ha. rewrite nget_del in Ha. destruct (N.eqb_spec a o); [discriminate|]. eapply W1; eauto.
  - intros a b pid Ha Hb. rewrite nget_del in Ha, Hb.
    destruct (N.eqb_spec a o), (N.eqb_spec b o); try discriminate. eapply W2; eauto.
Qed.

Lemma apply_fact_ow : forall f s x, OW (px_owners s) (px_count s) ->
  OW (px_owners (apply_fact f s x)) (px_count (apply_fact f s x)).
Proof.
  intros f s [[o' k] v] HW. unfold apply_fact, get_or_create.
  destruct (ngetN o' (px_owners s)) as [pid'|].
  - destruct (ngetN pid' (px_props s)) as [p'|] eqn:Ep; [rewrite Ep|]; exact HW.
  - apply ow_new. exact HW.
Qed.

(** the property id written to is not [o]'s *)
Lemma apply_fact_frame : forall f s x o, OW (px_owners s) (px_count s) -> fst (fst x) <> o ->
  p_get (apply_fact f s x) o = p_get s o.
Proof.
  intros f s [[o' k] v] o [W1 W2] Hne. cbn [fst] in Hne. unfold apply_fact, get_or_create, p_get.
  destruct (ngetN o' (px_owners s)) as [pid'|] eqn:Eo.
  - destruct (ngetN pid' (px_props s)) as [p'|] eqn:Ep; [|reflexivity].
    rewrite Ep. cbn [px_props px_owners].
    destruct (ngetN o (px_owners s)) as [pid|] eqn:E; [|reflexivity].
    rewrite nget_set. destruct (N.eqb_spec pid pid') as [->|_]; [|reflexivity].
    exfalso. apply Hne. eapply W2; eauto.
  - cbn [px_props px_owners]. rewrite !nget_set, N.eqb_refl.
    destruct (N.eqb_spec o o') as [E|_]; [congruence|].
    destruct (ngetN o (px_owners s)) as [pid|] eqn:E; [|reflexivity].
    rewrite !nget_set. pose proof (W1 o pid E) as Hlt.
    destruct (N.eqb_spec pid (px_count s)) as [E2|_]; [lia | reflexivity].
Qed.

Lemma p_add_ow : forall facts f s, OW (px_owners s) (px_count s) ->
  OW (px_owners (p_add f facts s)) (px_count (p_add f facts s)).
Proof.
  unfold p_add. induction facts as [|x facts IH]; intros f s HW; cbn [fold_left]; [exact HW|].
  apply IH. apply apply_fact_ow. exact HW.
Qed.

Lemma p_add_frame : forall facts f s o, OW (px_owners s) (px_count s) ->
  ~ In o (map (fun x => fst (fst x)) facts) ->
  p_get (p_add f facts s) o = p_get s o.
Proof.
  unfold p_add. induction facts as [|x facts IH]; intros f s o HW Hnot; cbn [fold_left]; [reflexivity|].
  cbn [map In] in Hnot. rewrite IH; [|apply apply_fact_ow; exact HW | tauto].
  apply apply_fact_frame; [exact HW | tauto].
Qed.

(** the loop body of [p_remove] *)
Definition rm_step (acc : list (N * prop) * list (N * N)) (o : N) : list (N * prop) * list (N * N) :=
  let '(props, omap) := acc in
  match ngetN o omap with
  | Some pid => (ndelN pid props, ndelN o omap)
  | None => (props, omap)
  end.

Lemma p_remove_eq : forall f s, p_remove f s =
  match ngetN f (px_infile s) with
  | None => s
  | Some owners => let r := fold_left rm_step owners (px_props s, px_owners s) in
                   mkPidx (fst r) (snd r) (px_count s) (ndelN f (px_infile s))
  end.
Proof.
  intros f s. unfold p_remove, rm_step. destruct (ngetN f (px_infile s)); [|reflexivity].
  cbv zeta. destruct (fold_left _ _ _). reflexivity.
Qed.

Lemma rm_step_ow : forall acc cnt o, OW (snd acc) cnt -> OW (snd (rm_step acc o)) cnt.
Proof.
  intros [props omap] cnt o HW. cbn [rm_step snd] in *. destruct (ngetN o omap); cbn [snd]; [apply ow_del|]; exact HW.
Qed.

Lemma rm_step_frame : forall acc cnt o' o, OW (snd acc) cnt -> o' <> o ->
  pget2 (fst (rm_step acc o')) (snd (rm_step acc o')) o = pget2 (fst acc) (snd acc) o.
Proof.
  intros [props omap] cnt o' o [_ W2] Hne. cbn [rm_step fst snd] in *.
  destruct (ngetN o' omap) as [pid'|] eqn:Eo; cbn [fst snd]; [|reflexivity].
  unfold pget2. rewrite nget_del. destruct (N.eqb_spec o o') as [E|_]; [congruence|].
  destruct (ngetN o omap) as [pid|] eqn:E; [|reflexivity].
  rewrite nget_del. destruct (N.eqb_spec pid pid') as [->|_]; [|reflexivity].
  exfalso. apply Hne. eapply W2; eauto.
Qed.

Lemma rm_fold_ow : forall l acc cnt, OW (snd acc) cnt -> OW (snd (fold_left rm_step l acc)) cnt.
Proof.
  induction l as [|o l IH]; intros acc cnt HW; cbn [fold_left]; [exact HW|]. apply IH, rm_step_ow, HW.
Qed.

Lemma rm_fold_frame : forall l acc cnt o, OW (snd acc) cnt -> ~ In o l ->
  pget2 (fst (fold_left rm_step l acc)) (snd (fold_left rm_step l acc)) o = pget2 (fst acc) (snd acc) o.
Proof.
  induction l as [|o' l IH]; intros acc cnt o HW Hnot; cbn [fold_left]; [reflexivity|]. cbn [In] in Hnot.
  rewrite (IH _ cnt); [apply (rm_step_frame acc cnt) | apply rm_step_ow |]; tauto.
Qed.

Lemma p_remove_ow : forall f s, OW (px_owners s) (px_count s) ->
  OW (px_owners (p_remove f s)) (px_count (p_remove f s)).
Proof.
  intros f s HW. rewrite p_remove_eq. destruct (ngetN f (px_infile s)) as [l|]; [|exact HW].
  apply rm_fold_ow. exact HW.
Qed.

Lemma p_remove_frame : forall f s o, OW (px_owners s) (px_count s) ->
  (forall l, ngetN f (px_infile s) = Some l -> ~ In o l) ->
  p_get (p_remove f s) o = p_get s o.
Proof.
  intros f s o HW Hl. rewrite p_remove_eq. destruct (ngetN f (px_infile s)) as [l|]; [|reflexivity].
  exact (rm_fold_frame l (px_props s, px_owners s) (px_count s) o HW (Hl l eq_refl)).
Qed.

Lemma reach_ow : forall ops s, OW (px_owners s) (px_count s) ->
  OW (px_owners (fold_left pstep ops s)) (px_count (fold_left pstep ops s)).
Proof.
  induction ops as [|o ops IH]; intros s HW; cbn [fold_left]; [exact HW|].
  apply IH. destruct o as [f facts|f|]; cbn [pstep].
  - apply p_add_ow. exact HW.
  - apply p_remove_ow. exact HW.
  - cbn. split; intros; discriminate.
Qed.

Lemma property_resubmit_outside_known : forall (ops : list pop) (f : N) (facts : list pfact) (owner : N),
  let s := fold_left pstep ops p_init in
  ~ In owner (map (fun x => fst (fst x)) facts) ->
  (forall l, ngetN f (px_infile s) = Some l -> ~ In owner l) ->
  p_get (p_add f facts (p_remove f s)) owner = p_get s owner.
Proof.
  intros ops f facts owner s Hnot Hl.
  assert (HW : OW (px_owners s) (px_count s)).
  { apply reach_ow. cbn. split; intros; discriminate. }
  rewrite p_add_frame; [apply p_remove_frame | apply p_remove_ow |]; assumption.
Qed.

(** LuaMemberIndex: what [remove(file)] does to one One/Many item *)
Lemma member_prune_item_exact : forall f it,
  match prune_item f it with
  | Some it' => forall m, In m (item_ids it') <-> In m (item_ids it) /\ fst m <> f
  | None => forall m, In m (item_ids it) -> fst m = f
  end.
Proof.
  intros f [m0|ids]; cbn [prune_item item_ids].
  - destruct (N.eqb_spec (fst m0) f) as [E|Hne].
    + intros m [<-|[]]. exact E.
    + intro m. cbn [item_ids In]. split; [intros [<-|[]]; auto | intros [[<-|[]] _]; auto].
  - destruct (filter (fun m => negb (fst m =? f)) ids) as [|x r] eqn:E; cbn [is_nil item_ids].
    + intros m Hm. destruct (N.eq_dec (fst m) f) as [|Hne]; [assumption|]. exfalso.
      assert (Hin : In m (filter (fun m => negb (fst m =? f)) ids)) by (apply in_drop_key; auto).
      rewrite E in Hin. destruct Hin.
    + intro m. rewrite <- E. apply in_drop_key.
Qed.

Lemma member_clear_is_init : forall s, mb_clear s = mb_init.
Proof. reflexivity. Qed.
