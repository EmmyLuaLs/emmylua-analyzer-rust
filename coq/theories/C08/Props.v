(** The property theorems (re-submitting or undoing an edit leaves the analysis state unchanged): for the
    module index, the global index and the product store as per-file fact stores, over EVERY history of the driver;
    for the property and member index transcriptions, state by state.
    [state c ops] below is the real index model after the driver history [ops] ([HUpdate f x] = update_file_by_uri,
    [HRemove f] = remove_file_by_uri, [HReindex] = reindex); [indexed] is the list of (file, facts) currently indexed. *)
From EV Require Import Base.StoreSM C33.Model C33.Spec C33.Proofs C08.Module C08.PropertyModel C08.SimpleModels C08.Global C08.Diag C08.Product C08.MemberModel C08.Proofs.
Local Open Scope N_scope.

(** Re-submitting a file with unchanged facts changes no answer of the module index, provided no other file is
    registered under the same module path (the excluded class: an entity with contributions from another file). *)
Theorem resubmit_obs : forall (c : cfg) (ops : list (hop mfacts)) (f : N) (x : mfacts) (q : str),
  In (f, x) (indexed mfacts ops) -> mod_excl (indexed mfacts ops) f ->
  mod_obs c (state _ _ _ _ (mod_store c) (ops ++ [HUpdate _ f x])) q = mod_obs c (state _ _ _ _ (mod_store c) ops) q.
Proof. exact Proofs.resubmit_obs. Qed.

(** ... and never changes the number of tree nodes, file records or fuzzy-name entries (no growth, no loss). *)
Theorem resubmit_size : forall (c : cfg) (ops : list (hop mfacts)) (f : N) (x : mfacts),
  In (f, x) (indexed mfacts ops) ->
  mod_size (state _ _ _ _ (mod_store c) (ops ++ [HUpdate _ f x])) = mod_size (state _ _ _ _ (mod_store c) ops).
Proof. exact Proofs.resubmit_size. Qed.

(** Editing a file and restoring its previous content is as good as never touching it. *)
Theorem edit_restore : forall (c : cfg) (ops : list (hop mfacts)) (f : N) (x y : mfacts) (q : str),
  In (f, x) (indexed mfacts ops) -> mod_excl (indexed mfacts ops) f ->
  mod_obs c (state _ _ _ _ (mod_store c) (ops ++ [HUpdate _ f y; HUpdate _ f x])) q
  = mod_obs c (state _ _ _ _ (mod_store c) ops) q
  /\ mod_size (state _ _ _ _ (mod_store c) (ops ++ [HUpdate _ f y; HUpdate _ f x]))
     = mod_size (state _ _ _ _ (mod_store c) ops).
Proof. exact Proofs.edit_restore. Qed.

(** The excluded class is real: with two files under one module path, re-submitting the first one changes the answer
    (the first registered file wins; re-submission registers it again, last). *)
Theorem resubmit_obs_shared_refuted : exists (c : cfg) (ops : list (hop mfacts)) (f : N) (x : mfacts) (q : str),
  In (f, x) (indexed mfacts ops) /\
  mod_obs c (state _ _ _ _ (mod_store c) (ops ++ [HUpdate _ f x])) q <> mod_obs c (state _ _ _ _ (mod_store c) ops) q.
Proof. exact Proofs.resubmit_obs_shared_refuted. Qed.

(** LuaPropertyIndex: [remove(file)] deletes the WHOLE property of every owner the file touched, so re-submitting a
    file erases what another file contributed to a shared owner (the known open finding) ... *)
Theorem property_resubmit_refuted : exists (s : pidx) (f : N) (facts : list pfact) (owner : N),
  s = p_add f facts (p_add 1 [(0, 0, 1)] p_init) /\
  p_get (p_add f facts (p_remove f s)) owner <> p_get s owner.
Proof. exact Proofs.property_resubmit_refuted. Qed.

(** ... while every owner the file does not touch keeps its property, in every reachable state. *)
Theorem property_resubmit_outside_known : forall (ops : list pop) (f : N) (facts : list pfact) (owner : N),
  let s := fold_left pstep ops p_init in
  ~ In owner (map (fun x => fst (fst x)) facts) ->
  (forall l, ngetN f (px_infile s) = Some l -> ~ In owner l) ->
  p_get (p_add f facts (p_remove f s)) owner = p_get s owner.
Proof. exact Proofs.property_resubmit_outside_known. Qed.

(** LuaGlobalIndex (full refinement): re-submitting a file changes no [get_global_decl_ids] answer when no other file
    declares one of its globals ... *)
Theorem global_resubmit_obs : forall ops f x q, In (f, x) (indexed gfacts ops) -> glob_excl (indexed gfacts ops) f ->
  g_get (state _ _ _ _ glob_store (ops ++ [HUpdate _ f x])) q = g_get (state _ _ _ _ glob_store ops) q.
Proof. exact (StoreSM.resubmit_obs _ _ _ _ glob_store glob_refinement). Qed.

(** ... and does change it otherwise (the declarations of one global are kept in submission order: open finding). *)
Theorem global_resubmit_shared_refuted : exists ops f x q, In (f, x) (indexed gfacts ops) /\
  g_get (state _ _ _ _ glob_store (ops ++ [HUpdate _ f x])) q <> g_get (state _ _ _ _ glob_store ops) q.
Proof.
  exists [HUpdate gfacts 1 [(7, 3)]; HUpdate _ 2 [(7, 5)]], 1, [(7, 3)], 7.
  split; [vm_compute; left; reflexivity | vm_compute; discriminate].
Qed.

(** The product store (LuaModuleIndex x LuaGlobalIndex x DiagnosticIndex, i.e. the modelled part of DbIndex under
    update_file_by_uri / remove_file_by_uri / reindex): a re-submission never changes any container count, and changes no
    answer when the file shares no module path and no global with another file. *)
Theorem product_resubmit_size : forall c ops f x, In (f, x) (indexed dbfacts ops) ->
  db_size c (db_state c (ops ++ [HUpdate _ f x])) = db_size c (db_state c ops).
Proof. intro c. exact (StoreSM.resubmit_size _ _ _ _ (db_store c) (db_refinement c)). Qed.
Theorem product_resubmit_obs : forall c ops f x q, In (f, x) (indexed dbfacts ops) -> db_excl c (indexed dbfacts ops) f ->
  db_obs c (db_state c (ops ++ [HUpdate _ f x])) q = db_obs c (db_state c ops) q.
Proof. intro c. exact (StoreSM.resubmit_obs _ _ _ _ (db_store c) (db_refinement c)). Qed.

(** LuaMemberIndex (transcribed, One / Many items): [remove(file)] keeps, in every item, exactly the declarations of the
    OTHER files, and drops the key only when every declaration belonged to the removed file. *)
Theorem member_prune_item_exact : forall f it,
  match prune_item f it with
  | Some it' => forall m, In m (item_ids it') <-> In m (item_ids it) /\ fst m <> f
  | None => forall m, In m (item_ids it) -> fst m = f
  end.
Proof. exact Proofs.member_prune_item_exact. Qed.

Example product_example :
  let c := ex_cfg in
  let ops := [HUpdate dbfacts 1 (([97; 46; 98], 1, false), ([(7, 3)], [(0, 2)]));
              HUpdate _ 2 (([120; 46; 98], 1, false), ([(8, 1)], [(1, 2)]));
              HUpdate _ 1 (([97; 46; 98], 1, false), ([(7, 3)], [(0, 2)])); HRemove _ 2; HReindex _] in
  db_obs c (db_state c ops) (inl [98]) = inl (Some (1, [97; 46; 98], 1, false)) /\
  db_obs c (db_state c ops) (inr (inl 7)) = inr (inl (Some [(1, 3)])) /\
  db_obs c (db_state c ops) (inr (inr (1, 2))) = inr (inr (true, false)) /\
  db_size c (db_state c ops) = [3; 1; 1; 1; 1; 0].
Proof. cbv zeta. repeat split; vm_compute; reflexivity. Qed.

Example resubmit_example :
  let c := ex_cfg in
  let ops := [HUpdate mfacts 1 ([97; 46; 98], 1, false); HUpdate _ 2 ([120; 46; 98], 1, false); HUpdate _ 1 ([97; 46; 98], 1, false)] in
  mod_excl (indexed mfacts ops) 1 /\
  mod_obs c (state _ _ _ _ (mod_store c) ops) [98] = Some (1, [97; 46; 98], 1, false) /\
  mod_size (state _ _ _ _ (mod_store c) ops) = [5; 2; 1].
Proof. exact Proofs.resubmit_example. Qed.
