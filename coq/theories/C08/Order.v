(** The tie-break order of [fuzzy_find_module] is a strict total order on keys, hence the first
    minimum does not move when an element with a key of its own changes place. *)
From EV Require Import C33.Model C33.Lemmas.
Local Open Scope N_scope.

Lemma str_cmp_refl : forall a, str_cmp a a = Eq.
Proof. induction a as [|x a IH]; cbn [str_cmp]; [reflexivity|]. rewrite N.compare_refl. exact IH. Qed.

Lemma str_cmp_eq : forall a b, str_cmp a b = Eq -> a = b.
Proof.
  induction a as [|x a IH]; destruct b as [|y b]; cbn [str_cmp]; intro H; try discriminate; [reflexivity|].
  destruct (x ?= y) eqn:E; try discriminate. apply N.compare_eq in E. subst. f_equal. auto.
Qed.

Lemma str_cmp_opp : forall a b, str_cmp b a = CompOpp (str_cmp a b).
Proof.
  induction a as [|x a IH]; destruct b as [|y b]; cbn [str_cmp CompOpp]; try reflexivity.
  rewrite (N.compare_antisym x y). destruct (x ?= y); cbn [CompOpp]; [apply IH | reflexivity | reflexivity].
Qed.

Lemma str_cmp_trans : forall a b c, str_cmp a b = Lt -> str_cmp b c = Lt -> str_cmp a c = Lt.
Proof.
  induction a as [|x a IH]; destruct b as [|y b]; destruct c as [|z c]; cbn [str_cmp]; intros H1 H2;
    try discriminate; try reflexivity.
  destruct (x ?= y) eqn:Exy; try discriminate.
  - apply N.compare_eq in Exy. subst y. destruct (x ?= z); try discriminate; [eapply IH; eauto | reflexivity].
  - destruct (y ?= z) eqn:Eyz; try discriminate.
    + apply N.compare_eq in Eyz. subst z. rewrite Exy. reflexivity.
    + rewrite (N.lt_trans _ _ _ Exy Eyz : (x ?= z) = Lt). reflexivity.
Qed.

Definition key := (N * str)%type.

Lemma cand_lt_irrefl : forall k : key, cand_lt k k = false.
Proof. intros [n s]. unfold cand_lt. cbn [fst snd]. rewrite N.compare_refl, str_cmp_refl. reflexivity. Qed.

Lemma cand_lt_total : forall a b : key, a <> b -> cand_lt a b = negb (cand_lt b a).
Proof.
  intros [n s] [m t] Hne. unfold cand_lt. cbn [fst snd]. rewrite (N.compare_antisym n m).
  destruct (n ?= m) eqn:E; cbn [CompOpp negb]; try reflexivity.
  apply N.compare_eq in E. subst m. rewrite (str_cmp_opp s t).
  destruct (str_cmp s t) eqn:Es; cbn [CompOpp negb]; try reflexivity.
  apply str_cmp_eq in Es. subst. congruence.
Qed.

Lemma cand_lt_trans : forall a b c : key, cand_lt a b = true -> cand_lt b c = true -> cand_lt a c = true.
Proof.
  intros [n s] [m t] [p u]. unfold cand_lt. cbn [fst snd]. intros H1 H2.
  destruct (n ?= m) eqn:E1; try discriminate.
  - apply N.compare_eq in E1. subst m. destruct (n ?= p) eqn:E2; try discriminate; [|reflexivity].
    destruct (str_cmp s t) eqn:Es; try discriminate. destruct (str_cmp t u) eqn:Et; try discriminate.
    rewrite (str_cmp_trans s t u Es Et). reflexivity.
  - destruct (m ?= p) eqn:E2; try discriminate.
    + apply N.compare_eq in E2. subst p. rewrite E1. reflexivity.
    + rewrite (N.lt_trans _ _ _ E1 E2 : (n ?= p) = Lt). reflexivity.
Qed.

Section MinBy.
  Variables (A : Type) (key_of : A -> N * str).

  Lemma min_by_swap : forall x y r b, key_of x <> key_of y ->
    min_by key_of (x :: y :: r) b = min_by key_of (y :: x :: r) b.
  Proof.
    intros x y r b Hne. cbn [min_by].
    assert (Hxy : cand_lt (key_of x) (key_of y) = negb (cand_lt (key_of y) (key_of x))) by (apply cand_lt_total; exact Hne).
    destruct b as [b0|].
    - destruct (cand_lt (key_of x) (key_of b0)) eqn:Exb, (cand_lt (key_of y) (key_of b0)) eqn:Eyb.
      + rewrite Hxy. destruct (cand_lt (key_of y) (key_of x)); reflexivity.
      + assert (cand_lt (key_of y) (key_of x) = false) as ->; [|reflexivity].
        destruct (cand_lt (key_of y) (key_of x)) eqn:E; [|reflexivity].
        rewrite (cand_lt_trans _ _ _ E Exb) in Eyb. discriminate.
      + assert (cand_lt (key_of x) (key_of y) = false) as ->; [|reflexivity].
        destruct (cand_lt (key_of x) (key_of y)) eqn:E; [|reflexivity].
        rewrite (cand_lt_trans _ _ _ E Eyb) in Exb. discriminate.
      + reflexivity.
    - rewrite Hxy. destruct (cand_lt (key_of y) (key_of x)); reflexivity.
  Qed.

  Lemma min_by_app : forall l1 l2 b, min_by key_of (l1 ++ l2) b = min_by key_of l2 (min_by key_of l1 b).
  Proof.
    induction l1 as [|z l1 IH]; intros l2 b; cbn [app min_by]; [reflexivity|].
    destruct b as [b0|]; [destruct (cand_lt (key_of z) (key_of b0))|]; apply IH.
  Qed.

  Lemma min_by_move : forall x c2 b, (forall y, In y c2 -> key_of y <> key_of x) ->
    min_by key_of (x :: c2) b = min_by key_of (c2 ++ [x]) b.
  Proof.
    intros x c2. induction c2 as [|y c2 IH]; intros b H; [reflexivity|].
    rewrite min_by_swap by (intro E; apply (H y); [left; reflexivity | symmetry; exact E]).
    change (min_by key_of ([y] ++ x :: c2) b = min_by key_of ([y] ++ c2 ++ [x]) b). rewrite !(min_by_app [y]).
    apply IH. intros z Hz. apply H. right. exact Hz.
  Qed.

  Lemma min_by_move_mid : forall c1 x c2 b, (forall y, In y c2 -> key_of y <> key_of x) ->
    min_by key_of (c1 ++ x :: c2) b = min_by key_of (c1 ++ c2 ++ [x]) b.
  Proof. intros c1 x c2 b H. rewrite !(min_by_app c1). apply min_by_move. exact H. Qed.
End MinBy.
