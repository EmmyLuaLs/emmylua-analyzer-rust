(** [LuaModuleIndex] as a per-file fact store and its refinement.
    The facts of a file are its module path, workspace id and hidden flag. *)
From EV Require Import Base.StoreSM.
From EV Require Import C33.Model C33.Spec C33.Lemmas C33.Inv C33.Tree C33.Remove C33.Add C33.AddInv C33.Proofs.
From EV Require Import C08.Order.
Local Open Scope N_scope.

Definition mfacts : Type := (str * N * bool)%type.

Definition entry_of (fx : N * mfacts) : aentry :=
  match fx with (f, (mp, ws, h)) => mkA f mp ws h end.

Definition entries (a : list (N * mfacts)) : astate := map entry_of a.

Section ModuleStore.
  Variable c : cfg.

  Definition mod_add (f : N) (x : mfacts) (s : midx) : midx :=
    match x with (mp, ws, h) => let s' := m_add c f mp ws s in if h then m_hide f s' else s' end.

  Definition mod_obs (s : midx) (q : str) : option (N * str * N * bool) := option_map view_i (find_module c s q).

  (** does any container of the index hold the file id [f] *)
  Definition mod_mentions (s : midx) (f : N) : bool :=
    existsb (fun kv => (fst kv =? f) || (i_file (snd kv) =? f)) (m_files s)
    || existsb (fun kv => existsb (N.eqb f) (n_files (snd kv))) (m_nodes s)
    || existsb (fun kv => existsb (N.eqb f) (snd kv)) (m_fuzzy s).

  Definition mod_size (s : midx) : list N :=
    [N.of_nat (length (m_nodes s)); N.of_nat (length (m_files s)); N.of_nat (length (m_fuzzy s))].

  Definition mod_store : store midx mfacts str (option (N * str * N * bool)) :=
    mkStore _ _ _ _ m_init mod_add m_remove m_clear mod_obs mod_mentions mod_size.

  Definition mod_R (s : midx) (a : list (N * mfacts)) : Prop := exists addr, Inv c s (entries a) addr.

  Definition mod_aobs (a : list (N * mfacts)) (q : str) : option (N * str * N * bool) :=
    option_map view_a (spec_find c (entries a) q).

  Definition mod_asize (a : list (N * mfacts)) : list N :=
    [N.of_nat (length (nodup strs_eq_dec (all_prefixes (entries a))));
     N.of_nat (length a);
     N.of_nat (if c_fuzzy c then length (nodup str_eq_dec (map name_of (entries a))) else 0%nat)].

  (** no other file is registered under the module path of [f] *)
  Definition mod_excl (a : list (N * mfacts)) (f : N) : Prop :=
    forall x g y, In (f, x) a -> In (g, y) a -> g <> f ->
      parts_of (entry_of (g, y)) <> parts_of (entry_of (f, x)).

  Lemma file_entry_of : forall fx, a_file (entry_of fx) = fst fx.
  Proof. intros [f [[mp ws] h]]. reflexivity. Qed.

  Lemma files_entries : forall a, map a_file (entries a) = map fst a.
  Proof. intro a. unfold entries. rewrite map_map. apply map_ext. apply file_entry_of. Qed.

  Lemma entries_remove : forall f a, entries (al_remove _ f a) = a_remove f (entries a).
  Proof. intros f a. symmetry. apply filter_map. intro x. rewrite file_entry_of. reflexivity. Qed.

  Lemma entries_fresh : forall a f, ~ In f (keys _ a) -> forall e, In e (entries a) -> a_file e <> f.
  Proof.
    intros a f Hnotin e He Hf. apply Hnotin. unfold keys. rewrite <- files_entries, <- Hf. apply in_map. exact He.
  Qed.

  Lemma a_hide_last : forall f mp ws A, (forall e, In e A -> a_file e <> f) ->
    a_hide f (A ++ [mkA f mp ws false]) = A ++ [mkA f mp ws true].
  Proof.
    intros f mp ws A H. unfold a_hide. rewrite map_app. cbn [map a_file]. rewrite N.eqb_refl. f_equal.
    rewrite <- (map_id A) at 2. apply map_ext_in. intros e He.
    destruct (N.eqb_spec (a_file e) f) as [E|_]; [destruct (H e He E) | reflexivity].
  Qed.

  Lemma mod_r_add : forall s a f x, mod_R s a -> ~ In f (keys _ a) -> NoDup (keys _ a) ->
    mod_R (mod_add f x s) (a ++ [(f, x)]).
  Proof.
    intros s a f [[mp ws] h] [addr HI] Hnotin _. unfold mod_add.
    destruct (inv_add c s (entries a) addr f mp ws HI) as [addr' H1].
    pose proof (entries_fresh a f Hnotin) as Hfresh.
    unfold a_add in H1. rewrite (a_remove_id f (entries a) Hfresh) in H1.
    unfold mod_R, entries. rewrite map_app. cbn [map entry_of]. fold (entries a).
    destruct h.
    - exists addr'. rewrite <- (a_hide_last f mp ws (entries a) Hfresh). apply inv_hide. exact H1.
    - exists addr'. exact H1.
  Qed.

  Lemma mod_r_remove : forall s a f, mod_R s a -> NoDup (keys _ a) -> mod_R (m_remove f s) (al_remove _ f a).
  Proof. intros s a f [addr HI] _. exists addr. rewrite entries_remove. apply inv_remove. exact HI. Qed.

  Lemma mod_r_clear : forall s a, mod_R s a -> mod_R (m_clear s) [].
  Proof. intros s a [addr HI]. exists (fun _ => []). eapply inv_clear. exact HI. Qed.

  Lemma mod_r_obs : forall s a q, mod_R s a -> mod_obs s q = mod_aobs a q.
  Proof. intros s a q [addr HI]. unfold mod_obs, mod_aobs. eapply find_module_view. exact HI. Qed.

  Lemma mod_r_size : forall s a, mod_R s a -> mod_size s = mod_asize a.
  Proof.
    intros s a [addr HI]. destruct (inv_sizes c s _ addr HI) as [H1 [H2 H3]].
    unfold mod_size, mod_asize. rewrite H1, H2, H3. unfold entries. rewrite map_length. reflexivity.
  Qed.

  Lemma mod_r_mentions : forall s a f, mod_R s a -> ~ In f (keys _ a) -> mod_mentions s f = false.
  Proof.
    intros s a f [addr HI] Hnotin.
    pose proof (entries_fresh a f Hnotin) as Hnf.
    assert (Hlist : forall l : list aentry, (forall e, In e l -> In e (entries a)) -> existsb (N.eqb f) (map a_file l) = false).
    { intros l Hl. apply existsb_false. intros g Hg. apply in_map_iff in Hg. destruct Hg as [e [<- He]].
      destruct (N.eqb_spec f (a_file e)) as [E|_]; [|reflexivity]. exfalso. apply (Hnf e (Hl e He)). symmetry. exact E. }
    unfold mod_mentions. rewrite !orb_false_iff. repeat split.
    - apply existsb_false. intros [g i] Hin. cbn [fst snd].
      apply (In_nodup_aget N.eqb_spec) in Hin; [|exact (I_fmap_nodup HI)].
      destruct (I_fmap_sound HI _ _ Hin) as [e [_ [He [Hf [[Hif _] _]]]]].
      rewrite Hif, Hf. destruct (N.eqb_spec g f) as [E|_]; [|reflexivity].
      exfalso. apply (Hnf e He). congruence.
    - apply existsb_false. intros [n nd] Hin. cbn [snd].
      apply (In_nodup_aget N.eqb_spec) in Hin; [|exact (I_nodes_nodup HI)].
      rewrite (I_files HI n nd Hin). apply Hlist. intros e He. apply filter_In in He. tauto.
    - pose proof (I_fuzzy HI) as HF. destruct (c_fuzzy c); [|rewrite HF; reflexivity].
      apply existsb_false. intros [nm l] Hin. cbn [snd].
      apply (In_nodup_aget str_eqb_spec) in Hin; [|exact (I_fuzzy_nodup HI)].
      rewrite HF in Hin. unfold nonempty_opt in Hin. destruct (is_nil (map a_file (named (entries a) nm))); [discriminate|].
      inversion Hin; subst l. apply Hlist. intros e He. apply filter_In in He. tauto.
  Qed.

  Lemma spec_cands_app : forall path l1 l2, spec_cands path (l1 ++ l2) = spec_cands path l1 ++ spec_cands path l2.
  Proof.
    induction l1 as [|e l1 IH]; intro l2; cbn [app spec_cands]; [reflexivity|].
    destruct (leading_count (full_of e) path); cbn [app]; rewrite IH; reflexivity.
  Qed.

  Lemma full_of_path : forall e, full_of e = a_path e.
  Proof. intro e. unfold full_of, parts_of. apply join_split. Qed.

  (** moving an entry behind entries registered under other module paths changes no answer *)
  Section Move.
    Variables (L1 L2 : list aentry) (e : aentry).
    Hypothesis Hex : forall e', In e' L2 -> parts_of e' <> parts_of e.

    Lemma move_exact : forall mp, spec_exact (L1 ++ L2 ++ [e]) mp = spec_exact (L1 ++ e :: L2) mp.
    Proof.
      intro mp. unfold spec_exact, exact_set. f_equal. rewrite !filter_app. cbn [filter].
      destruct (strs_eqb_spec (parts_of e) (split_dot mp)) as [E|_]; [|rewrite app_nil_r; reflexivity].
      rewrite (filter_none _ _ L2); [reflexivity|]. intros e' He'.
      destruct (strs_eqb_spec (parts_of e') (split_dot mp)) as [E'|_]; [|reflexivity].
      destruct (Hex e' He'). congruence.
    Qed.

    Lemma move_fuzzy : forall path, spec_fuzzy (L1 ++ L2 ++ [e]) path = spec_fuzzy (L1 ++ e :: L2) path.
    Proof.
      intro path. unfold spec_fuzzy. f_equal.
      rewrite !filter_app. cbn [filter]. rewrite !spec_cands_app.
      destruct (str_eqb (name_of e) (last_part (split_dot path))); cbn [spec_cands]; [|rewrite app_nil_r; reflexivity].
      destruct (leading_count (full_of e) path) as [k|]; [|cbn [app]; rewrite app_nil_r; reflexivity].
      symmetry. cbn [app]. apply min_by_move_mid. intros [k' e'] Hin Hk. cbn [fst snd] in Hk.
      apply spec_cands_In in Hin. apply filter_In in Hin. destruct Hin as [Hin _].
      apply (Hex e' Hin).
      assert (Hfull : full_of e' = full_of e) by congruence. rewrite !full_of_path in Hfull. unfold parts_of. rewrite Hfull. reflexivity.
    Qed.

    Lemma move_find : forall q, spec_find c (L1 ++ L2 ++ [e]) q = spec_find c (L1 ++ e :: L2) q.
    Proof.
      intro q. unfold spec_find. cbv zeta.
      destruct (c_rw_on c); [destruct (str_eqb (c_rw c (normalize q)) (normalize q))|];
        rewrite ?move_exact, ?move_fuzzy; reflexivity.
    Qed.
  End Move.

  Lemma mod_r_move_obs : forall a f x q, NoDup (keys _ a) -> In (f, x) a -> mod_excl a f ->
    mod_aobs (al_remove _ f a ++ [(f, x)]) q = mod_aobs a q.
  Proof.
    intros a f x q Hnd Hin Hex. destruct (al_remove_split _ a f x Hnd Hin) as [l1 [l2 [Ha Hr]]].
    unfold mod_aobs. f_equal. rewrite Hr, Ha. unfold entries. rewrite !map_app. cbn [map].
    rewrite <- app_assoc. apply move_find.
    intros e' He'. apply in_map_iff in He'. destruct He' as [[g y] [<- Hg]].
    assert (Hg' : In (g, y) (al_remove _ f a)) by (rewrite Hr; apply in_or_app; right; exact Hg).
    apply in_al_remove in Hg'. destruct Hg' as [Hga Hne]. exact (Hex x g y Hin Hga Hne).
  Qed.

  Lemma mod_r_move_size : forall a f x, NoDup (keys _ a) -> In (f, x) a ->
    mod_asize (al_remove _ f a ++ [(f, x)]) = mod_asize a.
  Proof.
    intros a f x Hnd Hin. destruct (al_remove_split _ a f x Hnd Hin) as [l1 [l2 [Ha Hr]]].
    assert (Hsame : forall z, In z (entries (al_remove _ f a ++ [(f, x)])) <-> In z (entries a)).
    { intro z. rewrite Hr, Ha. unfold entries. rewrite !map_app. cbn [map]. rewrite !in_app_iff. cbn [In]. tauto. }
    unfold mod_asize. f_equal; [|f_equal; [|f_equal]].
    - f_equal. apply nodup_length_ext. intro P. unfold all_prefixes. cbn [In]. rewrite !in_flat_map.
      split; (intros [H|[z [Hz HP]]]; [left; exact H | right; exists z; split; [apply Hsame; exact Hz | exact HP]]).
    - f_equal. rewrite Hr, Ha. rewrite !app_length. cbn [length]. lia.
    - f_equal. destruct (c_fuzzy c); [|reflexivity]. apply nodup_length_ext. intro nm. rewrite !in_map_iff.
      split; intros [z [Hz Hin']]; exists z; (split; [exact Hz | apply Hsame; exact Hin']).
  Qed.

  Definition mod_refinement : refinement _ _ _ _ mod_store :=
    mkRef _ _ _ _ mod_store mod_R mod_aobs mod_asize mod_excl
          (ex_intro _ (fun _ => []) (inv_init c))
          mod_r_add mod_r_remove mod_r_clear mod_r_obs mod_r_size mod_r_mentions mod_r_move_obs mod_r_move_size.
End ModuleStore.
