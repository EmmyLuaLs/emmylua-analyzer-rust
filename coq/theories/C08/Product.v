(** The modelled part of [DbIndex] as ONE store: the product of the LuaModuleIndex, LuaGlobalIndex and
    DiagnosticIndex stores ([DbIndex::remove] / [DbIndex::clear] / the analysis of a file act on every index), with the
    product of their refinements. *)
From EV Require Import Base.StoreSM Base.StoreProd C33.Model C33.Spec C33.Proofs C08.Module C08.SimpleModels C08.Global C08.Diag.
Local Open Scope N_scope.

Definition dbfacts : Type := (mfacts * (gfacts * dfacts))%type.
Definition dbstate : Type := (midx * (gidx * didx))%type.
Definition dbquery : Type := (str + (N + N * N))%type.
Definition dbobs : Type := (option (N * str * N * bool) + (option (list (N * N)) + bool * bool))%type.

Definition gd_store := prod_store _ _ _ _ _ _ _ _ glob_store diag_store.
Definition gd_refinement := prod_refinement _ _ _ _ _ _ _ _ glob_store diag_store glob_refinement diag_refinement.

Definition db_store (c : cfg) : store dbstate dbfacts dbquery dbobs :=
  prod_store _ _ _ _ _ _ _ _ (mod_store c) gd_store.
Definition db_refinement (c : cfg) : refinement _ _ _ _ (db_store c) :=
  prod_refinement _ _ _ _ _ _ _ _ (mod_store c) gd_store (mod_refinement c) gd_refinement.

Definition db_state (c : cfg) (ops : list (hop dbfacts)) : dbstate := state _ _ _ _ (db_store c) ops.
Definition db_obs (c : cfg) := s_obs _ _ _ _ (db_store c).
Definition db_size (c : cfg) := s_size _ _ _ _ (db_store c).
Definition db_mentions (c : cfg) := s_mentions _ _ _ _ (db_store c).
Definition db_excl (c : cfg) := r_excl _ _ _ _ (db_store c) (db_refinement c).
