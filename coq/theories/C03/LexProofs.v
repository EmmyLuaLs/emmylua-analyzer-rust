(** C03/LexProofs.v — completeness of the lexical layer (numbers, short strings) with respect to
    the Lua reference manual (LexSpec.v), for the model of the Rust code in LexModel.v. *)
From Coq Require Import ZifyBool.
From EV Require Import Base.TextFacts C03.LexModel C03.LexSpec.
Local Open Scope N_scope.
(** [cp] and [text] of Base.Text are used as what they are, [N] and [list N], so that every list in
    these files is built with the same type argument *)
Local Notation cp := N (only parsing).
Local Notation text := (list N) (only parsing).

(** Facts about character classes are comparisons of one code point with constants, joined by the
    boolean connectives: [lia] decides them once the classes are unfolded (ZifyBool). *)

Lemma forallb_Forall : forall (p : cp -> bool) l, forallb p l = true <-> Forall (fun c => p c = true) l.
Proof.
  intros p l. rewrite forallb_forall, Forall_forall. reflexivity.
Qed.

Lemma sdigit_is_digit : forall c, sdigit c = is_digit c.
Proof. reflexivity. Qed.

Lemma digit_is_hexdigit : forall c, is_digit c = true -> is_hexdigit c = true.
Proof. intros c H. unfold is_hexdigit. rewrite H. reflexivity. Qed.

Lemma run1_cons : forall (p : cp -> bool) a, a <> [] /\ forallb p a = true ->
  exists d a', a = d :: a' /\ p d = true /\ forallb p a' = true.
Proof.
  intros p [|d a'] [Hne Ha]; [contradiction|]. apply andb_prop in Ha.
  exists d, a'. split; [reflexivity|exact Ha].
Qed.

Lemma step_int_digit : forall c n, is_digit c = true -> num_step SInt c n = NCont SInt.
Proof. intros c n H. cbn [num_step]. rewrite H. reflexivity. Qed.
Lemma step_float_digit : forall c n, is_digit c = true -> num_step SFloat c n = NCont SFloat.
Proof. intros c n H. cbn [num_step]. rewrite H. reflexivity. Qed.
Lemma step_expo_digit : forall c n, is_digit c = true -> num_step SExpo c n = NCont SExpo.
Proof. intros c n H. cbn [num_step]. rewrite H. reflexivity. Qed.
Lemma step_hex_digit : forall c n, is_hexdigit c = true -> num_step SHex c n = NCont SHex.
Proof. intros c n H. cbn [num_step]. rewrite H. reflexivity. Qed.
Lemma step_hexfloat_digit : forall c n, is_hexdigit c = true -> num_step SHexFloat c n = NCont SHexFloat.
Proof. intros c n H. cbn [num_step]. rewrite H. reflexivity. Qed.

Lemma step_int_dot : forall n, num_step SInt 46 n = NCont SFloat.
Proof. reflexivity. Qed.
Lemma step_hex_dot : forall n, num_step SHex 46 n = NCont SHexFloat.
Proof. reflexivity. Qed.

Lemma step_int_e : forall m n, m = 101 \/ m = 69 -> num_step SInt m n = exp_step n.
Proof. intros m n [-> | ->]; reflexivity. Qed.
Lemma step_float_e : forall m n, m = 101 \/ m = 69 -> num_step SFloat m n = exp_step n.
Proof. intros m n [-> | ->]; reflexivity. Qed.
Lemma step_hex_p : forall m n, m = 112 \/ m = 80 -> num_step SHex m n = exp_step n.
Proof. intros m n [-> | ->]; reflexivity. Qed.
Lemma step_hexfloat_p : forall m n, m = 112 \/ m = 80 -> num_step SHexFloat m n = exp_step n.
Proof. intros m n [-> | ->]; reflexivity. Qed.

Lemma step_stop : forall st c n,
  sletter c = false -> sdigit c = false -> c <> 46 -> num_step st c n = NBreak.
Proof.
  intros st c n Hl Hd Hp.
  assert (H : is_digit c = false /\ is_hexdigit c = false /\ is_e c = false /\ is_p c = false /\
              (c =? 46) = false /\ ((c =? 48) || (c =? 49)) = false)
    by (unfold sletter, sdigit, is_hexdigit, is_digit, is_e, is_p in *; lia).
  destruct H as (H1 & H2 & H3 & H4 & H5 & H6).
  destruct st; cbn [num_step]; rewrite ?H1, ?H2, ?H3, ?H4, ?H5, ?H6; reflexivity.
Qed.

Definition mk (st : nstate) (tok rest : text) : nrun := {| nr_st := st; nr_tok := tok; nr_rest := rest |}.

Lemma loop_nil : forall st, num_loop std_features st [] = mk st [] [].
Proof. reflexivity. Qed.

Lemma loop_cont : forall st st' ch tl s tok r,
  num_step st ch (hd 0 tl) = NCont st' ->
  num_loop std_features st' tl = mk s tok r ->
  num_loop std_features st (ch :: tl) = mk s (ch :: tok) r.
Proof.
  intros st st' ch tl s tok r H1 H2.
  cbn [num_loop f_underscore std_features andb]. rewrite H1, H2. reflexivity.
Qed.

Lemma loop_cont_sign : forall st st' ch sg tl s tok r,
  num_step st ch sg = NContSign st' ->
  num_loop std_features st' tl = mk s tok r ->
  num_loop std_features st (ch :: sg :: tl) = mk s (ch :: sg :: tok) r.
Proof.
  intros st st' ch sg tl s tok r H1 H2.
  cbn [num_loop f_underscore std_features andb hd]. rewrite H1.
  fold (num_loop std_features st' tl). rewrite H2. reflexivity.
Qed.

Lemma loop_break : forall st ch tl,
  num_step st ch (hd 0 tl) = NBreak ->
  num_loop std_features st (ch :: tl) = mk st [] (ch :: tl).
Proof.
  intros st ch tl H. cbn [num_loop f_underscore std_features andb]. rewrite H. reflexivity.
Qed.

Lemma loop_stop : forall alpha st rest,
  numeral_end alpha rest -> num_loop std_features st rest = mk st [] rest.
Proof.
  intros alpha st [|c r] H; [reflexivity|].
  destruct H as (_ & Hl & Hd & Hp & _).
  apply loop_break. apply step_stop; assumption.
Qed.

Lemma loop_run : forall (p : cp -> bool) st,
  (forall c n, p c = true -> num_step st c n = NCont st) ->
  forall ds X s tok r,
    forallb p ds = true ->
    num_loop std_features st X = mk s tok r ->
    num_loop std_features st (ds ++ X) = mk s (ds ++ tok) r.
Proof.
  intros p st Hp ds X s tok r Hds HX. apply forallb_Forall in Hds.
  induction Hds as [|d ds Hd _ IH]; [exact HX|].
  cbn [app]. eapply loop_cont; [apply Hp; exact Hd|exact IH].
Qed.

Lemma hd_digits_app : forall ds X, digits1 ds -> is_digit (hd 0 (ds ++ X)) = true.
Proof.
  intros ds X H. destruct (run1_cons is_digit ds H) as (d & ds' & -> & Hd & _). exact Hd.
Qed.

Lemma digit_not_sign : forall c, is_digit c = true -> is_sign c = false.
Proof. intros c. unfold is_digit, is_sign. lia. Qed.

Lemma loop_expo_digits : forall alpha ds rest,
  digits ds -> numeral_end alpha rest ->
  num_loop std_features SExpo (ds ++ rest) = mk SExpo ds rest.
Proof.
  intros alpha ds rest Hds Hend.
  rewrite <- (app_nil_r ds) at 2.
  apply (loop_run is_digit SExpo step_expo_digit); [exact Hds|].
  eapply loop_stop; exact Hend.
Qed.

(** an exponent, from any state that reacts to its marker *)
Lemma loop_exponent : forall alpha st lo up e rest,
  (forall m n, m = lo \/ m = up -> num_step st m n = exp_step n) ->
  exponent lo up e -> numeral_end alpha rest ->
  num_loop std_features st (e ++ rest) = mk SExpo e rest.
Proof.
  intros alpha st lo up e rest Hst He Hend.
  destruct He as [m sg ds Hm Hsg Hds].
  pose proof (loop_expo_digits alpha ds rest (proj2 Hds) Hend) as HL.
  destruct Hsg; cbn [app].
  - eapply loop_cont; [|exact HL].
    rewrite (Hst _ _ Hm). unfold exp_step.
    rewrite (digit_not_sign _ (hd_digits_app ds rest Hds)). reflexivity.
  - eapply loop_cont_sign; [|exact HL].
    rewrite (Hst _ _ Hm). reflexivity.
  - eapply loop_cont_sign; [|exact HL].
    rewrite (Hst _ _ Hm). reflexivity.
Qed.

(** the two families of numerals: (integer state, fraction state, digit class, exponent markers) *)
Section Family.
  Variables (sI sF : nstate) (p : cp -> bool) (lo up : cp).
  Hypothesis HI : forall c n, p c = true -> num_step sI c n = NCont sI.
  Hypothesis HF : forall c n, p c = true -> num_step sF c n = NCont sF.
  Hypothesis Hdot : forall n, num_step sI 46 n = NCont sF.
  Hypothesis HeI : forall m n, m = lo \/ m = up -> num_step sI m n = exp_step n.
  Hypothesis HeF : forall m n, m = lo \/ m = up -> num_step sF m n = exp_step n.

  Lemma fam_int : forall alpha a rest,
    forallb p a = true -> numeral_end alpha rest ->
    num_loop std_features sI (a ++ rest) = mk sI a rest.
  Proof.
    intros alpha a rest Ha Hend. rewrite <- (app_nil_r a) at 2.
    apply (loop_run p sI HI); [exact Ha|]. eapply loop_stop; exact Hend.
  Qed.

  Lemma fam_int_exp : forall alpha a e rest,
    forallb p a = true -> exponent lo up e -> numeral_end alpha rest ->
    num_loop std_features sI ((a ++ e) ++ rest) = mk SExpo (a ++ e) rest.
  Proof.
    intros alpha a e rest Ha He Hend. rewrite <- app_assoc.
    apply (loop_run p sI HI); [exact Ha|].
    eapply loop_exponent; eauto.
  Qed.

  Lemma fam_frac_tail : forall alpha b e rest,
    forallb p b = true -> exponent_opt lo up e -> numeral_end alpha rest ->
    exists st, (st = sF \/ st = SExpo) /\
               num_loop std_features sF ((b ++ e) ++ rest) = mk st (b ++ e) rest.
  Proof.
    intros alpha b e rest Hb He Hend. rewrite <- app_assoc. destruct He as [|e He].
    - exists sF. split; [left; reflexivity|].
      apply (loop_run p sF HF); [exact Hb|]. eapply loop_stop; exact Hend.
    - exists SExpo. split; [right; reflexivity|].
      apply (loop_run p sF HF); [exact Hb|].
      eapply loop_exponent; eauto.
  Qed.

  Lemma fam_frac : forall alpha a b e rest,
    forallb p a = true -> forallb p b = true -> exponent_opt lo up e -> numeral_end alpha rest ->
    exists st, (st = sF \/ st = SExpo) /\
               num_loop std_features sI ((a ++ 46 :: b ++ e) ++ rest) = mk st (a ++ 46 :: b ++ e) rest.
  Proof.
    intros alpha a b e rest Ha Hb He Hend.
    destruct (fam_frac_tail alpha b e rest Hb He Hend) as (st & Hst & HL).
    exists st. split; [exact Hst|]. rewrite <- app_assoc. cbn [app].
    apply (loop_run p sI HI); [exact Ha|].
    eapply loop_cont; [apply Hdot|]. exact HL.
  Qed.
End Family.

(** not the letter of a hexadecimal or binary prefix *)
Definition no_xb (c : cp) : bool := negb ((c =? 120) || (c =? 88) || (c =? 98) || (c =? 66)).
Definition nox_head (r : text) : Prop := match r with [] => True | c :: _ => no_xb c = true end.

Lemma zero_prefix_other : forall r1, nox_head r1 -> zero_prefix std_features r1 = mk SInt [] r1.
Proof.
  intros [|c r] H; [reflexivity|]. cbn [nox_head] in H.
  cbn [zero_prefix f_binary f_underscore std_features andb].
  replace ((c =? 120) || (c =? 88)) with false by (unfold no_xb in H; lia). reflexivity.
Qed.

Lemma num_start_digit : forall d r1,
  is_digit d = true -> nox_head r1 -> num_start std_features d r1 = mk SInt [] r1.
Proof.
  intros d r1 Hd Hx. unfold num_start.
  destruct (N.eqb_spec d 48) as [E|E]; [apply zero_prefix_other; exact Hx|].
  destruct (N.eqb_spec d 46) as [E'|E']; [subst d; discriminate|]. reflexivity.
Qed.

Lemma num_start_dot : forall r1, num_start std_features 46 r1 = mk SFloat [] r1.
Proof. reflexivity. Qed.

Lemma num_start_hex : forall x r2,
  x = 120 \/ x = 88 -> num_start std_features 48 (x :: r2) = mk SHex [x] r2.
Proof. intros x r2 [-> | ->]; reflexivity. Qed.

Lemma nox_head_app : forall A X, forallb no_xb A = true -> nox_head X -> nox_head (A ++ X).
Proof.
  intros [|a A] X HA HX; [exact HX|].
  cbn [forallb] in HA. apply andb_prop in HA. destruct HA as [Ha _]. exact Ha.
Qed.

Lemma numeral_end_nox : forall alpha rest, numeral_end alpha rest -> nox_head rest.
Proof.
  intros alpha [|c r] H; [exact I|]. destruct H as (_ & Hl & _). cbn [nox_head].
  unfold sletter, no_xb in *. lia.
Qed.

Lemma forallb_impl : forall (p q : cp -> bool) l,
  (forall c, p c = true -> q c = true) -> forallb p l = true -> forallb q l = true.
Proof.
  intros p q l H. rewrite !forallb_forall. intros Hl c Hc. exact (H c (Hl c Hc)).
Qed.

(** the characters of a decimal numeral *)
Definition dchar (c : cp) : bool := is_digit c || (c =? 46) || is_e c || is_sign c.

Lemma digits_dchar : forall a, digits a -> forallb dchar a = true.
Proof.
  intros a H. apply (forallb_impl sdigit); [|exact H].
  intros c Hc. unfold dchar. rewrite <- sdigit_is_digit, Hc. reflexivity.
Qed.

Lemma sign_opt_dchar : forall sg, sign_opt sg -> forallb dchar sg = true.
Proof. intros sg H. destruct H; reflexivity. Qed.

Lemma exponent_dchar : forall e, exponent 101 69 e -> forallb dchar e = true.
Proof.
  intros e H. destruct H as [m sg ds Hm Hsg Hds].
  cbn [forallb]. rewrite forallb_app, (sign_opt_dchar _ Hsg), (digits_dchar _ (proj2 Hds)).
  destruct Hm as [-> | ->]; reflexivity.
Qed.

Lemma exponent_opt_dchar : forall e, exponent_opt 101 69 e -> forallb dchar e = true.
Proof. intros e H. destruct H as [|e H]; [reflexivity|]. apply exponent_dchar. exact H. Qed.

Lemma dchar_no_xb : forall c, dchar c = true -> no_xb c = true.
Proof. intros c. unfold dchar, is_digit, is_e, is_sign, no_xb. lia. Qed.

Lemma lex_number_run : forall alpha first r1 st0 pre r2 st body rest,
  numeral_end alpha rest ->
  num_start std_features first r1 = mk st0 pre r2 ->
  num_loop std_features st0 r2 = mk st body rest ->
  lex_number std_features alpha (first :: r1) =
    {| tk_kind := kind_of_state st; tk_text := first :: pre ++ body; tk_rest := rest; tk_err := false |}.
Proof.
  intros alpha first r1 st0 pre r2 st body rest Hend H0 H1.
  unfold lex_number. cbn [hd tl]. rewrite H0. cbn [mk nr_st nr_rest nr_tok]. rewrite H1.
  cbn [mk nr_st nr_rest nr_tok f_complex f_ll std_features andb app].
  f_equal. destruct rest as [|c r]; [reflexivity|]. destruct Hend as [Ha _]. exact Ha.
Qed.

Lemma starts_number_digit : forall d X, is_digit d = true -> starts_number (d :: X) = true.
Proof. intros d X H. cbn [starts_number]. rewrite H. reflexivity. Qed.

Definition ok_token (k : tkind) (s rest : text) : token :=
  {| tk_kind := k; tk_text := s; tk_rest := rest; tk_err := false |}.

(** decimal numerals that start with a digit: the scan goes on in state [SInt] *)
Lemma lex_number_dec : forall alpha d body rest st,
  numeral_end alpha rest -> is_digit d = true -> forallb dchar body = true ->
  num_loop std_features SInt (body ++ rest) = mk st body rest ->
  lex_number std_features alpha (d :: body ++ rest) = ok_token (kind_of_state st) (d :: body) rest.
Proof.
  intros alpha d body rest st Hend Hd Hb HL.
  eapply (lex_number_run alpha d (body ++ rest) SInt [] (body ++ rest) st body rest Hend); [|exact HL].
  apply num_start_digit; [exact Hd|].
  apply nox_head_app; [|eapply numeral_end_nox; exact Hend].
  apply (forallb_impl dchar); [exact dchar_no_xb|exact Hb].
Qed.

Lemma lex_number_hex : forall alpha x body rest st,
  numeral_end alpha rest -> x = 120 \/ x = 88 ->
  num_loop std_features SHex (body ++ rest) = mk st body rest ->
  lex_number std_features alpha (48 :: x :: body ++ rest) = ok_token (kind_of_state st) (48 :: x :: body) rest.
Proof.
  intros alpha x body rest st Hend Hx HL.
  exact (lex_number_run alpha 48 (x :: body ++ rest) SHex [x] (body ++ rest) st body rest Hend (num_start_hex x _ Hx) HL).
Qed.

Lemma digits_forallb : forall a, digits a -> forallb is_digit a = true.
Proof. intros a H. exact H. Qed.
Lemma xdigits_forallb : forall a, xdigits a -> forallb is_hexdigit a = true.
Proof. intros a H. exact H. Qed.

Lemma number_lex_complete : forall alpha v s i rest,
  numeral v s i -> numeral_end alpha rest ->
  starts_number (s ++ rest) = true /\
  lex_number std_features alpha (s ++ rest) = ok_token (if i then TkInt else TkFloat) s rest.
Proof.
  intros alpha v s i rest Hn Hend.
  destruct Hn as [a Ha | a e Ha He | a b e Ha Hb Hne He | x a Hx Ha | x a e _ Hx Ha He
                 | x a b e _ Hx Ha Hb Hne He].
  - (* decimal integer *)
    destruct (run1_cons is_digit a Ha) as (d & a' & -> & Hd & Ha').
    cbn [app]. split; [apply starts_number_digit; exact Hd|].
    apply (lex_number_dec alpha d a' rest SInt Hend Hd (digits_dchar _ Ha')).
    exact (fam_int SInt is_digit step_int_digit alpha a' rest Ha' Hend).
  - (* decimal with exponent *)
    destruct (run1_cons is_digit a Ha) as (d & a' & -> & Hd & Ha').
    cbn [app]. split; [apply starts_number_digit; exact Hd|].
    apply (lex_number_dec alpha d (a' ++ e) rest SExpo Hend Hd).
    + rewrite forallb_app, (digits_dchar _ Ha'), (exponent_dchar _ He). reflexivity.
    + exact (fam_int_exp SInt is_digit 101 69 step_int_digit step_int_e alpha a' e rest Ha' He Hend).
  - (* decimal with a point *)
    destruct a as [|d a'].
    + (* .5 *)
      assert (Hb1 : digits1 b) by (split; [destruct Hne as [H|H]; [contradiction|exact H]|exact Hb]).
      cbn [app]. split.
      { cbn [starts_number]. change (46 =? 46) with true.
        rewrite <- app_assoc, (hd_digits_app b (e ++ rest) Hb1). reflexivity. }
      destruct (fam_frac_tail SFloat is_digit 101 69 step_float_digit step_float_e alpha b e rest Hb He Hend)
        as (st & Hst & HL).
      rewrite (lex_number_run alpha 46 _ SFloat [] _ st (b ++ e) rest Hend (num_start_dot _) HL).
      destruct Hst as [-> | ->]; reflexivity.
    + apply andb_prop in Ha. destruct Ha as [Hd Ha'].
      destruct (fam_frac SInt SFloat is_digit 101 69 step_int_digit step_float_digit step_int_dot
                  step_float_e alpha a' b e rest Ha' Hb He Hend) as (st & Hst & HL).
      cbn [app]. split; [apply starts_number_digit; exact Hd|].
      rewrite (lex_number_dec alpha d (a' ++ 46 :: b ++ e) rest st Hend Hd).
      * destruct Hst as [-> | ->]; reflexivity.
      * rewrite forallb_app. cbn [forallb]. rewrite forallb_app.
        rewrite (digits_dchar _ Ha'), (digits_dchar _ Hb), (exponent_opt_dchar _ He). reflexivity.
      * exact HL.
  - (* hexadecimal integer *)
    cbn [app]. split; [reflexivity|].
    apply (lex_number_hex alpha x a rest SHex Hend Hx).
    exact (fam_int SHex is_hexdigit step_hex_digit alpha a rest (proj2 Ha) Hend).
  - (* hexadecimal with exponent *)
    cbn [app]. split; [reflexivity|].
    apply (lex_number_hex alpha x (a ++ e) rest SExpo Hend Hx).
    exact (fam_int_exp SHex is_hexdigit 112 80 step_hex_digit step_hex_p alpha a e rest (proj2 Ha) He Hend).
  - (* hexadecimal with a point *)
    cbn [app]. split; [reflexivity|].
    destruct (fam_frac SHex SHexFloat is_hexdigit 112 80 step_hex_digit step_hexfloat_digit step_hex_dot
                step_hexfloat_p alpha a b e rest Ha Hb He Hend) as (st & Hst & HL).
    rewrite (lex_number_hex alpha x (a ++ 46 :: b ++ e) rest st Hend Hx HL).
    destruct Hst as [-> | ->]; reflexivity.
Qed.

(** * checker side of numbers *)

Definition ne (c x : cp) : bool := negb (x =? c).

Lemma filter_id : forall (p : cp -> bool) l, forallb p l = true -> filter p l = l.
Proof.
  intros p l H. apply forallb_Forall in H. induction H as [|c l Hc _ IH]; [reflexivity|].
  cbn [filter]. rewrite Hc, IH. reflexivity.
Qed.

Lemma strip_us_id : forall l, forallb (ne 95) l = true -> strip_us l = l.
Proof. intros l H. apply filter_id. exact H. Qed.

Lemma strip_us_cons_ne : forall c r, c <> 95 -> strip_us (c :: r) = c :: strip_us r.
Proof.
  intros c r H. unfold strip_us. cbn [filter].
  destruct (N.eqb_spec c 95) as [E|_]; [contradiction|]. reflexivity.
Qed.

Lemma span_all : forall p a, forallb p a = true -> span p a = (a, []).
Proof.
  intros p a H. apply forallb_Forall in H. induction H as [|c a Hc _ IH]; [reflexivity|].
  cbn [span]. rewrite Hc, IH. reflexivity.
Qed.

Definition head_fails (p : cp -> bool) (X : text) : Prop :=
  match X with [] => True | c :: _ => p c = false end.

Lemma span_app : forall p a X,
  forallb p a = true -> head_fails p X -> span p (a ++ X) = (a, X).
Proof.
  intros p a X H HX. apply forallb_Forall in H. induction H as [|c a Hc _ IH].
  - destruct X as [|x X]; [reflexivity|]. cbn [head_fails] in HX. cbn [app span]. rewrite HX. reflexivity.
  - cbn [app span]. rewrite Hc, IH. reflexivity.
Qed.

Lemma span_rev_none : forall (p q : cp -> bool) l,
  (forall c, q c = true -> p c = false) -> forallb q l = true -> span p (rev l) = ([], rev l).
Proof.
  intros p q l Hpq Hl. destruct (rev l) as [|c r] eqn:E; [reflexivity|].
  assert (Hin : In c l) by (apply in_rev; rewrite E; left; reflexivity).
  rewrite forallb_forall in Hl. cbn [span]. rewrite (Hpq _ (Hl _ Hin)). reflexivity.
Qed.

Definition dv_ok (radix : N) (c : cp) : bool :=
  match digit_val radix c with Some _ => true | None => false end.

Lemma parse_digits_ok_or_ovf : forall radix lim ovf ds,
  forallb (dv_ok radix) ds = true ->
  forall acc, (exists v, parse_digits radix lim ovf acc ds = IOk v) \/
              parse_digits radix lim ovf acc ds = IErr ovf.
Proof.
  intros radix lim ovf ds H. apply forallb_Forall in H. induction H as [|c ds Hc _ IH]; intros acc.
  - left. exists acc. reflexivity.
  - cbn [parse_digits]. unfold dv_ok in Hc. destruct (digit_val radix c) as [d|]; [|discriminate].
    destruct (lim <? acc * radix + d); [right; reflexivity|]. apply IH.
Qed.

Lemma digit_dv10 : forall c, is_digit c = true -> dv_ok 10 c = true.
Proof.
  intros c H. unfold dv_ok, digit_val. rewrite H. revert H. unfold is_digit.
  destruct (N.ltb_spec (c - 48) 10) as [L|L]; [reflexivity|]. lia.
Qed.

Lemma hexdigit_val : forall c, is_hexdigit c = true -> digit_val 16 c = Some (hex_digit_val c).
Proof.
  intros c. unfold digit_val, hex_digit_val, is_hexdigit. change (sdigit c) with (is_digit c).
  destruct (is_digit c) eqn:D.
  - intros _. unfold is_digit in D. revert D.
    destruct (N.ltb_spec (c - 48) 16) as [L|L]; [reflexivity|]. lia.
  - cbn [orb]. destruct (N.leb_spec 97 c) as [L1|L1].
    + destruct (N.leb_spec c 122) as [L2|L2].
      * cbn [andb]. destruct (N.ltb_spec (c - 87) 16) as [L|L]; [reflexivity|]. lia.
      * lia.
    + cbn [andb]. destruct (N.leb_spec 65 c) as [L3|L3]; [|lia].
      destruct (N.leb_spec c 90) as [L4|L4]; [|lia].
      cbn [andb]. destruct (N.ltb_spec (c - 55) 16) as [L|L]; [reflexivity|]. lia.
Qed.

Lemma hexdigit_dv16 : forall c, is_hexdigit c = true -> dv_ok 16 c = true.
Proof. intros c H. unfold dv_ok. rewrite (hexdigit_val c H). reflexivity. Qed.

Lemma from_str_radix_nosign : forall sg radix mp mn c r,
  is_sign c = false ->
  from_str_radix sg radix mp mn (c :: r) = parse_digits radix mp IPosOverflow 0 (c :: r).
Proof.
  intros sg radix mp mn c r H. unfold from_str_radix. unfold is_sign in H. rewrite H. reflexivity.
Qed.

Lemma hexdigit_not_sign : forall c, is_hexdigit c = true -> is_sign c = false.
Proof. intros c. unfold is_hexdigit, is_digit, is_sign. lia. Qed.

(** mantissa characters *)
Definition mchar (c : cp) : bool := is_digit c || (c =? 46).

Lemma mchar_lower : forall c, mchar c = true -> lower c = c.
Proof.
  intros c H. unfold lower. destruct ((65 <=? c) && (c <=? 90)) eqn:E; [|reflexivity].
  unfold mchar, is_digit in H. lia.
Qed.

Lemma mchar_facts : forall c, mchar c = true ->
  is_sign c = false /\ (lower c =? 105) = false /\ (lower c =? 110) = false.
Proof.
  intros c H. rewrite (mchar_lower c H). revert H. unfold mchar, is_digit, is_sign.
  lia.
Qed.

Lemma f64_ok_unfold : forall c r, mchar c = true ->
  f64_ok (c :: r) =
    (let t := c :: r in
     let ip := fst (span is_digit t) in
     let r1 := snd (span is_digit t) in
     let no_point := match ip with [] => false | _ => f64_exp_ok r1 end in
     match r1 with
     | c :: r2 =>
         if c =? 46 then
           match ip, fst (span is_digit r2) with
           | [], [] => false
           | _, _ => f64_exp_ok (snd (span is_digit r2))
           end
         else no_point
     | [] => no_point
     end).
Proof.
  intros c r H. destruct (mchar_facts c H) as (H1 & H2 & H3).
  unfold f64_ok. cbn [strip_sign]. rewrite H1. cbn [map text_eqb]. rewrite H2, H3.
  reflexivity.
Qed.

Lemma digit_mchar : forall c, is_digit c = true -> mchar c = true.
Proof. intros c H. unfold mchar. rewrite H. reflexivity. Qed.

Lemma f64_ok_int : forall a, digits1 a -> f64_ok a = true.
Proof.
  intros a Ha. destruct (run1_cons is_digit a Ha) as (d & a' & -> & Hd & _).
  rewrite (f64_ok_unfold d a' (digit_mchar d Hd)). cbv zeta.
  rewrite (span_all is_digit (d :: a') (proj2 Ha)). reflexivity.
Qed.

Lemma f64_ok_point : forall a b, digits a -> digits b -> a <> [] \/ b <> [] -> f64_ok (a ++ 46 :: b) = true.
Proof.
  intros a b Ha Hb Hne.
  assert (Hc : exists c r, a ++ 46 :: b = c :: r /\ mchar c = true).
  { destruct a as [|d a]; [exists 46, b; split; reflexivity|].
    exists d, (a ++ 46 :: b). split; [reflexivity|]. apply digit_mchar. apply andb_prop in Ha. apply Ha. }
  destruct Hc as (c & r & E & Hc). rewrite E, (f64_ok_unfold c r Hc), <- E. cbv zeta.
  rewrite (span_app is_digit a (46 :: b) Ha eq_refl). cbn [fst snd].
  change (46 =? 46) with true. cbv iota. rewrite (span_all is_digit b Hb). cbn [fst snd].
  destruct a, b; try reflexivity. destruct Hne; contradiction.
Qed.

Lemma find_split_none : forall c l, forallb (ne c) l = true -> find_split c l = None.
Proof.
  intros c l H. apply forallb_Forall in H. induction H as [|x l Hx _ IH]; [reflexivity|].
  cbn [find_split]. unfold ne in Hx. apply negb_true_iff in Hx. rewrite Hx, IH. reflexivity.
Qed.

Lemma find_split_app : forall c a b, forallb (ne c) a = true -> find_split c (a ++ c :: b) = Some (a, b).
Proof.
  intros c a b H. apply forallb_Forall in H. induction H as [|x a Hx _ IH].
  - cbn [app find_split]. rewrite N.eqb_refl. reflexivity.
  - cbn [app find_split]. unfold ne in Hx. apply negb_true_iff in Hx. rewrite Hx, IH. reflexivity.
Qed.

(** characters after the exponent marker *)
Definition xchar (c : cp) : bool := is_digit c || is_sign c.

Lemma mchar_ne_e : forall c, mchar c = true -> ne 101 c = true /\ ne 69 c = true.
Proof. intros c. unfold mchar, is_digit, ne. lia. Qed.
Lemma xchar_ne_e : forall c, xchar c = true -> ne 101 c = true /\ ne 69 c = true.
Proof. intros c. unfold xchar, is_digit, is_sign, ne. lia. Qed.

Lemma digits_mchar : forall a, digits a -> forallb mchar a = true.
Proof. intros a H. exact (forallb_impl is_digit mchar a digit_mchar H). Qed.

Lemma exponent_tail_xchar : forall sg ds, sign_opt sg -> digits ds -> forallb xchar (sg ++ ds) = true.
Proof.
  intros sg ds Hsg Hds. rewrite forallb_app.
  assert (H1 : forallb xchar sg = true) by (destruct Hsg; reflexivity).
  rewrite H1. apply (forallb_impl sdigit); [|exact Hds].
  intros c Hc. unfold xchar. rewrite <- sdigit_is_digit, Hc. reflexivity.
Qed.

Lemma float_part_is_mantissa : forall mant e,
  forallb mchar mant = true -> exponent_opt 101 69 e ->
  match find_split 101 (mant ++ e) with
  | Some (a, _) => a
  | None => match find_split 69 (mant ++ e) with
            | Some (a, _) => a
            | None => mant ++ e
            end
  end = mant.
Proof.
  intros mant e Hm He.
  assert (M1 : forallb (ne 101) mant = true)
    by (apply (forallb_impl mchar); [intros c Hc; apply mchar_ne_e; exact Hc|exact Hm]).
  assert (M2 : forallb (ne 69) mant = true)
    by (apply (forallb_impl mchar); [intros c Hc; apply mchar_ne_e; exact Hc|exact Hm]).
  destruct He as [|e He].
  - rewrite app_nil_r, (find_split_none 101 mant M1), (find_split_none 69 mant M2). reflexivity.
  - destruct He as [m sg ds Hmk Hsg Hds]. destruct Hmk as [-> | ->].
    + rewrite (find_split_app 101 mant (sg ++ ds) M1). reflexivity.
    + pose proof (exponent_tail_xchar sg ds Hsg (proj2 Hds)) as HX.
      assert (X1 : forallb (ne 101) (mant ++ @cons cp 69 (sg ++ ds)) = true).
      { rewrite forallb_app, M1. cbn [forallb andb]. change (ne 101 69) with true. cbn [andb].
        apply (forallb_impl xchar); [intros c Hc; apply xchar_ne_e; exact Hc|exact HX]. }
      rewrite (find_split_none 101 _ X1), (find_split_app 69 mant (sg ++ ds) M2). reflexivity.
Qed.

Lemma dchar_ne95 : forall c, dchar c = true -> ne 95 c = true.
Proof. intros c. unfold dchar, is_digit, is_e, is_sign, ne. lia. Qed.

Lemma starts2_no_xb : forall s, forallb no_xb s = true -> hex_prefixed s = false /\ bin_prefixed s = false.
Proof.
  intros [|x [|y s]] H; [split; reflexivity|split; reflexivity|].
  cbn [forallb] in H. unfold hex_prefixed, bin_prefixed, starts2, no_xb in *. lia.
Qed.

Lemma dchar_not_ul : forall c, dchar c = true -> is_ul c = false.
Proof. intros c. unfold dchar, is_digit, is_e, is_sign, is_ul. lia. Qed.

Lemma int_token_ok_dec : forall a, digits1 a -> int_token_ok a = true.
Proof.
  intros a Ha. pose proof (digits_dchar a (proj2 Ha)) as HD.
  unfold int_token_ok. cbv zeta.
  rewrite (strip_us_id a (forallb_impl dchar (ne 95) a dchar_ne95 HD)).
  destruct (starts2_no_xb a (forallb_impl dchar no_xb a dchar_no_xb HD)) as [Hh Hb].
  rewrite Hh, Hb.
  rewrite (span_rev_none is_ul dchar a dchar_not_ul HD). cbn [fst snd existsb].
  rewrite rev_involutive.
  destruct (run1_cons is_digit a Ha) as (d & a' & -> & Hd & _).
  unfold i64_from_str_radix. rewrite (from_str_radix_nosign _ _ _ _ d a' (digit_not_sign d Hd)).
  destruct (parse_digits_ok_or_ovf 10 i64_max IPosOverflow (d :: a')
              (forallb_impl is_digit (dv_ok 10) _ digit_dv10 (proj2 Ha)) 0) as [[v Hv]|Hv]; rewrite Hv.
  - reflexivity.
  - apply f64_ok_int. exact Ha.
Qed.

Definition hchar (c : cp) : bool := is_hexdigit c || (c =? 120) || (c =? 88).

Lemma hchar_ne95 : forall c, hchar c = true -> ne 95 c = true.
Proof. intros c. unfold hchar, is_hexdigit, is_digit, ne. lia. Qed.
Lemma hchar_not_ul : forall c, hchar c = true -> is_ul c = false.
Proof. intros c. unfold hchar, is_hexdigit, is_digit, is_ul. lia. Qed.

Lemma int_token_ok_hex : forall x a, x = 120 \/ x = 88 -> xdigits1 a -> int_token_ok (48 :: x :: a) = true.
Proof.
  intros x a Hx Ha.
  assert (HC : forallb hchar (48 :: x :: a) = true).
  { cbn [forallb]. change (hchar 48) with true.
    assert (Hxc : hchar x = true) by (destruct Hx as [-> | ->]; reflexivity). rewrite Hxc. cbn [andb].
    apply (forallb_impl is_hexdigit); [|exact (proj2 Ha)].
    intros c Hc. unfold hchar. rewrite Hc. reflexivity. }
  unfold int_token_ok. cbv zeta.
  rewrite (strip_us_id _ (forallb_impl hchar (ne 95) _ hchar_ne95 HC)).
  assert (Hh : hex_prefixed (48 :: x :: a) = true) by (destruct Hx as [-> | ->]; reflexivity).
  rewrite Hh.
  rewrite (span_rev_none is_ul hchar _ hchar_not_ul HC). cbn [fst snd existsb].
  rewrite rev_involutive. cbn [skipn].
  destruct (run1_cons is_hexdigit a Ha) as (d & a' & -> & Hd & _).
  unfold i64_from_str_radix. rewrite (from_str_radix_nosign _ _ _ _ d a' (hexdigit_not_sign d Hd)).
  destruct (parse_digits_ok_or_ovf 16 i64_max IPosOverflow (d :: a')
              (forallb_impl is_hexdigit (dv_ok 16) _ hexdigit_dv16 (proj2 Ha)) 0) as [[v Hv]|Hv]; rewrite Hv;
    reflexivity.
Qed.

Lemma float_token_ok_hex : forall x r, x = 120 \/ x = 88 -> float_token_ok (48 :: x :: r) = true.
Proof.
  intros x r Hx. unfold float_token_ok. cbv zeta.
  rewrite (strip_us_cons_ne 48) by lia.
  rewrite (strip_us_cons_ne x) by (destruct Hx; lia).
  destruct Hx as [-> | ->]; reflexivity.
Qed.

Lemma mchar_dchar : forall c, mchar c = true -> dchar c = true.
Proof. intros c. unfold mchar, dchar. intros H. rewrite H. reflexivity. Qed.

Lemma float_token_ok_dec : forall mant e,
  forallb mchar mant = true -> exponent_opt 101 69 e -> f64_ok mant = true ->
  float_token_ok (mant ++ e) = true.
Proof.
  intros mant e Hm He Hok.
  assert (HD : forallb dchar (mant ++ e) = true).
  { rewrite forallb_app, (forallb_impl mchar dchar mant mchar_dchar Hm), (exponent_opt_dchar e He).
    reflexivity. }
  unfold float_token_ok. cbv zeta.
  rewrite (strip_us_id _ (forallb_impl dchar (ne 95) _ dchar_ne95 HD)).
  destruct (starts2_no_xb _ (forallb_impl dchar no_xb _ dchar_no_xb HD)) as [Hh _].
  rewrite Hh, (float_part_is_mantissa mant e Hm He). exact Hok.
Qed.

Lemma number_check_complete : forall v s i,
  numeral v s i -> number_token_ok (if i then TkInt else TkFloat) s = true.
Proof.
  intros v s i Hn.
  destruct Hn as [a Ha | a e Ha He | a b e Ha Hb Hne He | x a Hx Ha | x a e _ Hx Ha He
                 | x a b e _ Hx Ha Hb Hne He]; cbn [number_token_ok].
  - apply int_token_ok_dec. exact Ha.
  - apply float_token_ok_dec; [apply digits_mchar; exact (proj2 Ha)|apply EO_some; exact He|].
    apply f64_ok_int. exact Ha.
  - replace (a ++ 46 :: b ++ e) with ((a ++ 46 :: b) ++ e)
      by (rewrite <- app_assoc; reflexivity).
    apply float_token_ok_dec; [|exact He|apply f64_ok_point; assumption].
    rewrite forallb_app. cbn [forallb]. rewrite (digits_mchar a Ha), (digits_mchar b Hb). reflexivity.
  - apply int_token_ok_hex; assumption.
  - apply float_token_ok_hex. exact Hx.
  - apply float_token_ok_hex. exact Hx.
Qed.

(** Every numeral of the reference manual (any of Lua 5.1 .. 5.4), followed by the end of the input
    or by a character that cannot continue it, is dispatched to [lex_number], which consumes exactly
    the numeral, pushes no error, and yields [TkInt] for an integer literal and [TkFloat] otherwise;
    the checker's validation of that token ([int_token_value] / [float_token_value]) returns Ok. *)
Theorem number_complete : forall (alpha : cp -> bool) (v : lua_version) (s rest : text) (i : bool),
  numeral v s i -> numeral_end alpha rest ->
  starts_number (s ++ rest) = true /\
  lex_number std_features alpha (s ++ rest) =
    {| tk_kind := if i then TkInt else TkFloat; tk_text := s; tk_rest := rest; tk_err := false |} /\
  number_token_ok (if i then TkInt else TkFloat) s = true.
Proof.
  intros alpha v s rest i Hn Hend.
  destruct (number_lex_complete alpha v s i rest Hn Hend) as [H1 H2].
  split; [exact H1|]. split; [exact H2|].
  exact (number_check_complete v s i Hn).
Qed.

(** the same when the follower is ASCII: nothing is assumed about [char::is_alphabetic] except that
    it is "ASCII letter" below 128 *)
Corollary number_complete_ascii : forall (alpha : cp -> bool) (v : lua_version) (s rest : text) (i : bool),
  (forall c, c < 128 -> alpha c = sletter c) ->
  numeral v s i -> numeral_end_ascii rest ->
  starts_number (s ++ rest) = true /\
  lex_number std_features alpha (s ++ rest) =
    {| tk_kind := if i then TkInt else TkFloat; tk_text := s; tk_rest := rest; tk_err := false |} /\
  number_token_ok (if i then TkInt else TkFloat) s = true.
Proof.
  intros alpha v s rest i Halpha Hn Hend. apply (number_complete alpha v s rest i Hn).
  destruct rest as [|c r]; [exact I|].
  destruct Hend as (Hc & Hl & Hd & Hp & Hu).
  cbn [numeral_end]. rewrite (Halpha c Hc). repeat split; assumption.
Qed.

(** Lua 5.1 numerals are numerals of every later version (5.1 is a sub-language) *)
Lemma numeral_lua51_sub : forall v s i, numeral Lua51 s i -> numeral v s i.
Proof. intros v s i H. destruct H; try contradiction; constructor; assumption. Qed.

Lemma numeral_sub_lua54 : forall v s i, numeral v s i -> numeral Lua54 s i.
Proof. intros v s i H. destruct H; constructor; solve [assumption | discriminate]. Qed.

Definition head_not_nl (X : text) : Prop :=
  match X with [] => True | c :: _ => c <> 10 /\ c <> 13 end.

Section StrLex.
  Variable zsp : cp -> bool.
  Hypothesis Hzsp : forall c, zsp c = true -> lua_space c = true.
  Variable q : cp.
  Hypothesis Hq : q = 34 \/ q = 39.

  Lemma zsp_not_space : forall c, lua_space c = false -> zsp c = false.
  Proof.
    intros c H. destruct (zsp c) eqn:E; [|reflexivity].
    apply Hzsp in E. rewrite E in H. discriminate.
  Qed.

  Lemma q_not_space : lua_space q = false.
  Proof. destruct Hq as [-> | ->]; reflexivity. Qed.

  Lemma str_loop_mode : forall m c tl,
    m && zsp c = false -> str_loop zsp q m (c :: tl) = str_loop zsp q false (c :: tl).
  Proof. intros m c tl H. cbn [str_loop]. rewrite H. cbn [andb]. reflexivity. Qed.

  Lemma str_loop_skip : forall c tl T R,
    zsp c = true -> str_loop zsp q true tl = (T, R) -> str_loop zsp q true (c :: tl) = (c :: T, R).
  Proof. intros c tl T R H HT. cbn [str_loop andb]. rewrite H, HT. reflexivity. Qed.

  Lemma str_loop_plain : forall c tl T R,
    plain_char q c = true -> str_loop zsp q false tl = (T, R) ->
    str_loop zsp q false (c :: tl) = (c :: T, R).
  Proof.
    intros c tl T R H HT. cbn [str_loop andb]. rewrite HT. revert H. unfold plain_char.
    destruct (c =? 92), (c =? q), (c =? 10), (c =? 13); cbn [orb negb]; intros H;
      try discriminate; reflexivity.
  Qed.

  Lemma str_loop_quote : forall m rest, str_loop zsp q m (q :: rest) = ([], q :: rest).
  Proof.
    intros m rest. rewrite str_loop_mode.
    - cbn [str_loop andb]. rewrite N.eqb_refl. reflexivity.
    - rewrite (zsp_not_space q q_not_space). apply andb_false_r.
  Qed.

  Lemma plain_any_mode : forall c X T R,
    plain_char q c = true -> (forall m, str_loop zsp q m X = (T, R)) ->
    forall m, str_loop zsp q m (c :: X) = (c :: T, R).
  Proof.
    intros c X T R Hc HX m. destruct (m && zsp c) eqn:E.
    - apply andb_prop in E. destruct E as [-> Ez]. apply str_loop_skip; [exact Ez|apply HX].
    - rewrite (str_loop_mode m c X E). apply str_loop_plain; [exact Hc|apply HX].
  Qed.

  Lemma plain_run : forall l X T R,
    forallb (plain_char q) l = true -> (forall m, str_loop zsp q m X = (T, R)) ->
    forall m, str_loop zsp q m (l ++ X) = (l ++ T, R).
  Proof.
    intros l X T R Hl HX. apply forallb_Forall in Hl. induction Hl as [|c l Hc _ IH]; [exact HX|].
    cbn [app]. apply plain_any_mode; [exact Hc|exact IH].
  Qed.

  Lemma zsp_run : forall zs X T R,
    forallb zsp zs = true -> str_loop zsp q true X = (T, R) ->
    str_loop zsp q true (zs ++ X) = (zs ++ T, R).
  Proof.
    intros zs X T R Hz HX. apply forallb_Forall in Hz. induction Hz as [|c zs Hc _ IH]; [exact HX|].
    cbn [app]. apply str_loop_skip; [exact Hc|exact IH].
  Qed.

  Lemma bs_guard : (92 =? q) || (92 =? 10) || (92 =? 13) = false.
  Proof. destruct Hq as [-> | ->]; reflexivity. Qed.

  (** a backslash ends the [\z] skip *)
  Lemma str_bs : forall m X, str_loop zsp q m (92 :: X) = str_loop zsp q false (92 :: X).
  Proof. intros m X. apply str_loop_mode. rewrite (zsp_not_space 92 eq_refl). apply andb_false_r. Qed.

  Lemma step_other : forall c2 tl2 T R m,
    (c2 =? 122) = false -> (c2 =? 10) = false -> (c2 =? 13) = false -> str_loop zsp q false tl2 = (T, R) ->
    str_loop zsp q m (92 :: c2 :: tl2) = (92 :: c2 :: T, R).
  Proof.
    intros c2 tl2 T R m H1 H2 H3 HT. rewrite str_bs. cbn [str_loop andb]. rewrite bs_guard.
    change (92 =? 92) with true. cbn [negb].
    rewrite H1, H2, H3, HT. reflexivity.
  Qed.

  Lemma step_z : forall tl2 T R m,
    str_loop zsp q true tl2 = (T, R) -> str_loop zsp q m (92 :: 122 :: tl2) = (92 :: 122 :: T, R).
  Proof.
    intros tl2 T R m HT. rewrite str_bs. cbn [str_loop andb]. rewrite bs_guard.
    change (92 =? 92) with true. change (122 =? 122) with true. cbn [negb].
    rewrite HT. reflexivity.
  Qed.

  Lemma step_newline : forall nl tl T R m,
    line_break nl -> head_not_nl tl -> str_loop zsp q false tl = (T, R) ->
    str_loop zsp q m (92 :: nl ++ tl) = (92 :: nl ++ T, R).
  Proof.
    intros nl tl T R m Hnl Hh HT.
    rewrite str_bs.
    destruct Hnl; cbn [app str_loop andb]; rewrite bs_guard; change (92 =? 92) with true; cbn [negb].
    - destruct tl as [|c3 tl3]; [rewrite HT; reflexivity|]. destruct Hh as [_ Hh].
      destruct (N.eqb_spec c3 13) as [E|_]; [contradiction|]. rewrite HT. reflexivity.
    - destruct tl as [|c3 tl3]; [rewrite HT; reflexivity|]. destruct Hh as [Hh _].
      destruct (N.eqb_spec c3 10) as [E|_]; [contradiction|]. rewrite HT. reflexivity.
    - rewrite HT. reflexivity.
    - rewrite HT. reflexivity.
  Qed.

  Lemma body_head : forall v zr t rest, str_body v zr q t -> head_not_nl (t ++ q :: rest).
  Proof.
    intros v zr t rest H. destruct H; cbn [app head_not_nl]; try (split; discriminate).
    - destruct Hq as [-> | ->]; split; discriminate.
    - unfold plain_char in H. lia.
  Qed.

  Lemma digit_plain : forall c, sdigit c = true -> plain_char q c = true.
  Proof.
    intros c. unfold sdigit, plain_char. destruct Hq as [-> | ->]; lia.
  Qed.
  Lemma xdigit_plain : forall c, sxdigit c = true -> plain_char q c = true.
  Proof.
    intros c. unfold sxdigit, sdigit, plain_char. destruct Hq as [-> | ->]; lia.
  Qed.
  Lemma hspace_plain : forall c, hspace c = true -> plain_char q c = true.
  Proof.
    intros c. unfold hspace, plain_char. destruct Hq as [-> | ->]; lia.
  Qed.
  Lemma brace_plain : plain_char q 123 = true /\ plain_char q 125 = true.
  Proof. destruct Hq as [-> | ->]; split; reflexivity. Qed.

  Lemma simple_escape_other : forall c, simple_escape c = true ->
    (c =? 122) = false /\ (c =? 10) = false /\ (c =? 13) = false.
  Proof. intros c. unfold simple_escape. lia. Qed.

  Lemma digit_other : forall c, sdigit c = true -> (c =? 122) = false /\ (c =? 10) = false /\ (c =? 13) = false.
  Proof. intros c. unfold sdigit. lia. Qed.

  (** the loop consumes exactly the body of a valid string and stops at the closing quote *)
  Lemma str_loop_body : forall v t,
    str_body v (z_split zsp) q t ->
    forall rest m, str_loop zsp q m (t ++ q :: rest) = (t, q :: rest).
  Proof.
    intros v t H.
    induction H as [| c t Hc Ht IH | c t Hc Ht IH | nl t Hnl Ht IH | ds t Hds Hlen Hval Hnext Ht IH
                   | ws t Hv Hws Ht IH | h1 h2 t Hv Hh1 Hh2 Ht IH | hs t Hv Hhs Hval Ht IH];
      intros rest m.
    - apply str_loop_quote.
    - cbn [app]. apply plain_any_mode; [exact Hc|]. intros m'. apply IH.
    - cbn [app]. destruct (simple_escape_other c Hc) as (H1 & H2 & H3).
      apply step_other; try assumption. apply IH.
    - pose proof (body_head v _ t rest Ht) as Hh.
      cbn [app]. rewrite <- app_assoc. apply step_newline; [exact Hnl|exact Hh|apply IH].
    - destruct (run1_cons is_digit ds Hds) as (d & ds' & -> & Hd & Hds').
      cbn [app]. rewrite <- app_assoc.
      destruct (digit_other d Hd) as (H1 & H2 & H3).
      apply step_other; try assumption.
      apply plain_run; [|intros m'; apply IH].
      apply (forallb_impl sdigit); [exact digit_plain|exact Hds'].
    - cbn [app]. rewrite <- app_assoc. apply step_z.
      destruct Hws as (zs & hs & -> & Hzs & Hhs). rewrite <- !app_assoc.
      apply zsp_run; [exact Hzs|].
      apply plain_run; [|intros m'; apply IH].
      apply (forallb_impl hspace); [exact hspace_plain|exact Hhs].
    - cbn [app]. apply step_other; try reflexivity.
      apply (plain_run [h1; h2]); [|intros m'; apply IH].
      cbn [forallb]. rewrite (xdigit_plain h1 Hh1), (xdigit_plain h2 Hh2). reflexivity.
    - cbn [app]. rewrite <- app_assoc. cbn [app]. apply step_other; try reflexivity.
      destruct brace_plain as [B1 B2]. apply plain_any_mode; [exact B1|].
      apply plain_run; [exact (forallb_impl sxdigit _ hs xdigit_plain (proj2 Hhs))|].
      apply plain_any_mode; [exact B2|]. intros m'. apply IH.
  Qed.

  Lemma lex_quoted_body : forall v body rest,
    str_body v (z_split zsp) q body ->
    lex_quoted std_features zsp ((q :: body ++ [q]) ++ rest) =
      Some {| tk_kind := TkString; tk_text := q :: body ++ [q]; tk_rest := rest; tk_err := false |}.
  Proof.
    intros v body rest Hb.
    replace ((q :: body ++ [q]) ++ rest) with (q :: body ++ q :: rest)
      by (cbn [app]; rewrite <- app_assoc; reflexivity).
    pose proof (str_loop_body v body Hb rest false) as HL.
    unfold lex_quoted, lex_string. rewrite HL. cbn [fst snd]. rewrite N.eqb_refl.
    cbn [tk_kind tk_text tk_rest tk_err].
    destruct Hq as [-> | ->]; reflexivity.
  Qed.
End StrLex.

(** * [check_normal_string_error] *)

Lemma digit_val_lt : forall radix c d, digit_val radix c = Some d -> d < radix.
Proof.
  intros radix c d. unfold digit_val.
  destruct (if is_digit c then Some (c - 48)
            else if (97 <=? c) && (c <=? 122) then Some (c - 87)
            else if (65 <=? c) && (c <=? 90) then Some (c - 55) else None) as [x|]; [|discriminate].
  destruct (N.ltb_spec x radix) as [L|L]; [|discriminate].
  intros E. inversion E. subst. exact L.
Qed.

(** the value computed by the digit loop is the value of the specification *)
Lemma parse_hex_value : forall lim ovf hs acc,
  forallb is_hexdigit hs = true ->
  match parse_digits 16 lim ovf acc hs with
  | IOk v => v = hex_value_from acc hs
  | IErr _ => True
  end.
Proof.
  intros lim ovf hs acc H. revert acc. apply forallb_Forall in H. induction H as [|c hs Hc _ IH]; intros acc.
  - reflexivity.
  - cbn [parse_digits hex_value_from]. rewrite (hexdigit_val c Hc).
    destruct (lim <? acc * 16 + hex_digit_val c); [exact I|]. apply IH.
Qed.

Lemma hexdigit_ascii : forall c, is_hexdigit c = true -> blen c = 1.
Proof.
  intros c H. apply ascii_blen. revert H. unfold is_hexdigit, is_digit. lia.
Qed.

Lemma span_ne_app : forall stop hs X,
  forallb (ne stop) hs = true -> span_ne stop (hs ++ stop :: X) = (hs, X).
Proof.
  intros stop hs X H. apply forallb_Forall in H. induction H as [|c hs Hc _ IH].
  - cbn [app span_ne]. rewrite N.eqb_refl. reflexivity.
  - unfold ne in Hc. apply negb_true_iff in Hc. cbn [app span_ne]. rewrite Hc, IH. reflexivity.
Qed.

Lemma hexdigit_ne_brace : forall c, is_hexdigit c = true -> ne 125 c = true.
Proof. intros c. unfold is_hexdigit, is_digit, ne. lia. Qed.

Lemma skip_digits_stop : forall n X, head_fails is_digit X -> skip_digits n X = X.
Proof.
  intros [|n] [|c X] H; try reflexivity. cbn [head_fails] in H. cbn [skip_digits]. rewrite H. reflexivity.
Qed.

Lemma skip_digits_S : forall n c X, is_digit c = true -> skip_digits (S n) (c :: X) = skip_digits n X.
Proof. intros n c X H. cbn [skip_digits]. rewrite H. reflexivity. Qed.

Lemma skip_digits_app : forall ds X,
  forallb is_digit ds = true -> (length ds <= 2)%nat ->
  ((length ds < 2)%nat -> head_fails is_digit X) ->
  skip_digits 2 (ds ++ X) = X.
Proof.
  intros ds X Hds Hlen Hnext.
  destruct ds as [|a [|b [|c ds]]]; cbn [length] in *.
  - apply skip_digits_stop. apply Hnext. lia.
  - cbn [forallb] in Hds. apply andb_prop in Hds. destruct Hds as [Ha _].
    cbn [app]. rewrite (skip_digits_S 1 a X Ha). apply skip_digits_stop. apply Hnext. lia.
  - cbn [forallb] in Hds. apply andb_prop in Hds. destruct Hds as [Ha Hds].
    apply andb_prop in Hds. destruct Hds as [Hb _].
    cbn [app]. rewrite (skip_digits_S 1 a (b :: X) Ha), (skip_digits_S 0 b X Hb). reflexivity.
  - lia.
Qed.

Lemma lua_space_whitespace : forall c, lua_space c = true -> is_whitespace c = true.
Proof.
  intros c. unfold lua_space, is_whitespace. lia.
Qed.

Lemma drop_ws_app : forall ws X, forallb lua_space ws = true -> drop_ws (ws ++ X) = drop_ws X.
Proof.
  intros ws X H. apply forallb_Forall in H. induction H as [|c ws Hc _ IH]; [reflexivity|].
  cbn [app drop_ws]. rewrite (lua_space_whitespace c Hc). exact IH.
Qed.

Section StrChk.
  Variable ubad : N -> bool.
  Hypothesis Hubad : forall x, x <= 2147483647 -> ubad x = false.

  (** The loop answers [true] when its fuel runs out, so "no error" can be claimed of every fuel and
      needs no bound on it. *)
  Definition chk_ok (d : cp) (X : text) : Prop := forall f, chk_loop ubad f d X = true.

  Lemma chk_step_plain : forall d c X, c <> 92 -> c <> d -> chk_ok d X -> chk_ok d (c :: X).
  Proof.
    intros d c X H1 H2 HX [|f]; [reflexivity|]. cbn [chk_loop].
    destruct (N.eqb_spec c 92) as [E|_]; [contradiction|].
    destruct (N.eqb_spec c d) as [E|_]; [contradiction|]. apply HX.
  Qed.

  Lemma chk_step_delim : forall d X, d <> 92 -> chk_ok d (d :: X).
  Proof.
    intros d X H [|f]; [reflexivity|]. cbn [chk_loop]. destruct (N.eqb_spec d 92) as [E|_]; [contradiction|].
    rewrite N.eqb_refl. reflexivity.
  Qed.

  Lemma chk_step_simple : forall d n X, chk_simple n = true -> chk_ok d X -> chk_ok d (92 :: n :: X).
  Proof.
    intros d n X Hn HX [|f]; [reflexivity|]. cbn [chk_loop]. change (92 =? 92) with true. cbv iota.
    rewrite Hn. apply HX.
  Qed.

  Lemma digit_esc_facts : forall n, is_digit n = true ->
    chk_simple n = false /\ (n =? 120) = false /\ (n =? 117) = false.
  Proof.
    intros n. unfold is_digit, chk_simple. lia.
  Qed.

  Lemma chk_step_dec : forall d n X,
    is_digit n = true -> chk_ok d (skip_digits 2 X) -> chk_ok d (92 :: n :: X).
  Proof.
    intros d n X Hn HX [|f]; [reflexivity|]. cbn [chk_loop]. change (92 =? 92) with true. cbv iota.
    destruct (digit_esc_facts n Hn) as (E1 & E2 & E3). rewrite E1, E2, E3, Hn. apply HX.
  Qed.

  Lemma chk_step_z : forall d X, chk_ok d (drop_ws X) -> chk_ok d (92 :: 122 :: X).
  Proof. intros d X HX [|f]; [reflexivity|]. apply HX. Qed.

  Lemma u8_two_hex : forall h1 h2, is_hexdigit h1 = true -> is_hexdigit h2 = true ->
    exists v, u8_from_str_radix 16 [h1; h2] = IOk v.
  Proof.
    intros h1 h2 H1 H2. unfold u8_from_str_radix.
    rewrite (from_str_radix_nosign _ _ _ _ h1 [h2] (hexdigit_not_sign h1 H1)).
    cbn [parse_digits]. rewrite (hexdigit_val h1 H1), (hexdigit_val h2 H2).
    pose proof (digit_val_lt 16 h1 _ (hexdigit_val h1 H1)) as L1.
    pose proof (digit_val_lt 16 h2 _ (hexdigit_val h2 H2)) as L2.
    unfold u8_max.
    destruct (N.ltb_spec 255 (0 * 16 + hex_digit_val h1)) as [L|_]; [lia|].
    destruct (N.ltb_spec 255 ((0 * 16 + hex_digit_val h1) * 16 + hex_digit_val h2)) as [L|_]; [lia|].
    eexists. reflexivity.
  Qed.

  Lemma chk_step_x : forall d h1 h2 X,
    is_hexdigit h1 = true -> is_hexdigit h2 = true -> chk_ok d X -> chk_ok d (92 :: 120 :: h1 :: h2 :: X).
  Proof.
    intros d h1 h2 X H1 H2 HX [|f]; [reflexivity|]. cbn [chk_loop]. change (92 =? 92) with true.
    change (chk_simple 120) with false. change (120 =? 120) with true. cbv iota zeta.
    cbn [firstn skipn bytes forallb]. rewrite (hexdigit_ascii h1 H1), (hexdigit_ascii h2 H2), H1, H2.
    change (1 + (1 + 0) =? 2) with true. cbn [andb].
    destruct (u8_two_hex h1 h2 H1 H2) as [v Hv]. rewrite Hv. apply HX.
  Qed.

  Lemma chk_step_u : forall d hs X,
    xdigits1 hs -> hex_value hs <= 2147483647 -> chk_ok d X -> chk_ok d (92 :: 117 :: 123 :: hs ++ 125 :: X).
  Proof.
    intros d hs X Hhs1 Hval HX [|f]; [reflexivity|]. pose proof (proj2 Hhs1) as Hhs.
    cbn [chk_loop]. change (92 =? 92) with true.
    change (chk_simple 117) with false. change (117 =? 120) with false. change (117 =? 117) with true.
    change (123 =? 123) with true. cbv iota zeta.
    rewrite (span_ne_app 125 hs X (forallb_impl is_hexdigit (ne 125) hs hexdigit_ne_brace Hhs)).
    cbn [fst snd].
    destruct (run1_cons is_hexdigit hs Hhs1) as (h & hs' & -> & Hh & _).
    unfold u32_from_str_radix. rewrite (from_str_radix_nosign _ _ _ _ h hs' (hexdigit_not_sign h Hh)).
    pose proof (parse_hex_value u32_max IPosOverflow (h :: hs') 0 Hhs) as HP.
    destruct (parse_digits 16 u32_max IPosOverflow 0 (h :: hs')) as [v|e]; [|apply HX].
    subst v. fold (hex_value (h :: hs')). rewrite (Hubad _ Hval). apply HX.
  Qed.

  Variable q : cp.
  Hypothesis Hq : q = 34 \/ q = 39.

  Lemma q_ne_bs : q <> 92.
  Proof. destruct Hq as [-> | ->]; discriminate. Qed.

  Lemma q_not_ws : is_whitespace q = false.
  Proof. destruct Hq as [-> | ->]; reflexivity. Qed.

  Lemma q_not_digit : is_digit q = false.
  Proof. destruct Hq as [-> | ->]; reflexivity. Qed.

  Lemma plain_ne : forall c, plain_char q c = true -> c <> 92 /\ c <> q.
  Proof.
    intros c. unfold plain_char. lia.
  Qed.

  Lemma simple_escape_chk : forall c, simple_escape c = true -> chk_simple c = true.
  Proof. intros c. unfold simple_escape, chk_simple. lia. Qed.

  Lemma next_head_fails : forall t rest, next_not_digit t -> head_fails is_digit (t ++ q :: rest).
  Proof.
    intros [|c t] rest H; cbn [app head_fails].
    - exact q_not_digit.
    - exact H.
  Qed.

  (** a text that starts with a backslash is its own [drop_ws] *)
  Lemma both_bs : forall X, chk_ok q (92 :: X) -> chk_ok q (92 :: X) /\ chk_ok q (drop_ws (92 :: X)).
  Proof. intros X H. split; exact H. Qed.

  (** on a valid body the loop reaches the closing quote without error; the same holds after the
      whitespace skip of a preceding [\z] *)
  Lemma chk_body : forall v t,
    str_body v z_any q t ->
    forall rest, chk_ok q (t ++ q :: rest) /\ chk_ok q (drop_ws (t ++ q :: rest)).
  Proof.
    intros v t H.
    induction H as [| c t Hc Ht IH | c t Hc Ht IH | nl t Hnl Ht IH | ds t Hds Hlen Hval Hnext Ht IH
                   | ws t Hv Hws Ht IH | h1 h2 t Hv Hh1 Hh2 Ht IH | hs t Hv Hhs Hval Ht IH];
      intros rest.
    - assert (P1 : chk_ok q (q :: rest)) by (apply chk_step_delim; exact q_ne_bs).
      split; [exact P1|]. cbn [app drop_ws]. rewrite q_not_ws. exact P1.
    - destruct (plain_ne c Hc) as [N1 N2].
      assert (P1 : chk_ok q (c :: t ++ q :: rest)) by (apply chk_step_plain; [exact N1|exact N2|apply IH]).
      split; [exact P1|]. cbn [app drop_ws]. destruct (is_whitespace c); [apply IH|exact P1].
    - apply both_bs, chk_step_simple; [apply simple_escape_chk; exact Hc|apply IH].
    - destruct Hnl; cbn [app]; apply both_bs, chk_step_simple; try reflexivity.
      1, 2: apply IH.
      all: apply chk_step_plain; [discriminate|destruct Hq as [-> | ->]; discriminate|apply IH].
    - destruct (run1_cons is_digit ds Hds) as (d & ds' & -> & Hd & Hds').
      cbn [app length] in *. rewrite <- app_assoc.
      apply both_bs, chk_step_dec; [exact Hd|].
      rewrite (skip_digits_app ds' (t ++ q :: rest) Hds').
      + apply IH.
      + lia.
      + intros L. apply next_head_fails, Hnext. lia.
    - cbn [app]. rewrite <- app_assoc.
      apply both_bs, chk_step_z. rewrite (drop_ws_app ws _ Hws). apply IH.
    - apply both_bs, chk_step_x; [exact Hh1|exact Hh2|apply IH].
    - cbn [app]. rewrite <- app_assoc.
      apply both_bs, chk_step_u; [exact Hhs|exact Hval|apply IH].
  Qed.

  Lemma check_string_body : forall v body,
    str_body v z_any q body -> check_string ubad (q :: body ++ [q]) = true.
  Proof.
    intros v body Hb. unfold check_string.
    destruct (bytes (q :: body ++ [q]) <? 2); [reflexivity|].
    exact (proj1 (chk_body v body Hb []) (length (body ++ [q]))).
  Qed.
End StrChk.

Lemma str_body_zrun_mono : forall v (z1 z2 : text -> Prop) q t,
  (forall ws, z1 ws -> z2 ws) -> str_body v z1 q t -> str_body v z2 q t.
Proof.
  intros v z1 z2 q t Hz H.
  induction H; [apply SB_end|apply SB_plain|apply SB_simple|apply SB_newline|apply SB_dec|apply SB_z|apply SB_x|apply SB_u];
    try assumption.
  apply Hz. assumption.
Qed.

Lemma lexer_zsp_space : forall c, lexer_zsp c = true -> lua_space c = true.
Proof. intros c. unfold lexer_zsp, lua_space. lia. Qed.
Lemma lexer_zsp_fixed_space : forall c, lexer_zsp_fixed c = true -> lua_space c = true.
Proof. intros c. unfold lexer_zsp_fixed, lexer_zsp, lua_space. lia. Qed.
Lemma space_lexer_zsp_fixed : forall c, lua_space c = true -> lexer_zsp_fixed c = true.
Proof. intros c. unfold lexer_zsp_fixed, lexer_zsp, lua_space. lia. Qed.
Lemma hspace_space : forall c, hspace c = true -> lua_space c = true.
Proof. intros c. unfold hspace, lua_space. lia. Qed.

(** with the six-character skip every whitespace run is handled *)
Lemma z_any_split_fixed : forall ws, z_any ws -> z_split lexer_zsp_fixed ws.
Proof.
  intros ws H. exists ws, []. rewrite app_nil_r. split; [reflexivity|]. split; [|reflexivity].
  apply (forallb_impl lua_space); [exact space_lexer_zsp_fixed|exact H].
Qed.

Lemma z_split_any : forall zsp ws,
  (forall c, zsp c = true -> lua_space c = true) -> z_split zsp ws -> z_any ws.
Proof.
  intros zsp ws Hz (zs & hs & -> & Hzs & Hhs). unfold z_any. rewrite forallb_app.
  rewrite (forallb_impl zsp lua_space zs Hz Hzs), (forallb_impl hspace lua_space hs hspace_space Hhs).
  reflexivity.
Qed.

(** the lexer, for any [\z] skip set made of whitespace, on the strings whose [\z] runs it can handle *)
Theorem string_lex_complete_gen : forall (zsp : cp -> bool),
  (forall c, zsp c = true -> lua_space c = true) ->
  forall (v : lua_version) (s rest : text),
    short_string_with v (z_split zsp) s ->
    lex_quoted std_features zsp (s ++ rest) =
      Some {| tk_kind := TkString; tk_text := s; tk_rest := rest; tk_err := false |}.
Proof.
  intros zsp Hz v s rest (q & body & Hq & -> & Hb).
  exact (lex_quoted_body zsp Hz q Hq v body rest Hb).
Qed.

(** the checker, for any test of [\u{..}] values that accepts everything up to 0x7FFFFFFF *)
Theorem string_check_complete : forall (ubad : N -> bool),
  (forall x, x <= 2147483647 -> ubad x = false) ->
  forall (v : lua_version) (s : text), short_string v s -> check_string ubad s = true.
Proof.
  intros ubad Hu v s (q & body & Hq & -> & Hb).
  exact (check_string_body ubad Hu q Hq v body Hb).
Qed.

Lemma ubad_max_lua54 : forall x, x <= 2147483647 -> ubad_max lua54_umax x = false.
Proof.
  intros x H. unfold ubad_max, lua54_umax. destruct (N.ltb_spec 2147483647 x) as [L|_]; [lia|reflexivity].
Qed.

(** Every short string of the reference manual (any of Lua 5.1 .. 5.4; escapes [\z \x] from 5.2,
    [\u{..}] from 5.3 with the 5.4 range), whatever follows it, is consumed exactly by [lex] /
    [lex_string] (with the [\z] skip over all six whitespace characters) without the
    "unfinished string" error, and [check_normal_string_error] (error iff a [\u] value exceeds
    0x7FFFFFFF) returns Ok on the token.  No assumption about U+0000 is needed: the reader decides
    end of input by position (reader.rs, [is_eof]). *)
Theorem string_escape_complete : forall (v : lua_version) (s rest : text),
  short_string v s ->
  lex_quoted std_features lexer_zsp_fixed (s ++ rest) =
    Some {| tk_kind := TkString; tk_text := s; tk_rest := rest; tk_err := false |} /\
  check_string_umax lua54_umax s = true.
Proof.
  intros v s rest H. split.
  - apply (string_lex_complete_gen lexer_zsp_fixed lexer_zsp_fixed_space v).
    destruct H as (q & body & Hq & E & Hb). exists q, body. split; [exact Hq|]. split; [exact E|].
    exact (str_body_zrun_mono v z_any _ q body z_any_split_fixed Hb).
  - exact (string_check_complete (ubad_max lua54_umax) ubad_max_lua54 v s H).
Qed.

(** the same for the four-character [\z] skip (space, tab, CR, LF), outside the refuted class: every
    [\z] run is made of those four characters followed by whitespace without line breaks *)
Theorem string_escape_complete_zsp4 : forall (v : lua_version) (s rest : text),
  short_string_with v (z_split lexer_zsp) s ->
  lex_quoted std_features lexer_zsp (s ++ rest) =
    Some {| tk_kind := TkString; tk_text := s; tk_rest := rest; tk_err := false |} /\
  check_string_umax lua54_umax s = true.
Proof.
  intros v s rest H. split.
  - exact (string_lex_complete_gen lexer_zsp lexer_zsp_space v s rest H).
  - apply (string_check_complete (ubad_max lua54_umax) ubad_max_lua54 v s).
    destruct H as (q & body & Hq & E & Hb). exists q, body. split; [exact Hq|]. split; [exact E|].
    exact (str_body_zrun_mono v _ z_any q body (fun ws => z_split_any lexer_zsp ws lexer_zsp_space) Hb).
Qed.

(** earlier versions are sub-languages *)
Lemma short_string_sub_lua54 : forall v s, short_string v s -> short_string Lua54 s.
Proof.
  intros v s (q & body & Hq & E & Hb). exists q, body. split; [exact Hq|]. split; [exact E|]. clear E.
  induction Hb; [apply SB_end|apply SB_plain|apply SB_simple|apply SB_newline|apply SB_dec|apply SB_z|apply SB_x|apply SB_u];
    try assumption; try discriminate.
  right. reflexivity.
Qed.

(** * refutations of the unrepaired predicates *)

(** the string ["\u{D800}"] *)
Definition surrogate_string : text := [34; 92; 117; 123; 68; 56; 48; 48; 125; 34].

Lemma surrogate_string_valid : short_string Lua54 surrogate_string.
Proof.
  exists 34, [92; 117; 123; 68; 56; 48; 48; 125]. split; [left; reflexivity|]. split; [reflexivity|].
  apply (SB_u Lua54 z_any 34 [68; 56; 48; 48] []).
  - right. reflexivity.
  - split; [discriminate|reflexivity].
  - apply N.leb_le. reflexivity.
  - apply SB_end.
Qed.

(** the original test of [\u{..}] ([char::from_u32(cp).is_none()]) rejects a valid Lua 5.4 string *)
Lemma string_escape_old_refuted : exists s, short_string Lua54 s /\ check_string_old s = false.
Proof.
  exists surrogate_string. split; [exact surrogate_string_valid|]. vm_compute. reflexivity.
Qed.

(** the string ["\z<VT><LF>"] *)
Definition vtab_string : text := [34; 92; 122; 11; 10; 34].

Lemma vtab_string_valid : short_string Lua54 vtab_string.
Proof.
  exists 34, [92; 122; 11; 10]. split; [left; reflexivity|]. split; [reflexivity|].
  apply (SB_z Lua54 z_any 34 [11; 10] []).
  - discriminate.
  - reflexivity.
  - apply SB_end.
Qed.

(** the original four-character [\z] skip reports "unfinished string" on a valid Lua 5.2-5.4 string *)
Lemma string_z_vtab_refuted :
  exists s, short_string Lua54 s /\
    exists t, lex_quoted std_features lexer_zsp s = Some t /\ tk_err t = true.
Proof.
  exists vtab_string. split; [exact vtab_string_valid|].
  eexists. split; [vm_compute; reflexivity|reflexivity].
Qed.

(** * examples: the hypotheses are satisfiable, on non-trivial inputs *)

Ltac side := first [ reflexivity | discriminate | left; reflexivity | right; reflexivity
                   | left; discriminate | right; discriminate
                   | split; [discriminate|reflexivity] | apply N.leb_le; reflexivity ].

(** [0x.8p-3] followed by a space *)
Example ex_hex_float :
  let s := [48; 120; 46; 56; 112; 45; 51] in
  numeral Lua54 s false /\ numeral_end ascii_letter [32] /\
  lex_number std_features ascii_letter (s ++ [32]) =
    {| tk_kind := TkFloat; tk_text := s; tk_rest := [32]; tk_err := false |} /\
  number_token_ok TkFloat s = true.
Proof.
  split.
  - apply (Num_hex_frac Lua54 120 [] [56] [112; 45; 51]); try side.
    apply EO_some. apply (Exponent 112 80 112 [45] [51]); try side. apply SO_minus.
  - split; [repeat split; discriminate|]. vm_compute. split; reflexivity.
Qed.

(** [3.e+10] at the end of the input *)
Example ex_dec_float :
  let s := [51; 46; 101; 43; 49; 48] in
  numeral Lua51 s false /\
  lex_number std_features ascii_letter (s ++ []) =
    {| tk_kind := TkFloat; tk_text := s; tk_rest := []; tk_err := false |} /\
  number_token_ok TkFloat s = true.
Proof.
  split.
  - apply (Num_dec_frac Lua51 [51] [] [101; 43; 49; 48]); try side.
    apply EO_some. apply (Exponent 101 69 101 [43] [49; 48]); try side. apply SO_plus.
  - vm_compute. split; reflexivity.
Qed.

(** [9223372036854775808] (2^63: overflows [i64], still an integer literal) followed by [)] *)
Example ex_dec_overflow :
  let s := [57; 50; 50; 51; 51; 55; 50; 48; 51; 54; 56; 53; 52; 55; 55; 53; 56; 48; 56] in
  numeral Lua54 s true /\
  lex_number std_features ascii_letter (s ++ [41]) =
    {| tk_kind := TkInt; tk_text := s; tk_rest := [41]; tk_err := false |} /\
  i64_from_str_radix 10 s = IErr IPosOverflow /\
  number_token_ok TkInt s = true.
Proof.
  split.
  - apply Num_dec_int. side.
  - vm_compute. repeat split; reflexivity.
Qed.

(** [0xffffffffffffffffff] (72 bits) *)
Example ex_hex_overflow :
  let s := [48; 120; 102; 102; 102; 102; 102; 102; 102; 102; 102; 102; 102; 102; 102; 102; 102; 102;
            102; 102] in
  numeral Lua51 s true /\
  lex_number std_features ascii_letter (s ++ [10]) =
    {| tk_kind := TkInt; tk_text := s; tk_rest := [10]; tk_err := false |} /\
  u64_from_str_radix 16 (skipn 2 s) = IErr IPosOverflow /\
  number_token_ok TkInt s = true.
Proof.
  split.
  - apply (Num_hex_int Lua51 120); side.
  - vm_compute. repeat split; reflexivity.
Qed.

(** ["a\z  <LF> b\x41\u{7FFFFFFF}\065\<LF>"] followed by [..] *)
Example ex_string :
  let s := [34; 97; 92; 122; 32; 32; 10; 32; 98; 92; 120; 52; 49;
            92; 117; 123; 55; 70; 70; 70; 70; 70; 70; 70; 125; 92; 48; 54; 53; 92; 10; 34] in
  short_string Lua54 s /\
  lex_quoted std_features lexer_zsp_fixed (s ++ [46; 46]) =
    Some {| tk_kind := TkString; tk_text := s; tk_rest := [46; 46]; tk_err := false |} /\
  lex_quoted std_features lexer_zsp (s ++ [46; 46]) =
    Some {| tk_kind := TkString; tk_text := s; tk_rest := [46; 46]; tk_err := false |} /\
  check_string_umax lua54_umax s = true /\ check_string_old s = false.
Proof.
  split.
  - exists 34, [97; 92; 122; 32; 32; 10; 32; 98; 92; 120; 52; 49;
                92; 117; 123; 55; 70; 70; 70; 70; 70; 70; 70; 125; 92; 48; 54; 53; 92; 10].
    split; [left; reflexivity|]. split; [reflexivity|].
    apply SB_plain; [reflexivity|].
    apply (SB_z Lua54 z_any 34 [32; 32; 10; 32]); [discriminate|reflexivity|].
    apply SB_plain; [reflexivity|].
    apply SB_x; [discriminate|reflexivity|reflexivity|].
    apply (SB_u Lua54 z_any 34 [55; 70; 70; 70; 70; 70; 70; 70]); try side.
    apply (SB_dec Lua54 z_any 34 [48; 54; 53]).
    + split; [discriminate|reflexivity].
    + cbn [length]. lia.
    + apply N.leb_le. reflexivity.
    + cbn [length]. intros L. lia.
    + apply (SB_newline Lua54 z_any 34 [10]); [apply LB_lf|apply SB_end].
  - vm_compute. repeat split; reflexivity.
Qed.
