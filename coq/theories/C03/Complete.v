(** Completeness of the parser model for the grammar of Spec.v: every derivation is parsed without error
    and yields the derivation's tree.  Mutual induction over the sixteen relations of the grammar (one lemma
    per rule); the parser functions are used only through their unfolding equations. *)
From Coq Require Import List Bool Arith Lia.
Import ListNotations.
From EV Require Import C03.Syntax C03.Spec C03.Model C03.Facts.

Scheme E_mut := Minimality for E Sort Prop
  with Simple_mut := Minimality for Simple Sort Prop
  with Primary_mut := Minimality for Primary Sort Prop
  with Suf_mut := Minimality for Suf Sort Prop
  with ArgsR_mut := Minimality for ArgsR Sort Prop
  with ExpTail_mut := Minimality for ExpTail Sort Prop
  with TableR_mut := Minimality for TableR Sort Prop
  with FieldsTail_mut := Minimality for FieldsTail Sort Prop
  with FieldR_mut := Minimality for FieldR Sort Prop
  with BlockR_mut := Minimality for BlockR Sort Prop
  with StatsR_mut := Minimality for StatsR Sort Prop
  with Stat_mut := Minimality for Stat Sort Prop
  with StatB_mut := Minimality for StatB Sort Prop
  with VarsTail_mut := Minimality for VarsTail Sort Prop
  with IfTail_mut := Minimality for IfTail Sort Prop
  with ForStep_mut := Minimality for ForStep Sort Prop.

Combined Scheme grammar_mutind from E_mut, Simple_mut, Primary_mut, Suf_mut, ArgsR_mut, ExpTail_mut,
  TableR_mut, FieldsTail_mut, FieldR_mut, BlockR_mut, StatsR_mut, Stat_mut, StatB_mut, VarsTail_mut, IfTail_mut, ForStep_mut.

Ltac norm_app := repeat (rewrite <- app_assoc || rewrite <- app_comm_cons); cbn [app].

Section First.
  Variable ft : features.

  Lemma TableR_first : forall d ts t, TableR ft d ts t -> exists r, ts = TLBrace :: r.
  Proof. intros d ts t H. inversion H; subst; eexists; reflexivity. Qed.

  Lemma TableR_kind : forall d ts t, TableR ft d ts t -> exists cs, t = N KTable cs.
  Proof. intros d ts t H. inversion H; subst; eexists; reflexivity. Qed.

  Lemma ArgsR_first : forall d ts t, ArgsR ft d ts t -> exists x r, ts = x :: r /\ is_args_start x = true.
  Proof.
    intros d ts t H. inversion H; subst; try (do 2 eexists; split; [reflexivity|reflexivity]).
    match goal with H : TableR _ _ _ _ |- _ => apply TableR_first in H; destruct H as [r ->] end.
    do 2 eexists; split; reflexivity.
  Qed.

  Lemma Primary_first : forall d ts t, Primary ft d ts t -> exists x r, ts = x :: r /\ (x = TName \/ x = TLParen).
  Proof. intros d ts t H. inversion H; subst; do 2 eexists; (split; [reflexivity|tauto]). Qed.

  Lemma Simple_first : forall d ts t, Simple ft d ts t -> exists x r, ts = x :: r /\ simple_start x = true.
  Proof.
    intros d ts t H. inversion H; subst.
    - do 2 eexists. split; [reflexivity|]. unfold simple_start. rewrite H0. reflexivity.
    - match goal with H : TableR _ _ _ _ |- _ => apply TableR_first in H; destruct H as [r ->] end.
      do 2 eexists; split; reflexivity.
    - do 2 eexists; split; reflexivity.
    - match goal with H : Primary _ _ _ _ |- _ => apply Primary_first in H; destruct H as (x & r & -> & Hx) end.
      do 2 eexists. split; [reflexivity|]. destruct Hx as [-> | ->]; reflexivity.
  Qed.

  Lemma Simple_suffixed_first : forall d ts t, Simple ft d ts t ->
    is_lvalue_tree t = true \/ is_call_tree t = true -> exists x r, ts = x :: r /\ (x = TName \/ x = TLParen).
  Proof.
    intros d ts t H Hk. inversion H; subst.
    - destruct Hk; discriminate.
    - match goal with H : TableR _ _ _ _ |- _ => apply TableR_kind in H; destruct H as [cs ->] end. destruct Hk; discriminate.
    - destruct Hk; discriminate.
    - match goal with H : Primary _ _ _ _ |- _ => apply Primary_first in H; destruct H as (x & r & -> & Hx) end.
      do 2 eexists. split; [reflexivity|exact Hx].
  Qed.

  Lemma E_first : forall m d ts t, E ft m d ts t -> exists x r, ts = x :: r /\ expr_start x = true.
  Proof.
    induction 1.
    - (* E_up *) assumption.
    - (* E_binl *) destruct IHE1 as (x & r0 & -> & Hx). do 2 eexists. split; [reflexivity|exact Hx].
    - (* E_binr *) destruct IHE1 as (x & r0 & -> & Hx). do 2 eexists. split; [reflexivity|exact Hx].
    - (* E_pow *) destruct IHE1 as (x & r0 & -> & Hx). do 2 eexists. split; [reflexivity|exact Hx].
    - (* E_un *) do 2 eexists. split; [reflexivity|]. unfold expr_start, is_unop_tok. rewrite man_unop_of_tok. apply orb_true_r.
    - (* E_simple *) apply Simple_first in H. destruct H as (x & r0 & -> & Hx). do 2 eexists. split; [reflexivity|].
      unfold expr_start. rewrite Hx. reflexivity.
  Qed.
End First.

Section Second.
  Variable ft : features.

  Lemma Suf_not_assign : forall d cm ts t, Suf ft d cm ts t -> forall r, ts <> TAssign :: r.
  Proof.
    intros d cm ts t H r Heq. subst ts. inversion H; subst.
    match goal with H : ArgsR _ _ _ _ |- _ => apply ArgsR_first in H; destruct H as (x & r0 & -> & Hx) end.
    match goal with H : (_ :: _) ++ _ = TAssign :: _ |- _ => cbn in H; inversion H; subst end.
    discriminate.
  Qed.

  Lemma app_starts_name_assign : forall (x : tok) tl' o tr r,
    (x :: tl') ++ o :: tr = TName :: TAssign :: r -> (tl' = [] /\ o = TAssign) \/ (exists r', x :: tl' = TName :: TAssign :: r').
  Proof.
    intros x tl' o tr r H. cbn in H. inversion H; subst. destruct tl' as [|y tl'']; cbn in *.
    - left. inversion H2. split; reflexivity.
    - right. inversion H2; subst. eexists. reflexivity.
  Qed.

  (** an expression never starts with  Name '='  (so a positional table field is not mistaken for a named one) *)
  Lemma E_second : forall m d ts t, E ft m d ts t -> forall r, ts <> TName :: TAssign :: r.
  Proof.
    assert (Hbin : forall m d tl l o tr, E ft m d tl l -> (forall r, tl <> TName :: TAssign :: r) -> o <> TAssign ->
                   forall r, tl ++ o :: tr <> TName :: TAssign :: r).
    { intros m d tl l o tr H IH Ho r Heq. destruct (E_first _ _ _ _ _ H) as (x & tl' & -> & _).
      apply app_starts_name_assign in Heq. destruct Heq as [[_ Eo] | [r' Er]]; [exact (Ho Eo)|exact (IH _ Er)]. }
    induction 1; intros r0 Heq.
    - (* E_up *) eapply IHE; eassumption.
    - (* E_binl *) refine (Hbin _ _ _ _ _ _ _ IHE1 _ _ Heq); [eassumption|destruct o; discriminate].
    - (* E_binr *) refine (Hbin _ _ _ _ _ _ _ IHE1 _ _ Heq); [eassumption|destruct o; discriminate].
    - (* E_pow *) refine (Hbin _ _ _ _ _ _ _ IHE1 _ _ Heq); [eassumption|discriminate].
    - (* E_un *) destruct u; discriminate.
    - (* E_simple *) match goal with H : Simple _ _ _ _ |- _ => inversion H; subst end.
      + (* S_lit *) discriminate.
      + (* S_table *) match goal with H : TableR _ _ _ _ |- _ => apply TableR_first in H; destruct H as [r1 Hr1] end. discriminate.
      + (* S_func *) discriminate.
      + (* S_suffixed *) match goal with H : Primary _ _ _ _ |- _ => inversion H; subst end.
        * (* a name: the suffixes do not begin with '=' *) match goal with H : Suf _ _ _ _ _ |- _ => eapply (Suf_not_assign _ _ _ _ H) end.
          cbn in *. match goal with H : TName :: _ = TName :: TAssign :: _ |- _ => inversion H; reflexivity end.
        * discriminate.
  Qed.
End Second.

Lemma hd_is_hit : forall t r, hd_is t (t :: r) = true.
Proof. intros t r. cbn. destruct t; reflexivity. Qed.
Lemma hd_is_cons : forall t x r, hd_is t (x :: r) = tok_beq x t.
Proof. reflexivity. Qed.
Lemma tok_beq_neq : forall x t, x <> t -> tok_beq x t = false.
Proof.
  intros x t H. destruct (tok_beq x t) eqn:E; [|reflexivity]. apply internal_tok_dec_bl in E. contradiction.
Qed.

Section Complete.
  Variable binop_of : tok -> option binop.
  Variable unop_of : tok -> option unop.
  Variable bl br : binop -> nat.
  Variable up : nat.
  Variable FT : features.
  Variable MAXLVL : nat.
  Hypothesis Htab : table_ok binop_of unop_of bl br up = true.

  Local Notation sub_expr := (Model.sub_expr binop_of unop_of bl br up FT MAXLVL).
  Local Notation binop_loop := (Model.binop_loop binop_of unop_of bl br up FT MAXLVL).
  Local Notation simple_expr := (Model.simple_expr binop_of unop_of bl br up FT MAXLVL).
  Local Notation closure_expr := (Model.closure_expr binop_of unop_of bl br up FT MAXLVL).
  Local Notation table_expr := (Model.table_expr binop_of unop_of bl br up FT MAXLVL).
  Local Notation table_fields := (Model.table_fields binop_of unop_of bl br up FT MAXLVL).
  Local Notation field := (Model.field binop_of unop_of bl br up FT MAXLVL).
  Local Notation suffixed_expr := (Model.suffixed_expr binop_of unop_of bl br up FT MAXLVL).
  Local Notation suffix_loop := (Model.suffix_loop binop_of unop_of bl br up FT MAXLVL).
  Local Notation args := (Model.args binop_of unop_of bl br up FT MAXLVL).
  Local Notation expr_list_tail := (Model.expr_list_tail binop_of unop_of bl br up FT MAXLVL).
  Local Notation block := (Model.block binop_of unop_of bl br up FT MAXLVL).
  Local Notation stats := (Model.stats binop_of unop_of bl br up FT MAXLVL).
  Local Notation stat := (Model.stat binop_of unop_of bl br up FT MAXLVL).
  Local Notation if_tail := (Model.if_tail binop_of unop_of bl br up FT MAXLVL).
  Local Notation for_body := (Model.for_body binop_of unop_of bl br up FT MAXLVL).
  Local Notation assign_targets := (Model.assign_targets binop_of unop_of bl br up FT MAXLVL).
  Local Notation accepts := (Facts.accepts bl).

  (** The parser's equations: one step of each function, per leading token where the function
      dispatches on it.  The mutual fixpoint is never unfolded in a proof below: its body is large,
      [cbn] leaves the calls of the sibling functions as anonymous fixpoints, and every such call
      has to be compared with its name again when the proof is checked. *)
  Lemma sub_expr_S : forall f lvl lim t r,
    sub_expr (S f) lvl lim (t :: r) =
    if MAXLVL <=? lvl then Err
    else match unop_of t with
         | Some u => if unop_in FT u
                     then bind (sub_expr f (S lvl) up r) (fun e r' => binop_loop f (S lvl) lim (N KUnary [L t; e]) r')
                     else Err
         | None => bind (simple_expr f (S lvl) (t :: r)) (fun e r' => binop_loop f (S lvl) lim e r')
         end.
  Proof. reflexivity. Qed.

  Lemma binop_loop_S : forall f lvl lim cm t r,
    binop_loop (S f) lvl lim cm (t :: r) =
    match binop_of t with
    | None => Ok cm (t :: r)
    | Some b => if bl b <=? lim then Ok cm (t :: r)
                else if binop_in FT b
                     then bind (sub_expr f lvl (br b) r) (fun e r' => binop_loop f lvl lim (N KBinary [cm; L t; e]) r')
                     else Err
    end.
  Proof. reflexivity. Qed.

  Lemma simple_expr_S_lit : forall f lvl t r, is_literal_tok t = true ->
    simple_expr (S f) lvl (t :: r) = Ok (N KLiteral [L t]) r.
  Proof. intros f lvl t r H. destruct t; try discriminate; reflexivity. Qed.

  Lemma simple_expr_S_table : forall f lvl r, simple_expr (S f) lvl (TLBrace :: r) = table_expr f lvl (TLBrace :: r).
  Proof. reflexivity. Qed.

  Lemma simple_expr_S_function : forall f lvl r, simple_expr (S f) lvl (TFunction :: r) = closure_expr f lvl (TFunction :: r).
  Proof. reflexivity. Qed.

  Lemma simple_expr_S_suffixed : forall f lvl x r, x = TName \/ x = TLParen ->
    simple_expr (S f) lvl (x :: r) = suffixed_expr f lvl (x :: r).
  Proof. intros f lvl x r [-> | ->]; reflexivity. Qed.

  Lemma closure_expr_S : forall f lvl ts,
    closure_expr (S f) lvl ts =
    let '(pre, ts1) := match ts with TFunction :: r => ([L TFunction], r) | _ => ([], ts) end in
    bind (param_list ts1)
         (fun pl r1 =>
            if hd_is TEnd r1 then Ok (N KClosure (pre ++ [pl; L TEnd])) (tl r1)
            else bind (block f lvl r1)
                      (fun b r2 => match r2 with
                                   | TEnd :: r3 => Ok (N KClosure (pre ++ pl :: b ++ [L TEnd])) r3
                                   | _ => Err
                                   end)).
  Proof. reflexivity. Qed.

  Lemma table_expr_S : forall f lvl r,
    table_expr (S f) lvl (TLBrace :: r) =
    if hd_is TRBrace r then Ok (N KTable [L TLBrace; L TRBrace]) (tl r)
    else bind (field f lvl r)
              (fun fd r1 => bind (table_fields f lvl [fd] r1)
                                 (fun fs r2 => match r2 with
                                               | TRBrace :: r3 => Ok (N KTable (L TLBrace :: fs ++ [L TRBrace])) r3
                                               | _ => Err
                                               end)).
  Proof. reflexivity. Qed.

  Lemma table_fields_S_sep : forall f lvl acc sep r, sep = TComma \/ sep = TSemi ->
    table_fields (S f) lvl acc (sep :: r) =
    if hd_is TRBrace r then Ok (acc ++ [L sep]) r
    else bind (field f lvl r) (fun fd r1 => table_fields f lvl (acc ++ [L sep; fd]) r1).
  Proof. intros f lvl acc sep r [-> | ->]; reflexivity. Qed.

  Lemma table_fields_S_end : forall f lvl acc r, table_fields (S f) lvl acc (TRBrace :: r) = Ok acc (TRBrace :: r).
  Proof. reflexivity. Qed.

  Lemma field_S_index : forall f lvl r,
    field (S f) lvl (TLBracket :: r) =
    bind (sub_expr f lvl 0 r)
         (fun k r1 => match r1 with
                      | TRBracket :: TAssign :: r2 =>
                          bind (sub_expr f lvl 0 r2)
                               (fun v r3 => Ok (N KFieldAssign [L TLBracket; k; L TRBracket; L TAssign; v]) r3)
                      | _ => Err
                      end).
  Proof. reflexivity. Qed.

  Lemma field_S_name : forall f lvl r,
    field (S f) lvl (TName :: r) =
    if hd_is TAssign r
    then bind (sub_expr f lvl 0 (tl r)) (fun v r1 => Ok (N KFieldAssign [L TName; L TAssign; v]) r1)
    else bind (sub_expr f lvl 0 (TName :: r)) (fun v r1 => Ok (N KFieldValue [v]) r1).
  Proof. reflexivity. Qed.

  Lemma field_S_pos : forall f lvl x r, expr_start x = true -> x <> TName ->
    field (S f) lvl (x :: r) = bind (sub_expr f lvl 0 (x :: r)) (fun v r1 => Ok (N KFieldValue [v]) r1).
  Proof. intros f lvl x r Hx Hn. destruct x; try discriminate; try reflexivity. contradiction. Qed.

  Lemma suffixed_expr_S_name : forall f lvl r,
    suffixed_expr (S f) lvl (TName :: r) = suffix_loop f lvl (N KName [L TName]) r.
  Proof. reflexivity. Qed.

  Lemma suffixed_expr_S_paren : forall f lvl r,
    suffixed_expr (S f) lvl (TLParen :: r) =
    bind (sub_expr f lvl 0 r)
         (fun e r1 => match r1 with
                      | TRParen :: r2 => suffix_loop f lvl (N KParen [L TLParen; e; L TRParen]) r2
                      | _ => Err
                      end).
  Proof. reflexivity. Qed.

  Lemma suffix_loop_S_field : forall f lvl cm r,
    suffix_loop (S f) lvl cm (TDot :: TName :: r) = suffix_loop f lvl (N KIndex [cm; L TDot; L TName]) r.
  Proof. reflexivity. Qed.

  Lemma suffix_loop_S_index : forall f lvl cm r,
    suffix_loop (S f) lvl cm (TLBracket :: r) =
    bind (sub_expr f lvl 0 r)
         (fun e r1 => match r1 with
                      | TRBracket :: r2 => suffix_loop f lvl (N KIndex [cm; L TLBracket; e; L TRBracket]) r2
                      | _ => Err
                      end).
  Proof. reflexivity. Qed.

  Lemma suffix_loop_S_method : forall f lvl cm x r, is_args_start x = true ->
    suffix_loop (S f) lvl cm (TColon :: TName :: x :: r) = suffix_loop f lvl (N KIndex [cm; L TColon; L TName]) (x :: r).
  Proof. intros f lvl cm x r Hx. destruct x; try discriminate; reflexivity. Qed.

  Lemma suffix_loop_S_call : forall f lvl cm x r, is_args_start x = true ->
    suffix_loop (S f) lvl cm (x :: r) = bind (args f lvl (x :: r)) (fun a r1 => suffix_loop f lvl (N KCall [cm; a]) r1).
  Proof. intros f lvl cm x r Hx. destruct x; try discriminate; reflexivity. Qed.

  Lemma suffix_loop_S_stop : forall f lvl cm rest, nosuffixb rest = true -> suffix_loop (S f) lvl cm rest = Ok cm rest.
  Proof. intros f lvl cm [|x r] H; [reflexivity|]. destruct x; try discriminate; reflexivity. Qed.

  Lemma args_S_paren : forall f lvl r,
    args (S f) lvl (TLParen :: r) =
    if hd_is TRParen r then Ok (N KArgs [L TLParen; L TRParen]) (tl r)
    else bind (sub_expr f lvl 0 r)
              (fun e r1 => bind (expr_list_tail f lvl [e] r1)
                                (fun es r2 => match r2 with
                                              | TRParen :: r3 => Ok (N KArgs (L TLParen :: es ++ [L TRParen])) r3
                                              | _ => Err
                                              end)).
  Proof. reflexivity. Qed.

  Lemma args_S_table : forall f lvl r,
    args (S f) lvl (TLBrace :: r) = bind (table_expr f lvl (TLBrace :: r)) (fun t r1 => Ok (N KArgs [t]) r1).
  Proof. reflexivity. Qed.

  Lemma args_S_string : forall f lvl s r, s = TString \/ s = TLongString ->
    args (S f) lvl (s :: r) = Ok (N KArgs [N KLiteral [L s]]) r.
  Proof. intros f lvl s r [-> | ->]; reflexivity. Qed.

  Lemma expr_list_tail_S : forall f lvl acc ts,
    expr_list_tail (S f) lvl acc ts =
    if hd_is TComma ts
    then bind (sub_expr f lvl 0 (tl ts)) (fun e r1 => expr_list_tail f lvl (acc ++ [L TComma; e]) r1)
    else Ok acc ts.
  Proof. reflexivity. Qed.

  Lemma block_S : forall f lvl ts,
    block (S f) lvl ts = bind (stats f lvl [] ts) (fun ss r => Ok (match ss with [] => [] | _ => [N KBlock ss] end) r).
  Proof. reflexivity. Qed.

  Lemma stats_S : forall f lvl acc ts,
    stats (S f) lvl acc ts = if block_follow ts then Ok acc ts else bind (stat f lvl ts) (fun s r => stats f lvl (acc ++ [s]) r).
  Proof. reflexivity. Qed.

  Lemma stat_S_semi : forall f lvl r,
    stat (S f) lvl (TSemi :: r) = if MAXLVL <=? lvl then Err else Ok (N KEmpty [L TSemi]) r.
  Proof. reflexivity. Qed.

  Lemma stat_S_break : forall f lvl r,
    stat (S f) lvl (TBreak :: r) =
    if MAXLVL <=? lvl then Err else let '(sm, r1) := opt_semi r in Ok (N KBreak (L TBreak :: sm)) r1.
  Proof. reflexivity. Qed.

  Lemma stat_S_goto : forall f lvl r,
    stat (S f) lvl (TGoto :: TName :: r) =
    if MAXLVL <=? lvl then Err else let '(sm, r2) := opt_semi r in Ok (N KGoto (L TGoto :: L TName :: sm)) r2.
  Proof. reflexivity. Qed.

  Lemma stat_S_label : forall f lvl r,
    stat (S f) lvl (TDbColon :: TName :: TDbColon :: r) =
    if MAXLVL <=? lvl then Err else Ok (N KLabel [L TDbColon; L TName; L TDbColon]) r.
  Proof. reflexivity. Qed.

  Lemma stat_S_do : forall f lvl r,
    stat (S f) lvl (TDo :: r) =
    if MAXLVL <=? lvl then Err
    else bind (block f (S lvl) r)
              (fun b r1 => match r1 with
                           | TEnd :: r2 => let '(sm, r3) := opt_semi r2 in Ok (N KDo (L TDo :: b ++ L TEnd :: sm)) r3
                           | _ => Err
                           end).
  Proof. reflexivity. Qed.

  Lemma stat_S_while : forall f lvl r,
    stat (S f) lvl (TWhile :: r) =
    if MAXLVL <=? lvl then Err
    else bind (sub_expr f (S lvl) 0 r)
              (fun c r1 =>
                 match r1 with
                 | TDo :: r2 =>
                     bind (if at_end r2 then Ok [] r2 else block f (S lvl) r2)
                          (fun b r3 => match r3 with
                                       | TEnd :: r4 => let '(sm, r5) := opt_semi r4 in
                                                       Ok (N KWhile (L TWhile :: c :: L TDo :: b ++ L TEnd :: sm)) r5
                                       | _ => Err
                                       end)
                 | _ => Err
                 end).
  Proof. reflexivity. Qed.

  Lemma stat_S_repeat : forall f lvl r,
    stat (S f) lvl (TRepeat :: r) =
    if MAXLVL <=? lvl then Err
    else bind (block f (S lvl) r)
              (fun b r1 => match r1 with
                           | TUntil :: r2 =>
                               bind (sub_expr f (S lvl) 0 r2)
                                    (fun c r3 => let '(sm, r4) := opt_semi r3 in
                                                 Ok (N KRepeat (L TRepeat :: b ++ L TUntil :: c :: sm)) r4)
                           | _ => Err
                           end).
  Proof. reflexivity. Qed.

  Lemma stat_S_if : forall f lvl r,
    stat (S f) lvl (TIf :: r) =
    if MAXLVL <=? lvl then Err
    else bind (sub_expr f (S lvl) 0 r)
              (fun c r1 =>
                 match r1 with
                 | TThen :: r2 =>
                     bind (if block_follow r2 then Ok [] r2 else block f (S lvl) r2)
                          (fun b r3 =>
                             bind (if_tail f (S lvl) (L TIf :: c :: L TThen :: b) r3)
                                  (fun cs r4 => match r4 with
                                                | TEnd :: r5 => let '(sm, r6) := opt_semi r5 in
                                                                Ok (N KIf (cs ++ L TEnd :: sm)) r6
                                                | _ => Err
                                                end))
                 | _ => Err
                 end).
  Proof. reflexivity. Qed.

  Lemma stat_S_fornum : forall f lvl r1,
    stat (S f) lvl (TFor :: TName :: TAssign :: r1) =
    if MAXLVL <=? lvl then Err
    else bind (sub_expr f (S lvl) 0 r1)
              (fun e1 r2 =>
                 match r2 with
                 | TComma :: r3 =>
                     bind (sub_expr f (S lvl) 0 r3)
                          (fun e2 r4 =>
                             bind (if hd_is TComma r4
                                   then bind (sub_expr f (S lvl) 0 (tl r4)) (fun e3 r6 => Ok [L TComma; e3] r6)
                                   else Ok [] r4)
                                  (fun step r7 =>
                                     for_body f (S lvl) KFor (L TFor :: L TName :: L TAssign :: e1 :: L TComma :: e2 :: step) r7))
                 | _ => Err
                 end).
  Proof. reflexivity. Qed.

  Lemma stat_S_forin : forall f lvl x r,
    x = TComma \/ x = TIn ->
    stat (S f) lvl (TFor :: TName :: x :: r) =
    if MAXLVL <=? lvl then Err
    else bind (for_names_tail (x :: r) [])
              (fun ns r2 =>
                 match r2 with
                 | TIn :: r3 =>
                     bind (sub_expr f (S lvl) 0 r3)
                          (fun e r4 => bind (expr_list_tail f (S lvl) [e] r4)
                                            (fun es r5 => for_body f (S lvl) KForRange (L TFor :: L TName :: ns ++ L TIn :: es) r5))
                 | _ => Err
                 end).
  Proof. intros f lvl x r [-> | ->]; reflexivity. Qed.

  Lemma stat_S_function : forall f lvl r,
    stat (S f) lvl (TFunction :: r) =
    if MAXLVL <=? lvl then Err
    else bind (func_name r)
              (fun nm r1 => bind (closure_expr f (S lvl) r1)
                                 (fun c r2 => let '(sm, r3) := opt_semi r2 in
                                              Ok (N KFunc (L TFunction :: nm :: c :: sm)) r3)).
  Proof. reflexivity. Qed.

  Lemma stat_S_localfunction : forall f lvl r1,
    stat (S f) lvl (TLocal :: TFunction :: r1) =
    if MAXLVL <=? lvl then Err
    else bind (local_name FT false r1)
              (fun nm r2 => bind (closure_expr f (S lvl) r2)
                                 (fun c r3 => let '(sm, r4) := opt_semi r3 in
                                              Ok (N KLocalFunc (L TLocal :: L TFunction :: nm :: c :: sm)) r4)).
  Proof. reflexivity. Qed.

  Lemma stat_S_local : forall f lvl r,
    stat (S f) lvl (TLocal :: TName :: r) =
    if MAXLVL <=? lvl then Err
    else bind (local_name FT true (TName :: r))
              (fun nm r1 =>
                 bind (local_names_tail FT r1 [nm])
                      (fun nms r2 =>
                         bind (if hd_is TAssign r2
                               then bind (sub_expr f (S lvl) 0 (tl r2))
                                         (fun e r4 => bind (expr_list_tail f (S lvl) [e] r4)
                                                           (fun es r5 => Ok (L TAssign :: es) r5))
                               else Ok [] r2)
                              (fun init r6 => let '(sm, r7) := opt_semi r6 in
                                              Ok (N KLocal (L TLocal :: nms ++ init ++ sm)) r7))).
  Proof. reflexivity. Qed.

  Lemma stat_S_return : forall f lvl r,
    stat (S f) lvl (TReturn :: r) =
    if MAXLVL <=? lvl then Err
    else bind (if block_follow r || hd_is TSemi r then Ok [] r
               else bind (sub_expr f (S lvl) 0 r) (fun e r1 => expr_list_tail f (S lvl) [e] r1))
              (fun es r2 => let '(sm, r3) := opt_semi r2 in
                            if block_follow r3 then Ok (N KReturn (L TReturn :: es ++ sm)) r3 else Err).
  Proof. reflexivity. Qed.

  Lemma stat_S_expr : forall f lvl x r,
    x = TName \/ x = TLParen ->
    stat (S f) lvl (x :: r) =
    if MAXLVL <=? lvl then Err
    else bind (simple_expr f (S lvl) (x :: r))
              (fun e r1 =>
                 if is_call e then let '(sm, r2) := opt_semi r1 in Ok (N KCallStat (e :: sm)) r2
                 else if is_lvalue e then
                        bind (assign_targets f (S lvl) [e] r1)
                             (fun tg r2 =>
                                match r2 with
                                | TAssign :: r3 =>
                                    bind (sub_expr f (S lvl) 0 r3)
                                         (fun v r4 => bind (expr_list_tail f (S lvl) [v] r4)
                                                           (fun vs r5 => let '(sm, r6) := opt_semi r5 in
                                                                         Ok (N KAssign (tg ++ L TAssign :: vs ++ sm)) r6))
                                | _ => Err
                                end)
                      else Err).
  Proof. intros f lvl x r [-> | ->]; reflexivity. Qed.

  Lemma if_tail_S_elseif : forall f lvl acc r,
    if_tail (S f) lvl acc (TElseIf :: r) =
    bind (sub_expr f lvl 0 r)
         (fun c r1 => match r1 with
                      | TThen :: r2 =>
                          bind (block f lvl r2)
                               (fun b r3 => if_tail f lvl (acc ++ [N KElseIf (L TElseIf :: c :: L TThen :: b)]) r3)
                      | _ => Err
                      end).
  Proof. reflexivity. Qed.

  Lemma if_tail_S_else : forall f lvl acc r,
    if_tail (S f) lvl acc (TElse :: r) = bind (block f lvl r) (fun b r1 => Ok (acc ++ [N KElse (L TElse :: b)]) r1).
  Proof. reflexivity. Qed.

  Lemma if_tail_S_end : forall f lvl acc r, if_tail (S f) lvl acc (TEnd :: r) = Ok acc (TEnd :: r).
  Proof. reflexivity. Qed.

  Lemma for_body_S : forall f lvl k acc r,
    for_body (S f) lvl k acc (TDo :: r) =
    bind (if at_end r then Ok [] r else block f lvl r)
         (fun b r1 => match r1 with
                      | TEnd :: r2 => let '(sm, r3) := opt_semi r2 in Ok (N k (acc ++ L TDo :: b ++ L TEnd :: sm)) r3
                      | _ => Err
                      end).
  Proof. reflexivity. Qed.

  Lemma assign_targets_S_comma : forall f lvl acc r,
    assign_targets (S f) lvl acc (TComma :: r) =
    bind (simple_expr f lvl r) (fun e r1 => if is_lvalue e then assign_targets f lvl (acc ++ [L TComma; e]) r1 else Err).
  Proof. reflexivity. Qed.

  Lemma assign_targets_S_assign : forall f lvl acc r, assign_targets (S f) lvl acc (TAssign :: r) = Ok acc (TAssign :: r).
  Proof. reflexivity. Qed.

  (** the guard of enter_level *)
  Lemma lvl_ok : forall lvl, lvl < MAXLVL -> (MAXLVL <=? lvl) = false.
  Proof. intros. apply Nat.leb_gt. assumption. Qed.

  (** The induction predicates, one per relation of the grammar.  PE and PP are in continuation form,
      because the loop that follows (operators, suffixes) goes on from the derived tree; all others say
      that the function returns the derived tree and the rest.  PFT, PVT, PIT and PFS fix the token that
      ends the list ('}', '=', 'end', 'do'); PSB is PSt before the level of the statement is counted. *)
  Definition PE (m d : nat) (ts : list tok) (t : tree) : Prop :=
    forall lvl lim rest (X : res tree),
      accepts lim m -> followb m rest = true -> nosuffixb rest = true -> lvl + d <= MAXLVL ->
      ev (fun f => binop_loop f (S lvl) lim t rest) X ->
      ev (fun f => sub_expr f lvl lim (ts ++ rest)) X.

  Definition PS (d : nat) (ts : list tok) (t : tree) : Prop :=
    forall lvl rest, nosuffixb rest = true -> lvl + d <= MAXLVL ->
      ev (fun f => simple_expr f lvl (ts ++ rest)) (Ok t rest).

  Definition PP (d : nat) (ts : list tok) (p : tree) : Prop :=
    forall lvl rest (X : res tree), lvl + d <= MAXLVL ->
      ev (fun f => suffix_loop f lvl p rest) X ->
      ev (fun f => suffixed_expr f lvl (ts ++ rest)) X.

  Definition PSuf (d : nat) (cm : tree) (ts : list tok) (t : tree) : Prop :=
    forall lvl rest, nosuffixb rest = true -> lvl + d <= MAXLVL ->
      ev (fun f => suffix_loop f lvl cm (ts ++ rest)) (Ok t rest).

  Definition PA (d : nat) (ts : list tok) (t : tree) : Prop :=
    forall lvl rest, lvl + d <= MAXLVL -> ev (fun f => args f lvl (ts ++ rest)) (Ok t rest).

  Definition exprendb (ts : list tok) : bool :=
    nosuffixb ts && nobinopb ts && match ts with TComma :: _ => false | _ => true end.

  Definition PET (d : nat) (ts : list tok) (trs : list tree) : Prop :=
    forall lvl acc rest, exprendb rest = true -> lvl + d <= MAXLVL ->
      ev (fun f => expr_list_tail f lvl acc (ts ++ rest)) (Ok (acc ++ trs) rest).

  Definition PT (d : nat) (ts : list tok) (t : tree) : Prop :=
    forall lvl rest, lvl + d <= MAXLVL -> ev (fun f => table_expr f lvl (ts ++ rest)) (Ok t rest).

  Definition PFT (d : nat) (ts : list tok) (trs : list tree) : Prop :=
    forall lvl acc rest, lvl + d <= MAXLVL ->
      ev (fun f => table_fields f lvl acc (ts ++ TRBrace :: rest)) (Ok (acc ++ trs) (TRBrace :: rest)).

  Definition fieldendb (ts : list tok) : bool :=
    match ts with (TComma | TSemi | TRBrace) :: _ => true | _ => false end.

  Definition PF (d : nat) (ts : list tok) (t : tree) : Prop :=
    forall lvl rest, fieldendb rest = true -> lvl + d <= MAXLVL ->
      ev (fun f => field f lvl (ts ++ rest)) (Ok t rest).

  Definition PB (d : nat) (ts : list tok) (trs : list tree) : Prop :=
    forall lvl rest, block_follow rest = true -> lvl + d <= MAXLVL ->
      ev (fun f => block f lvl (ts ++ rest)) (Ok trs rest).

  Definition PSR (d : nat) (ts : list tok) (trs : list tree) : Prop :=
    forall lvl acc rest, block_follow rest = true -> lvl + d <= MAXLVL ->
      ev (fun f => stats f lvl acc (ts ++ rest)) (Ok (acc ++ trs) rest).

  Definition stat_follow (k : fkind) (rest : list tok) : bool :=
    match k with FLast => block_follow rest | _ => head_ok k rest end.

  (** what follows a statement is the start of a statement or the end of the block: in particular
      it is none of  '='  ','  '<' *)
  Definition afterstatb (rest : list tok) : bool :=
    match rest with
    | [] => true
    | x :: _ => negb (tok_beq x TAssign) && negb (tok_beq x TComma) && negb (tok_beq x TLt)
    end.

  Definition PSt (d : nat) (ts : list tok) (t : tree) (k : fkind) : Prop :=
    forall lvl rest, stat_follow k rest = true -> afterstatb rest = true -> lvl + d <= MAXLVL ->
      ev (fun f => stat f lvl (ts ++ rest)) (Ok t rest).

  Definition PSB (d : nat) (ts : list tok) (t : tree) (k : fkind) : Prop :=
    forall lvl rest, stat_follow k rest = true -> afterstatb rest = true -> S lvl + d <= MAXLVL ->
      ev (fun f => stat f lvl (ts ++ rest)) (Ok t rest).

  Definition PVT (d : nat) (ts : list tok) (trs : list tree) : Prop :=
    forall lvl acc rest, lvl + d <= MAXLVL ->
      ev (fun f => assign_targets f lvl acc (ts ++ TAssign :: rest)) (Ok (acc ++ trs) (TAssign :: rest)).

  Definition PIT (d : nat) (ts : list tok) (trs : list tree) : Prop :=
    forall lvl acc rest, lvl + d <= MAXLVL ->
      ev (fun f => if_tail f lvl acc (ts ++ TEnd :: rest)) (Ok (acc ++ trs) (TEnd :: rest)).

  Definition PFS (d : nat) (ts : list tok) (trs : list tree) : Prop :=
    forall lvl rest, lvl + d <= MAXLVL ->
      ev (fun f => if hd_is TComma (ts ++ TDo :: rest)
                   then bind (sub_expr f lvl 0 (tl (ts ++ TDo :: rest))) (fun e3 r6 => Ok [L TComma; e3] r6)
                   else Ok [] (ts ++ TDo :: rest)) (Ok trs (TDo :: rest)).

  Lemma loop_stop : forall lvl lim t rest,
    match rest with [] => True | x :: _ => match man_binop_of x with Some o2 => bl o2 <= lim | None => True end end ->
    ev (fun f => binop_loop f lvl lim t rest) (Ok t rest).
  Proof.
    intros lvl lim t rest H. eapply ev_S; [|apply ev_const]. intros f.
    destruct rest as [|x r]; [reflexivity|]. rewrite binop_loop_S, (tab_binop _ _ _ _ _ Htab).
    destruct (man_binop_of x) as [o2|]; [|reflexivity].
    apply Nat.leb_le in H. rewrite H. reflexivity.
  Qed.

  Lemma pe_top : forall d ts t, PE 1 d ts t ->
    forall lvl rest, nosuffixb rest = true -> nobinopb rest = true -> lvl + d <= MAXLVL ->
    ev (fun f => sub_expr f lvl 0 (ts ++ rest)) (Ok t rest).
  Proof.
    intros d ts t H lvl rest Hs Hb Hl. apply H; try assumption.
    - apply (accepts_0 _ _ _ _ _ Htab).
    - apply followb_of_nobinop. exact Hb.
    - apply loop_stop. destruct rest as [|x r]; [exact I|]. cbn [nobinopb] in Hb. unfold is_binop_tok in Hb.
      destruct (man_binop_of x); [discriminate|exact I].
  Qed.

  Lemma case_E_up : forall m d ts t, m < 13 -> E FT (S m) d ts t -> PE (S m) d ts t -> PE m d ts t.
  Proof.
    intros m d ts t _ _ IH lvl lim rest X Ha Hf Hs Hl HX. apply IH; try assumption.
    - apply accepts_mono. exact Ha.
    - apply followb_mono. exact Hf.
  Qed.

  Lemma loop_step : forall lvl lim cm o tr rest r (X : res tree),
    lim < bl o -> binop_in FT o = true ->
    ev (fun f => sub_expr f lvl (br o) (tr ++ rest)) (Ok r rest) ->
    ev (fun f => binop_loop f lvl lim (N KBinary [cm; L (binop_tok o); r]) rest) X ->
    ev (fun f => binop_loop f lvl lim cm (binop_tok o :: tr ++ rest)) X.
  Proof.
    intros lvl lim cm o tr rest r X Hlim Hin H1 H2. apply Nat.leb_gt in Hlim.
    eapply ev_S.
    - intros f. rewrite binop_loop_S, (tab_binop _ _ _ _ _ Htab), man_binop_of_tok, Hlim, Hin. reflexivity.
    - eapply ev_bind; [exact H1|exact H2].
  Qed.

  (** a binary operator [o] of level [m] whose left operand is derived at level [ml] and whose right
      operand at level [mr]: left associative (ml = m, mr = m + 1), right associative (ml = m + 1,
      mr = m), and '^', whose right operand is a unary expression (m = 12, ml = 13, mr = 11) *)
  Lemma case_E_bin : forall m ml mr d d' o tl l tr r,
    man_level o = m -> binop_in FT o = true -> m <= ml ->
    followb ml [binop_tok o] = true -> accepts (br o) mr ->
    (forall rest, followb m rest = true -> followb mr rest = true) ->
    PE ml d tl l -> PE mr d' tr r -> S d' <= d ->
    PE m d (tl ++ binop_tok o :: tr) (N KBinary [l; L (binop_tok o); r]).
  Proof.
    intros m ml mr d d' o tl l tr r Hm Hin Hml Hfo Hacc Hfr IHl IHr Hd lvl lim rest X Ha Hf Hs Hl HX.
    norm_app. apply IHl; try assumption.
    - intros a Hle. apply Ha. lia.
    - cbn [nosuffixb]. rewrite binop_tok_not_suffix. reflexivity.
    - apply loop_step with (r := r); try assumption.
      + apply Ha. lia.
      + apply IHr; try assumption.
        * apply Hfr. exact Hf.
        * lia.
        * apply loop_stop. destruct rest as [|x rr]; [exact I|].
          apply (not_absorbed _ _ _ _ _ Htab o m x rr Hm Hf).
  Qed.

  Lemma case_E_binl : forall m d d' o tl l tr r,
    man_level o = m -> man_rassoc o = false -> binop_in FT o = true ->
    E FT m d tl l -> PE m d tl l -> E FT (S m) d' tr r -> PE (S m) d' tr r -> S d' <= d ->
    PE m d (tl ++ binop_tok o :: tr) (N KBinary [l; L (binop_tok o); r]).
  Proof.
    intros m d d' o tl l tr r Hm Hr Hin _ IHl _ IHr Hd.
    apply (case_E_bin m m (S m) d d'); try assumption.
    - apply Nat.le_refl.
    - cbn [followb]. rewrite man_binop_of_tok, Hm, Nat.eqb_refl, Hr. apply orb_true_r.
    - rewrite <- Hm. apply (accepts_right_left _ _ _ _ _ Htab).
    - apply followb_mono.
  Qed.

  Lemma case_E_binr : forall m d d' o tl l tr r,
    man_level o = m -> man_rassoc o = true -> m <> 12 ->
    E FT (S m) d tl l -> PE (S m) d tl l -> E FT m d' tr r -> PE m d' tr r -> S d' <= d ->
    PE m d (tl ++ binop_tok o :: tr) (N KBinary [l; L (binop_tok o); r]).
  Proof.
    intros m d d' o tl l tr r Hm Hr _ _ IHl _ IHr Hd.
    apply (case_E_bin m (S m) m d d'); try assumption.
    - destruct o; try discriminate; reflexivity.
    - apply Nat.le_succ_diag_r.
    - cbn [followb]. rewrite man_binop_of_tok. apply orb_true_iff. left. apply Nat.ltb_lt. lia.
    - rewrite <- Hm. apply (accepts_right_right _ _ _ _ _ Htab). exact Hr.
    - intros rest H. exact H.
  Qed.

  Lemma case_E_pow : forall d d' tl l tr r,
    E FT 13 d tl l -> PE 13 d tl l -> E FT 11 d' tr r -> PE 11 d' tr r -> S d' <= d ->
    PE 12 d (tl ++ TPow :: tr) (N KBinary [l; L TPow; r]).
  Proof.
    intros d d' tl l tr r _ IHl _ IHr Hd.
    apply (case_E_bin 12 13 11 d d' OpPow); try assumption; try reflexivity.
    - apply Nat.le_succ_diag_r.
    - apply (accepts_pow_right _ _ _ _ _ Htab).
    - exact followb_pow.
  Qed.

  Lemma case_E_un : forall d d' u ts t,
    unop_in FT u = true -> E FT 11 d' ts t -> PE 11 d' ts t -> S d' <= d ->
    PE 11 d (unop_tok u :: ts) (N KUnary [L (unop_tok u); t]).
  Proof.
    intros d d' u ts t Hin _ IH Hd lvl lim rest X Ha Hf Hs Hl HX. cbn [app].
    eapply ev_S.
    - intros f. rewrite sub_expr_S, lvl_ok, (tab_unop _ _ _ _ _ Htab), man_unop_of_tok, Hin by lia. reflexivity.
    - eapply ev_bind; [|exact HX]. apply IH; try assumption.
      + apply (accepts_unary _ _ _ _ _ Htab).
      + lia.
      + apply loop_stop. destruct rest as [|x rr]; [exact I|].
        apply (not_absorbed_unary _ _ _ _ _ Htab x rr Hf).
  Qed.

  Lemma case_E_simple : forall d d' ts t, Simple FT d' ts t -> PS d' ts t -> S d' <= d -> PE 13 d ts t.
  Proof.
    intros d d' ts t Hs IH Hd lvl lim rest X Ha Hf Hns Hl HX.
    destruct (Simple_first _ _ _ _ Hs) as (x & r0 & -> & Hx). cbn [app].
    eapply ev_S.
    - intros f. rewrite sub_expr_S, lvl_ok, (tab_unop _ _ _ _ _ Htab), (simple_start_not_unop x Hx) by lia. reflexivity.
    - eapply ev_bind; [apply (IH (S lvl) rest Hns); lia|exact HX].
  Qed.

  Lemma ParNames_first : forall ts trs, ParNames ts trs -> exists x r, ts = x :: r /\ (x = TName \/ x = TDots).
  Proof. intros ts trs H. inversion H; subst; do 2 eexists; (split; [reflexivity|tauto]). Qed.

  Lemma param_names_cons : forall x r acc, x = TName \/ x = TDots ->
    param_names (TName :: TComma :: x :: r) acc = param_names (x :: r) (acc ++ [N KParamName [L TName]; L TComma]).
  Proof. intros x r acc [-> | ->]; reflexivity. Qed.

  Lemma param_names_ok : forall ts trs, ParNames ts trs ->
    forall acc rest, param_names (ts ++ TRParen :: rest) acc = Ok (acc ++ trs) (TRParen :: rest).
  Proof.
    induction 1; intros acc rest.
    - reflexivity.
    - reflexivity.
    - destruct (ParNames_first _ _ H) as (x & r & Heq & Hx).
      change ((TName :: TComma :: ts) ++ TRParen :: rest) with (TName :: TComma :: (ts ++ TRParen :: rest)).
      specialize (IHParNames (acc ++ [N KParamName [L TName]; L TComma]) rest).
      rewrite Heq in *. change ((x :: r) ++ TRParen :: rest) with (x :: (r ++ TRParen :: rest)) in *.
      rewrite (param_names_cons x _ acc Hx). rewrite IHParNames. rewrite <- app_assoc. reflexivity.
  Qed.

  Lemma param_list_unfold : forall x r, x = TName \/ x = TDots ->
    param_list (TLParen :: x :: r) =
    bind (param_names (x :: r) [])
         (fun ps r2 => match r2 with
                       | TRParen :: r3 => Ok (N KParamList (L TLParen :: ps ++ [L TRParen])) r3
                       | _ => Err
                       end).
  Proof. intros x r [-> | ->]; reflexivity. Qed.

  Lemma param_list_ok : forall tp p, ParList tp p -> forall rest, param_list (tp ++ rest) = Ok p rest.
  Proof.
    intros tp p H rest. inversion H; subst.
    - reflexivity.
    - destruct (ParNames_first _ _ H0) as (x & r & Heq & Hx).
      pose proof (param_names_ok _ _ H0 [] rest) as Hp.
      rewrite Heq in *. norm_app. cbn [app] in Hp.
      rewrite (param_list_unfold x _ Hx). rewrite Hp. reflexivity.
  Qed.

  Lemma ParList_first : forall tp p, ParList tp p -> exists r, tp = TLParen :: r.
  Proof. intros tp p H. inversion H; subst; eexists; reflexivity. Qed.

  Lemma func_name_dots_ok : forall cm ts t, FuncNameDots cm ts t ->
    forall rest, match rest with TDot :: _ => False | _ => True end ->
    func_name_dots (ts ++ rest) cm = Ok t rest.
  Proof.
    induction 1; intros rest Hr.
    - cbn [app]. destruct rest as [|x r]; [reflexivity|]. destruct x; try reflexivity. destruct Hr.
    - cbn [app func_name_dots]. apply IHFuncNameDots. exact Hr.
  Qed.

  Lemma func_name_ok : forall tn n, FuncName tn n -> forall rest, func_name (tn ++ TLParen :: rest) = Ok n (TLParen :: rest).
  Proof.
    intros tn n H rest. inversion H; subst.
    - cbn [app func_name]. rewrite (func_name_dots_ok _ _ _ H0) by exact I. reflexivity.
    - cbn [app func_name]. norm_app. rewrite (func_name_dots_ok _ _ _ H0) by exact I. reflexivity.
  Qed.

  Definition nameendb (ts : list tok) : bool := match ts with (TComma | TLt) :: _ => false | _ => true end.

  Lemma local_name_ok : forall tn n, AttName FT tn n -> forall rest, hd_is TLt rest = false ->
    local_name FT true (tn ++ rest) = Ok n rest.
  Proof.
    intros tn n H rest Hr. inversion H; subst.
    - cbn [app local_name]. destruct rest as [|x r]; [reflexivity|]. destruct x; try reflexivity; discriminate.
    - cbn [app local_name]. rewrite H0. reflexivity.
  Qed.

  (** so the name before this tail is taken without attribute *)
  Lemma names_tail_not_lt : forall ts trs rest, AttNamesTail FT ts trs -> nameendb rest = true ->
    hd_is TLt (ts ++ rest) = false.
  Proof.
    intros ts trs rest H Hr. inversion H; subst; [|reflexivity].
    destruct rest as [|x r]; [reflexivity|]. destruct x; try reflexivity; discriminate.
  Qed.

  Lemma local_names_tail_ok : forall ts trs, AttNamesTail FT ts trs -> forall acc rest, nameendb rest = true ->
    local_names_tail FT (ts ++ rest) acc = Ok (acc ++ trs) rest.
  Proof.
    induction 1 as [|tn n ts trs Hn Ht IH]; intros acc rest Hr.
    - cbn [app]. rewrite app_nil_r. destruct rest as [|x r]; [reflexivity|]. destruct x; try reflexivity; discriminate.
    - pose proof (names_tail_not_lt _ _ _ Ht Hr) as Hlt.
      inversion Hn; subst; cbn [app local_names_tail]; rewrite IH by exact Hr.
      + revert Hlt. destruct (ts ++ rest) as [|x r]; [|destruct x]; intros Hlt; try discriminate;
          rewrite <- app_assoc; reflexivity.
      + rewrite H, <- app_assoc. reflexivity.
  Qed.

  Lemma for_names_tail_ok : forall ts trs, NamesTail ts trs -> forall acc rest,
    for_names_tail (ts ++ TIn :: rest) acc = Ok (acc ++ trs) (TIn :: rest).
  Proof.
    induction 1; intros acc rest.
    - cbn [app]. rewrite app_nil_r. reflexivity.
    - cbn [app for_names_tail]. rewrite IHNamesTail. rewrite <- app_assoc. reflexivity.
  Qed.

  Lemma case_S_lit : forall d t, is_literal_tok t = true -> PS d [t] (N KLiteral [L t]).
  Proof.
    intros d t Ht lvl rest _ _. eapply ev_S; [|apply ev_const]. intros f. apply simple_expr_S_lit. exact Ht.
  Qed.

  Lemma case_S_table : forall d ts t, TableR FT d ts t -> PT d ts t -> PS d ts t.
  Proof.
    intros d ts t H IH lvl rest _ Hl. destruct (TableR_first _ _ _ _ H) as [r ->].
    eapply ev_S; [intros f; apply simple_expr_S_table|]. apply (IH lvl rest Hl).
  Qed.

  Lemma StatB_first : forall d ts t k, StatB FT d ts t k ->
    exists x r, ts = x :: r /\ block_follow [x] = false /\ x <> TAssign /\ x <> TComma /\ x <> TLt.
  Proof.
    assert (Hv : forall d ts t rest, Simple FT d ts t -> is_lvalue_tree t = true \/ is_call_tree t = true ->
                 exists x r, ts ++ rest = x :: r /\ block_follow [x] = false /\ x <> TAssign /\ x <> TComma /\ x <> TLt).
    { intros d ts t rest H Hk. destruct (Simple_suffixed_first _ _ _ _ H Hk) as (x & r & -> & Hx).
      do 2 eexists. split; [reflexivity|].
      destruct Hx as [-> | ->]; (split; [reflexivity|]; split; [discriminate|]; split; discriminate). }
    intros d ts t k H. inversion H; subst;
      try (do 2 eexists; split; [reflexivity|]; split; [reflexivity|]; split; [discriminate|]; split; discriminate).
    - eapply Hv; [eassumption|left; assumption].
    - eapply Hv; [eassumption|right; assumption].
  Qed.

  Lemma BlockR_cases : forall d tb b, BlockR FT d tb b ->
    (tb = [] /\ b = []) \/ (exists x r, tb = x :: r /\ block_follow [x] = false /\ x <> TAssign /\ x <> TComma /\ x <> TLt).
  Proof.
    intros d tb b H. inversion H; subst; [left; split; reflexivity|right].
    match goal with H : StatsR _ _ _ _ |- _ => inversion H; subst end.
    match goal with H : Stat _ _ _ _ _ |- _ => inversion H; subst end.
    match goal with H : StatB _ _ _ _ _ |- _ => destruct (StatB_first _ _ _ _ H) as (x & r & -> & Hx) end.
    do 2 eexists. split; [reflexivity|exact Hx].
  Qed.

  Lemma block_follow_not_end : forall x, block_follow [x] = false -> tok_beq x TEnd = false.
  Proof. destruct x; cbn; intros H; try reflexivity; discriminate. Qed.

  (** parse_closure_expr on  ['function'] parlist block 'end' *)
  Lemma ev_closure : forall d tp p tb b (fn : bool), ParList tp p -> BlockR FT d tb b -> PB d tb b ->
    forall lvl rest, lvl + d <= MAXLVL ->
    ev (fun f => closure_expr f lvl ((if fn then [TFunction] else []) ++ tp ++ tb ++ TEnd :: rest))
       (Ok (N KClosure ((if fn then [L TFunction] else []) ++ p :: b ++ [L TEnd])) rest).
  Proof.
    intros d tp p tb b fn Hp Hb IH lvl rest Hl.
    eapply ev_S with (h := fun f =>
       if hd_is TEnd (tb ++ TEnd :: rest)
       then Ok (N KClosure ((if fn then [L TFunction] else []) ++ [p; L TEnd])) (tl (tb ++ TEnd :: rest))
       else bind (block f lvl (tb ++ TEnd :: rest))
                 (fun b0 r2 => match r2 with
                               | TEnd :: r3 => Ok (N KClosure ((if fn then [L TFunction] else []) ++ p :: b0 ++ [L TEnd])) r3
                               | _ => Err
                               end)).
    - intros f. pose proof (param_list_ok _ _ Hp (tb ++ TEnd :: rest)) as Hpl. rewrite closure_expr_S.
      destruct (ParList_first _ _ Hp) as [rp ->]. destruct fn; cbn [app] in *; rewrite Hpl; reflexivity.
    - destruct (BlockR_cases _ _ _ Hb) as [[-> ->] | (x & r & -> & Hx & _)]; cbn [app].
      + rewrite hd_is_hit. apply ev_const.
      + rewrite hd_is_cons, (block_follow_not_end x Hx).
        eapply ev_bind; [apply (IH lvl (TEnd :: rest)); [reflexivity|exact Hl]|apply ev_const].
  Qed.

  Lemma case_S_func : forall d tp p tb b, ParList tp p -> BlockR FT d tb b -> PB d tb b ->
    PS d (TFunction :: tp ++ tb ++ [TEnd]) (N KClosure (L TFunction :: p :: b ++ [L TEnd])).
  Proof.
    intros d tp p tb b Hp Hb IH lvl rest _ Hl. norm_app.
    eapply ev_S; [intros f; apply simple_expr_S_function|].
    apply (ev_closure d tp p tb b true Hp Hb IH lvl rest Hl).
  Qed.

  Lemma case_S_suffixed : forall d tp p tsuf t,
    Primary FT d tp p -> PP d tp p -> Suf FT d p tsuf t -> PSuf d p tsuf t -> PS d (tp ++ tsuf) t.
  Proof.
    intros d tp p tsuf t Hp IHp _ IHs lvl rest Hns Hl. norm_app.
    destruct (Primary_first _ _ _ _ Hp) as (x & r & -> & Hx).
    eapply ev_S; [intros f; apply simple_expr_S_suffixed; exact Hx|].
    apply IHp; [exact Hl|]. apply IHs; assumption.
  Qed.

  Lemma case_P_name : forall d, PP d [TName] (N KName [L TName]).
  Proof. intros d lvl rest X _ HX. eapply ev_S; [intros f; apply suffixed_expr_S_name|exact HX]. Qed.

  Lemma case_P_paren : forall d te e, E FT 1 d te e -> PE 1 d te e ->
    PP d (TLParen :: te ++ [TRParen]) (N KParen [L TLParen; e; L TRParen]).
  Proof.
    intros d te e _ IH lvl rest X Hl HX. norm_app.
    eapply ev_S; [intros f; apply suffixed_expr_S_paren|].
    eapply ev_bind; [apply (pe_top d _ _ IH); try assumption; reflexivity|exact HX].
  Qed.

  Lemma case_Suf_nil : forall d cm, PSuf d cm [] cm.
  Proof.
    intros d cm lvl rest Hns _. eapply ev_S; [|apply ev_const]. intros f. apply suffix_loop_S_stop. exact Hns.
  Qed.

  Lemma case_Suf_field : forall d cm ts t,
    Suf FT d (N KIndex [cm; L TDot; L TName]) ts t -> PSuf d (N KIndex [cm; L TDot; L TName]) ts t ->
    PSuf d cm (TDot :: TName :: ts) t.
  Proof.
    intros d cm ts t _ IH lvl rest Hns Hl.
    eapply ev_S; [intros f; apply suffix_loop_S_field|]. apply IH; assumption.
  Qed.

  Lemma case_Suf_index : forall d cm te e ts t,
    E FT 1 d te e -> PE 1 d te e ->
    Suf FT d (N KIndex [cm; L TLBracket; e; L TRBracket]) ts t -> PSuf d (N KIndex [cm; L TLBracket; e; L TRBracket]) ts t ->
    PSuf d cm (TLBracket :: te ++ TRBracket :: ts) t.
  Proof.
    intros d cm te e ts t _ IHe _ IH lvl rest Hns Hl. norm_app.
    eapply ev_S; [intros f; apply suffix_loop_S_index|].
    eapply ev_bind; [apply (pe_top d _ _ IHe); try assumption; reflexivity|apply IH; assumption].
  Qed.

  Lemma suffix_call_step : forall d lvl cm ta a r (X : res tree),
    ArgsR FT d ta a -> PA d ta a -> lvl + d <= MAXLVL ->
    ev (fun f => suffix_loop f lvl (N KCall [cm; a]) r) X ->
    ev (fun f => suffix_loop f lvl cm (ta ++ r)) X.
  Proof.
    intros d lvl cm ta a r X Ha IHa Hl HX. destruct (ArgsR_first _ _ _ _ Ha) as (x & r0 & -> & Hx).
    eapply ev_S; [intros f; apply suffix_loop_S_call; exact Hx|].
    eapply ev_bind; [apply IHa; exact Hl|exact HX].
  Qed.

  Lemma case_Suf_method : forall d cm ta a ts t,
    ArgsR FT d ta a -> PA d ta a ->
    Suf FT d (N KCall [N KIndex [cm; L TColon; L TName]; a]) ts t -> PSuf d (N KCall [N KIndex [cm; L TColon; L TName]; a]) ts t ->
    PSuf d cm (TColon :: TName :: ta ++ ts) t.
  Proof.
    intros d cm ta a ts t Ha IHa _ IH lvl rest Hns Hl. norm_app.
    destruct (ArgsR_first _ _ _ _ Ha) as (x & r0 & -> & Hx).
    eapply ev_S; [intros f; apply suffix_loop_S_method; exact Hx|].
    apply (suffix_call_step d lvl _ _ a (ts ++ rest) _ Ha IHa Hl). apply IH; assumption.
  Qed.

  Lemma case_Suf_call : forall d cm ta a ts t,
    ArgsR FT d ta a -> PA d ta a -> Suf FT d (N KCall [cm; a]) ts t -> PSuf d (N KCall [cm; a]) ts t ->
    PSuf d cm (ta ++ ts) t.
  Proof.
    intros d cm ta a ts t Ha IHa _ IH lvl rest Hns Hl. norm_app.
    apply (suffix_call_step d lvl _ ta a (ts ++ rest) _ Ha IHa Hl). apply IH; assumption.
  Qed.

  Lemma case_A_empty : forall d, PA d [TLParen; TRParen] (N KArgs [L TLParen; L TRParen]).
  Proof. intros d lvl rest _. eapply ev_S; [|apply ev_const]. intros f. cbn [app]. rewrite args_S_paren, hd_is_hit. reflexivity. Qed.

  Lemma expr_start_not : forall x, expr_start x = true ->
    tok_beq x TRParen = false /\ tok_beq x TRBrace = false /\ tok_beq x TSemi = false /\ block_follow [x] = false.
  Proof. destruct x; cbn; intros H; try discriminate; repeat (split; [reflexivity|]); reflexivity. Qed.

  Lemma exprendb_cons : forall x r, exprendb (x :: r) = true -> tok_beq x TComma = false.
  Proof.
    intros x r H. unfold exprendb in H. apply andb_true_iff in H. destruct H as [_ H].
    destruct x; try reflexivity; discriminate.
  Qed.

  Lemma exprendb_split : forall rest, exprendb rest = true -> nosuffixb rest = true /\ nobinopb rest = true.
  Proof.
    intros rest H. unfold exprendb in H. apply andb_true_iff in H. destruct H as [H _].
    apply andb_true_iff in H. exact H.
  Qed.

  Lemma ExpTail_next : forall d ts trs rest, ExpTail FT d ts trs -> exprendb rest = true ->
    nosuffixb (ts ++ rest) = true /\ nobinopb (ts ++ rest) = true.
  Proof. intros d ts trs rest Ht Hr. inversion Ht; subst; [apply exprendb_split; exact Hr|split; reflexivity]. Qed.

  Lemma ev_explist : forall (B : Type) d te e tes es lvl rest (k : nat -> list tree -> list tok -> res B) (X : res B),
    PE 1 d te e -> ExpTail FT d tes es -> PET d tes es -> exprendb rest = true -> lvl + d <= MAXLVL ->
    ev (fun f => k f (e :: es) rest) X ->
    ev (fun f => bind (sub_expr f lvl 0 (te ++ tes ++ rest))
                      (fun e0 r1 => bind (expr_list_tail f lvl [e0] r1) (k f))) X.
  Proof.
    intros B d te e tes es lvl rest k X IHe Ht IHt Hr Hl HX.
    eapply ev_bind; [apply (pe_top d _ _ IHe); try assumption; apply (ExpTail_next _ _ _ _ Ht Hr)|].
    eapply ev_bind; [apply (IHt lvl [e] rest Hr Hl)|exact HX].
  Qed.

  Lemma case_A_list : forall d te e ts trs,
    E FT 1 d te e -> PE 1 d te e -> ExpTail FT d ts trs -> PET d ts trs ->
    PA d (TLParen :: te ++ ts ++ [TRParen]) (N KArgs (L TLParen :: e :: trs ++ [L TRParen])).
  Proof.
    intros d te e ts trs He IHe Ht IHt lvl rest Hl. norm_app.
    destruct (E_first _ _ _ _ _ He) as (x & r0 & -> & Hx).
    eapply ev_S.
    - intros f. rewrite args_S_paren. cbn [app]. rewrite hd_is_cons. destruct (expr_start_not x Hx) as (-> & _). reflexivity.
    - apply (ev_explist _ d _ e ts trs lvl (TRParen :: rest) _ _ IHe Ht IHt eq_refl Hl). apply ev_const.
  Qed.

  Lemma case_A_table : forall d ts t, TableR FT d ts t -> PT d ts t -> PA d ts (N KArgs [t]).
  Proof.
    intros d ts t H IH lvl rest Hl. destruct (TableR_first _ _ _ _ H) as [r ->].
    eapply ev_S; [intros f; apply args_S_table|].
    eapply ev_bind; [apply IH; exact Hl|apply ev_const].
  Qed.

  Lemma case_A_string : forall s, s = TString \/ s = TLongString -> forall d, PA d [s] (N KArgs [N KLiteral [L s]]).
  Proof. intros s Hs d lvl rest _. eapply ev_S; [|apply ev_const]. intros f. apply args_S_string. exact Hs. Qed.

  Lemma case_ET_nil : forall d, PET d [] [].
  Proof.
    intros d lvl acc rest Hr _. cbn [app]. rewrite app_nil_r. eapply ev_S; [|apply ev_const].
    intros f. rewrite expr_list_tail_S. destruct rest as [|x r]; [reflexivity|].
    rewrite hd_is_cons, (exprendb_cons x r Hr). reflexivity.
  Qed.

  Lemma case_ET_cons : forall d te e ts trs,
    E FT 1 d te e -> PE 1 d te e -> ExpTail FT d ts trs -> PET d ts trs ->
    PET d (TComma :: te ++ ts) (L TComma :: e :: trs).
  Proof.
    intros d te e ts trs He IHe Ht IHt lvl acc rest Hr Hl. norm_app.
    eapply ev_S; [intros f; rewrite expr_list_tail_S, hd_is_hit; reflexivity|]. cbn [tl].
    eapply ev_bind; [apply (pe_top d _ _ IHe); try assumption; apply (ExpTail_next _ _ _ _ Ht Hr)|].
    eapply ev_eq; [|apply (IHt lvl (acc ++ [L TComma; e]) rest Hr Hl)].
    rewrite <- app_assoc. reflexivity.
  Qed.

  Lemma case_T_empty : forall d, PT d [TLBrace; TRBrace] (N KTable [L TLBrace; L TRBrace]).
  Proof. intros d lvl rest _. eapply ev_S; [|apply ev_const]. intros f. cbn [app]. rewrite table_expr_S, hd_is_hit. reflexivity. Qed.

  Lemma FieldR_first : forall d ts t, FieldR FT d ts t -> exists x r, ts = x :: r /\ tok_beq x TRBrace = false.
  Proof.
    intros d ts t H. inversion H; subst; try (do 2 eexists; split; reflexivity).
    match goal with H : E _ _ _ _ _ |- _ => destruct (E_first _ _ _ _ _ H) as (x & r & -> & Hx) end.
    do 2 eexists. split; [reflexivity|]. apply (expr_start_not x Hx).
  Qed.

  Lemma FieldsTail_next : forall d ts trs rest, FieldsTail FT d ts trs -> fieldendb (ts ++ TRBrace :: rest) = true.
  Proof. intros d ts trs rest H. inversion H; subst; try reflexivity; destruct H0 as [-> | ->]; reflexivity. Qed.

  Lemma fieldendb_expr : forall rest, fieldendb rest = true -> nosuffixb rest = true /\ nobinopb rest = true.
  Proof. intros [|x r] H; [discriminate|]. destruct x; try discriminate; split; reflexivity. Qed.

  Lemma case_T_fields : forall d tf f ts trs,
    FieldR FT d tf f -> PF d tf f -> FieldsTail FT d ts trs -> PFT d ts trs ->
    PT d (TLBrace :: tf ++ ts ++ [TRBrace]) (N KTable (L TLBrace :: f :: trs ++ [L TRBrace])).
  Proof.
    intros d tf fd ts trs Hf IHf Ht IHt lvl rest Hl. norm_app.
    destruct (FieldR_first _ _ _ Hf) as (x & r0 & -> & Hx).
    eapply ev_S; [intros f; rewrite table_expr_S; cbn [app]; rewrite hd_is_cons, Hx; reflexivity|].
    eapply ev_bind; [apply IHf; [apply (FieldsTail_next _ _ _ _ Ht)|exact Hl]|].
    eapply ev_bind; [apply IHt; exact Hl|apply ev_const].
  Qed.

  Lemma case_FT_nil : forall d, PFT d [] [].
  Proof.
    intros d lvl acc rest _. rewrite app_nil_r. eapply ev_S; [|apply ev_const]. intros f. apply table_fields_S_end.
  Qed.

  Lemma case_FT_trailing : forall d sep, (sep = TComma \/ sep = TSemi) -> PFT d [sep] [L sep].
  Proof.
    intros d sep Hs lvl acc rest _. cbn [app]. eapply ev_S; [|apply ev_const]. intros f.
    rewrite (table_fields_S_sep f lvl acc sep _ Hs). reflexivity.
  Qed.

  Lemma case_FT_cons : forall d sep tf f ts trs,
    (sep = TComma \/ sep = TSemi) -> FieldR FT d tf f -> PF d tf f -> FieldsTail FT d ts trs -> PFT d ts trs ->
    PFT d (sep :: tf ++ ts) (L sep :: f :: trs).
  Proof.
    intros d sep tf fd ts trs Hs Hf IHf Ht IHt lvl acc rest Hl. norm_app.
    destruct (FieldR_first _ _ _ Hf) as (x & r0 & -> & Hx).
    eapply ev_S; [intros f; rewrite (table_fields_S_sep f lvl acc sep _ Hs); cbn [app]; rewrite hd_is_cons, Hx; reflexivity|].
    eapply ev_bind; [apply IHf; [apply (FieldsTail_next _ _ _ _ Ht)|exact Hl]|].
    eapply ev_eq; [|apply (IHt lvl (acc ++ [L sep; fd]) rest Hl)].
    rewrite <- app_assoc. reflexivity.
  Qed.

  Lemma case_F_index : forall d tk k tv v,
    E FT 1 d tk k -> PE 1 d tk k -> E FT 1 d tv v -> PE 1 d tv v ->
    PF d (TLBracket :: tk ++ TRBracket :: TAssign :: tv) (N KFieldAssign [L TLBracket; k; L TRBracket; L TAssign; v]).
  Proof.
    intros d tk k tv v _ IHk _ IHv lvl rest Hr Hl. norm_app.
    eapply ev_S; [intros f; apply field_S_index|].
    eapply ev_bind; [apply (pe_top d _ _ IHk); try assumption; reflexivity|].
    eapply ev_bind; [apply (pe_top d _ _ IHv); try assumption; apply (fieldendb_expr rest Hr)|apply ev_const].
  Qed.

  Lemma case_F_name : forall d tv v, E FT 1 d tv v -> PE 1 d tv v ->
    PF d (TName :: TAssign :: tv) (N KFieldAssign [L TName; L TAssign; v]).
  Proof.
    intros d tv v _ IHv lvl rest Hr Hl. norm_app.
    eapply ev_S; [intros f; rewrite field_S_name, hd_is_hit; reflexivity|].
    eapply ev_bind; [apply (pe_top d _ _ IHv); try assumption; apply (fieldendb_expr rest Hr)|apply ev_const].
  Qed.

  Lemma case_F_pos : forall d tv v, E FT 1 d tv v -> PE 1 d tv v -> PF d tv (N KFieldValue [v]).
  Proof.
    intros d tv v He IHv lvl rest Hr Hl. destruct (E_first _ _ _ _ _ He) as (x & r0 & -> & Hx). cbn [app].
    eapply ev_S with (h := fun f => bind (sub_expr f lvl 0 (x :: r0 ++ rest)) (fun v0 r1 => Ok (N KFieldValue [v0]) r1)).
    - intros f. destruct (tok_eq_dec x TName) as [-> | Hn]; [|apply field_S_pos; assumption].
      (* after a name, '=' neither continues the expression nor follows a field *)
      rewrite field_S_name. destruct r0 as [|y r1]; cbn [app].
      + destruct rest as [|z rr]; [reflexivity|]. destruct z; try discriminate; reflexivity.
      + rewrite hd_is_cons. destruct (tok_beq y TAssign) eqn:Ey; [|reflexivity].
        apply internal_tok_dec_bl in Ey. subst y. exfalso. apply (E_second _ _ _ _ _ He _ eq_refl).
    - eapply ev_bind; [apply (pe_top d _ _ IHv); try assumption; apply (fieldendb_expr rest Hr)|apply ev_const].
  Qed.

  Lemma block_follow_head : forall x r, block_follow (x :: r) = block_follow [x].
  Proof. destruct x; reflexivity. Qed.

  Lemma opt_semi_ok : forall semi k rest, k <> FAny ->
    stat_follow (semi_kind semi k) rest = true ->
    opt_semi (semi_toks semi ++ rest) = (semi_trees semi, rest).
  Proof.
    intros semi k rest Hk H. destruct semi; [reflexivity|]. cbn [semi_toks semi_trees app semi_kind] in *.
    unfold opt_semi. destruct rest as [|x r]; [reflexivity|]. rewrite hd_is_cons.
    assert (E : tok_beq x TSemi = false).
    { destruct k; cbn in H.
      - contradiction.
      - apply negb_true_iff in H. exact H.
      - apply andb_true_iff in H. destruct H as [H _]. apply andb_true_iff in H. destruct H as [H _].
        apply negb_true_iff in H. exact H.
      - destruct x; try discriminate; reflexivity. }
    rewrite E. reflexivity.
  Qed.

  Lemma ev_semi : forall semi k rest (g : list tree -> tree) t, k <> FAny ->
    stat_follow (semi_kind semi k) rest = true -> g (semi_trees semi) = t ->
    ev (fun _ => let '(sm, r) := opt_semi (semi_toks semi ++ rest) in Ok (g sm) r) (Ok t rest).
  Proof. intros semi k rest g t Hk Hf <-. rewrite (opt_semi_ok semi k rest Hk Hf). apply ev_const. Qed.

  Lemma expr_stmt_end : forall semi rest,
    stat_follow (semi_kind semi FExpr) rest = true -> afterstatb rest = true ->
    exprendb (semi_toks semi ++ rest) = true.
  Proof.
    intros semi rest H Ha. destruct semi; [reflexivity|]. cbn [semi_toks app semi_kind] in *.
    destruct rest as [|x r]; [reflexivity|]. cbn in H.
    apply andb_true_iff in H. destruct H as [H H3]. apply andb_true_iff in H. destruct H as [H1 H2].
    cbn in Ha. apply andb_true_iff in Ha. destruct Ha as [Ha _]. apply andb_true_iff in Ha. destruct Ha as [_ Hc].
    unfold exprendb. cbn [nosuffixb nobinopb]. rewrite H2, H3. cbn [andb].
    destruct x; try reflexivity; discriminate.
  Qed.

  Lemma return_end : forall semi rest, block_follow rest = true -> exprendb (semi_toks semi ++ rest) = true.
  Proof.
    intros semi rest H. destruct semi; [reflexivity|]. cbn [semi_toks app].
    destruct rest as [|x r]; [reflexivity|]. destruct x; try discriminate; reflexivity.
  Qed.

  Lemma case_B_empty : forall d, PB d [] [].
  Proof.
    intros d lvl rest Hr _. cbn [app]. eapply ev_S; [intros f; apply block_S|].
    eapply ev_bind; [eapply ev_S; [intros f; rewrite stats_S, Hr; reflexivity|apply ev_const]|apply ev_const].
  Qed.

  Lemma case_B_stats : forall d ts s ss, StatsR FT d ts (s :: ss) -> PSR d ts (s :: ss) -> PB d ts [N KBlock (s :: ss)].
  Proof.
    intros d ts s ss _ IH lvl rest Hr Hl. eapply ev_S; [intros f; apply block_S|].
    eapply ev_bind; [apply (IH lvl [] rest Hr Hl)|apply ev_const].
  Qed.

  Lemma case_SR_nil : forall d, PSR d [] [].
  Proof.
    intros d lvl acc rest Hr _. cbn [app]. rewrite app_nil_r.
    eapply ev_S; [intros f; rewrite stats_S, Hr; reflexivity|apply ev_const].
  Qed.

  Lemma block_follow_after : forall rest, block_follow rest = true ->
    afterstatb rest = true /\ forall k, k <> FLast -> head_ok k rest = true.
  Proof.
    intros [|x r] H; [split; [reflexivity|intros; reflexivity]|].
    destruct x; try discriminate; (split; [reflexivity|intros k Hk; destruct k; try reflexivity; contradiction]).
  Qed.

  Lemma case_SR_cons : forall d k ts1 s ts2 ss,
    Stat FT d ts1 s k -> PSt d ts1 s k -> StatsR FT d ts2 ss -> PSR d ts2 ss -> head_ok k ts2 = true ->
    PSR d (ts1 ++ ts2) (s :: ss).
  Proof.
    intros d k ts1 s ts2 ss Hs IHs Hss IHss Hk lvl acc rest Hr Hl. norm_app.
    assert (Hfollow : stat_follow k (ts2 ++ rest) = true /\ afterstatb (ts2 ++ rest) = true).
    { inversion Hss as [|? ? ? ? ? ? Hs2]; subst.
      - cbn [app]. destruct (block_follow_after rest Hr) as [Ha Hh]. split; [|exact Ha].
        destruct k; try (apply Hh; discriminate). exact Hr.
      - inversion Hs2; subst.
        match goal with H : StatB _ _ _ _ _ |- _ => destruct (StatB_first _ _ _ _ H) as (y & r2 & -> & Hy & Hy1 & Hy2 & Hy3) end.
        cbn [app]. split.
        + destruct k; try exact Hk. cbn in Hk. discriminate.
        + cbn. rewrite (tok_beq_neq y TAssign Hy1), (tok_beq_neq y TComma Hy2), (tok_beq_neq y TLt Hy3). reflexivity. }
    destruct Hfollow as [Hf Ha]. pose proof (IHs lvl (ts2 ++ rest) Hf Ha Hl) as IH1.
    inversion Hs; subst.
    match goal with H : StatB _ _ _ _ _ |- _ => destruct (StatB_first _ _ _ _ H) as (x & r1 & -> & Hx & _) end.
    eapply ev_S; [intros f; rewrite stats_S; cbn [app]; rewrite block_follow_head, Hx; reflexivity|].
    eapply ev_bind; [exact IH1|].
    eapply ev_eq; [|apply (IHss lvl (acc ++ [s]) rest Hr Hl)].
    rewrite <- app_assoc. reflexivity.
  Qed.

  Lemma case_St_intro : forall d d' ts t k, StatB FT d' ts t k -> PSB d' ts t k -> S d' <= d -> PSt d ts t k.
  Proof. intros d d' ts t k _ IH Hd lvl rest Hf Ha Hl. apply IH; try assumption. lia. Qed.

  (** one step of [stat] by the equation of the leading token, past the guard of enter_level *)
  Tactic Notation "stat_step" constr(eqn) :=
    cbn [app]; eapply ev_S; [intros f; rewrite eqn, lvl_ok by (try assumption; lia); reflexivity|].

  Lemma case_SB_empty : forall d, PSB d [TSemi] (N KEmpty [L TSemi]) FAny.
  Proof. intros d lvl rest _ _ Hl. stat_step stat_S_semi. apply ev_const. Qed.

  Lemma case_SB_label : forall d, f_goto FT = true ->
    PSB d [TDbColon; TName; TDbColon] (N KLabel [L TDbColon; L TName; L TDbColon]) FAny.
  Proof. intros d _ lvl rest _ _ Hl. stat_step stat_S_label. apply ev_const. Qed.

  Lemma case_SB_break : forall d semi,
    PSB d (TBreak :: semi_toks semi) (N KBreak (L TBreak :: semi_trees semi)) (semi_kind semi FNoSemi).
  Proof.
    intros d semi lvl rest Hf _ Hl. norm_app. stat_step stat_S_break.
    eapply ev_semi with (k := FNoSemi); [discriminate|exact Hf|reflexivity].
  Qed.

  Lemma case_SB_goto : forall d semi, f_goto FT = true ->
    PSB d (TGoto :: TName :: semi_toks semi) (N KGoto (L TGoto :: L TName :: semi_trees semi)) (semi_kind semi FNoSemi).
  Proof.
    intros d semi _ lvl rest Hf _ Hl. norm_app. stat_step stat_S_goto.
    eapply ev_semi with (k := FNoSemi); [discriminate|exact Hf|reflexivity].
  Qed.

  Lemma case_SB_do : forall d tb b semi, BlockR FT d tb b -> PB d tb b ->
    PSB d (TDo :: tb ++ TEnd :: semi_toks semi) (N KDo (L TDo :: b ++ L TEnd :: semi_trees semi)) (semi_kind semi FNoSemi).
  Proof.
    intros d tb b semi _ IH lvl rest Hf _ Hl. norm_app. stat_step stat_S_do.
    eapply ev_bind; [apply IH; [reflexivity|exact Hl]|].
    eapply ev_semi with (k := FNoSemi); [discriminate|exact Hf|reflexivity].
  Qed.

  (** `if current != TkEnd && current != TkEof { parse_block }` before an 'end' *)
  Lemma ev_block_opt_end : forall d tb b lvl rest, BlockR FT d tb b -> PB d tb b -> lvl + d <= MAXLVL ->
    ev (fun f => if at_end (tb ++ TEnd :: rest) then Ok [] (tb ++ TEnd :: rest) else block f lvl (tb ++ TEnd :: rest))
       (Ok b (TEnd :: rest)).
  Proof.
    intros d tb b lvl rest Hb IH Hl.
    destruct (BlockR_cases _ _ _ Hb) as [[-> ->] | (x & r & -> & Hx & _)]; cbn [app at_end].
    - change (tok_beq TEnd TEnd) with true. cbv iota. apply ev_const.
    - rewrite (block_follow_not_end x Hx). apply (IH lvl (TEnd :: rest)); [reflexivity|exact Hl].
  Qed.

  (** `if !block_follow { parse_block }` before something that ends a block *)
  Lemma ev_block_opt_follow : forall d tb b lvl rest, BlockR FT d tb b -> PB d tb b -> lvl + d <= MAXLVL ->
    block_follow rest = true ->
    ev (fun f => if block_follow (tb ++ rest) then Ok [] (tb ++ rest) else block f lvl (tb ++ rest)) (Ok b rest).
  Proof.
    intros d tb b lvl rest Hb IH Hl Hr.
    destruct (BlockR_cases _ _ _ Hb) as [[-> ->] | (x & r & -> & Hx & _)]; cbn [app].
    - rewrite Hr. apply ev_const.
    - rewrite block_follow_head, Hx. apply (IH lvl rest Hr Hl).
  Qed.

  Lemma case_SB_while : forall d te e tb b semi,
    E FT 1 d te e -> PE 1 d te e -> BlockR FT d tb b -> PB d tb b ->
    PSB d (TWhile :: te ++ TDo :: tb ++ TEnd :: semi_toks semi)
        (N KWhile (L TWhile :: e :: L TDo :: b ++ L TEnd :: semi_trees semi)) (semi_kind semi FNoSemi).
  Proof.
    intros d te e tb b semi _ IHe Hb IHb lvl rest Hf _ Hl. norm_app. stat_step stat_S_while.
    eapply ev_bind; [apply (pe_top d _ _ IHe); try assumption; reflexivity|].
    eapply ev_bind; [apply (ev_block_opt_end d tb b (S lvl) _ Hb IHb Hl)|].
    eapply ev_semi with (k := FNoSemi); [discriminate|exact Hf|reflexivity].
  Qed.

  Lemma case_SB_repeat : forall d tb b te e semi,
    BlockR FT d tb b -> PB d tb b -> E FT 1 d te e -> PE 1 d te e ->
    PSB d (TRepeat :: tb ++ TUntil :: te ++ semi_toks semi)
        (N KRepeat (L TRepeat :: b ++ L TUntil :: e :: semi_trees semi)) (semi_kind semi FExpr).
  Proof.
    intros d tb b te e semi _ IHb _ IHe lvl rest Hf Ha Hl. norm_app. stat_step stat_S_repeat.
    eapply ev_bind; [apply IHb; [reflexivity|exact Hl]|].
    eapply ev_bind; [apply (pe_top d _ _ IHe); try assumption; apply (exprendb_split _ (expr_stmt_end semi rest Hf Ha))|].
    eapply ev_semi with (k := FExpr); [discriminate|exact Hf|reflexivity].
  Qed.

  Lemma IfTail_head : forall d ts trs rest, IfTail FT d ts trs -> block_follow (ts ++ TEnd :: rest) = true.
  Proof. intros d ts trs rest H. inversion H; subst; reflexivity. Qed.

  Lemma case_SB_if : forall d te e tb b tcs cs semi,
    E FT 1 d te e -> PE 1 d te e -> BlockR FT d tb b -> PB d tb b -> IfTail FT d tcs cs -> PIT d tcs cs ->
    PSB d (TIf :: te ++ TThen :: tb ++ tcs ++ TEnd :: semi_toks semi)
        (N KIf (L TIf :: e :: L TThen :: b ++ cs ++ L TEnd :: semi_trees semi)) (semi_kind semi FNoSemi).
  Proof.
    intros d te e tb b tcs cs semi _ IHe Hb IHb Ht IHt lvl rest Hf _ Hl. norm_app. stat_step stat_S_if.
    eapply ev_bind; [apply (pe_top d _ _ IHe); try assumption; reflexivity|].
    eapply ev_bind; [apply (ev_block_opt_follow d tb b (S lvl) _ Hb IHb Hl), (IfTail_head _ _ _ _ Ht)|].
    eapply ev_bind; [apply (IHt (S lvl) (L TIf :: e :: L TThen :: b) (semi_toks semi ++ rest) Hl)|].
    eapply ev_semi with (k := FNoSemi); [discriminate|exact Hf|norm_app; reflexivity].
  Qed.

  (** parse_for: 'do' [block] 'end' [';'] *)
  Lemma ev_for_body : forall d k acc tb b semi lvl rest t, BlockR FT d tb b -> PB d tb b -> lvl + d <= MAXLVL ->
    stat_follow (semi_kind semi FNoSemi) rest = true ->
    N k (acc ++ L TDo :: b ++ L TEnd :: semi_trees semi) = t ->
    ev (fun f => for_body f lvl k acc (TDo :: tb ++ TEnd :: semi_toks semi ++ rest)) (Ok t rest).
  Proof.
    intros d k acc tb b semi lvl rest t Hb IHb Hl Hf Ht.
    eapply ev_S; [intros f; apply for_body_S|].
    eapply ev_bind; [apply (ev_block_opt_end d tb b lvl _ Hb IHb Hl)|].
    eapply ev_semi with (k := FNoSemi); [discriminate|exact Hf|exact Ht].
  Qed.

  Lemma case_SB_fornum : forall d t1 e1 t2 e2 tstep step tb b semi,
    E FT 1 d t1 e1 -> PE 1 d t1 e1 -> E FT 1 d t2 e2 -> PE 1 d t2 e2 -> ForStep FT d tstep step -> PFS d tstep step ->
    BlockR FT d tb b -> PB d tb b ->
    PSB d (TFor :: TName :: TAssign :: t1 ++ TComma :: t2 ++ tstep ++ TDo :: tb ++ TEnd :: semi_toks semi)
        (N KFor (L TFor :: L TName :: L TAssign :: e1 :: L TComma :: e2 :: step ++ L TDo :: b ++ L TEnd :: semi_trees semi))
        (semi_kind semi FNoSemi).
  Proof.
    intros d t1 e1 t2 e2 tstep step tb b semi _ IH1 _ IH2 Hs IHs Hb IHb lvl rest Hf _ Hl. norm_app.
    stat_step stat_S_fornum.
    eapply ev_bind; [apply (pe_top d _ _ IH1); try assumption; reflexivity|].
    eapply ev_bind; [apply (pe_top d _ _ IH2); try assumption; inversion Hs; subst; reflexivity|].
    eapply ev_bind; [apply (IHs (S lvl) (tb ++ TEnd :: semi_toks semi ++ rest) Hl)|].
    apply (ev_for_body d KFor _ tb b semi (S lvl) rest _ Hb IHb Hl Hf). reflexivity.
  Qed.

  Lemma case_SB_forin : forall d tn ns te e tes es tb b semi,
    NamesTail tn ns -> E FT 1 d te e -> PE 1 d te e -> ExpTail FT d tes es -> PET d tes es -> BlockR FT d tb b -> PB d tb b ->
    PSB d (TFor :: TName :: tn ++ TIn :: te ++ tes ++ TDo :: tb ++ TEnd :: semi_toks semi)
        (N KForRange (L TFor :: L TName :: ns ++ L TIn :: e :: es ++ L TDo :: b ++ L TEnd :: semi_trees semi))
        (semi_kind semi FNoSemi).
  Proof.
    intros d tn ns te e tes es tb b semi Hn _ IHe Ht IHt Hb IHb lvl rest Hf _ Hl. norm_app.
    pose proof (for_names_tail_ok _ _ Hn [] (te ++ tes ++ TDo :: tb ++ TEnd :: semi_toks semi ++ rest)) as Hnames.
    assert (Hx : exists x r, tn ++ TIn :: te ++ tes ++ TDo :: tb ++ TEnd :: semi_toks semi ++ rest = x :: r /\ (x = TComma \/ x = TIn)).
    { inversion Hn; subst; do 2 eexists; (split; [reflexivity|tauto]). }
    destruct Hx as (x & r & Heq & Hx). rewrite Heq in *.
    stat_step stat_S_forin. rewrite Hnames. cbn [bind app].
    apply (ev_explist _ d te e tes es (S lvl) (TDo :: tb ++ TEnd :: semi_toks semi ++ rest) _ _ IHe Ht IHt eq_refl Hl).
    apply (ev_for_body d KForRange _ tb b semi (S lvl) rest _ Hb IHb Hl Hf). norm_app. reflexivity.
  Qed.

  Lemma case_SB_function : forall d tn n tp p tb b semi,
    FuncName tn n -> ParList tp p -> BlockR FT d tb b -> PB d tb b ->
    PSB d (TFunction :: tn ++ tp ++ tb ++ TEnd :: semi_toks semi)
        (N KFunc (L TFunction :: n :: N KClosure (p :: b ++ [L TEnd]) :: semi_trees semi)) (semi_kind semi FNoSemi).
  Proof.
    intros d tn n tp p tb b semi Hn Hp Hb IHb lvl rest Hf _ Hl. norm_app. stat_step stat_S_function.
    pose proof (ev_closure d tp p tb b false Hp Hb IHb (S lvl) (semi_toks semi ++ rest) Hl) as Hc.
    destruct (ParList_first _ _ Hp) as [rp ->]. cbn [app] in *. rewrite (func_name_ok _ _ Hn). cbn [bind].
    eapply ev_bind; [exact Hc|].
    eapply ev_semi with (k := FNoSemi); [discriminate|exact Hf|reflexivity].
  Qed.

  Lemma case_SB_localfunction : forall d tp p tb b semi,
    ParList tp p -> BlockR FT d tb b -> PB d tb b ->
    PSB d (TLocal :: TFunction :: TName :: tp ++ tb ++ TEnd :: semi_toks semi)
        (N KLocalFunc (L TLocal :: L TFunction :: N KLocalName [L TName] :: N KClosure (p :: b ++ [L TEnd]) :: semi_trees semi))
        (semi_kind semi FNoSemi).
  Proof.
    intros d tp p tb b semi Hp Hb IHb lvl rest Hf _ Hl. norm_app. stat_step stat_S_localfunction.
    pose proof (ev_closure d tp p tb b false Hp Hb IHb (S lvl) (semi_toks semi ++ rest) Hl) as Hc.
    destruct (ParList_first _ _ Hp) as [rp ->]. cbn [app local_name bind] in *.
    eapply ev_bind; [exact Hc|].
    eapply ev_semi with (k := FNoSemi); [discriminate|exact Hf|reflexivity].
  Qed.

  Lemma afterstat_semi : forall semi rest, afterstatb rest = true ->
    nameendb (semi_toks semi ++ rest) = true /\ hd_is TAssign (semi_toks semi ++ rest) = false.
  Proof.
    intros semi rest Ha. destruct semi; [split; reflexivity|]. cbn [semi_toks app].
    destruct rest as [|x r]; [split; reflexivity|]. cbn in Ha.
    apply andb_true_iff in Ha. destruct Ha as [Ha H3]. apply andb_true_iff in Ha. destruct Ha as [H1 H2].
    apply negb_true_iff in H1. apply negb_true_iff in H2. apply negb_true_iff in H3.
    split; [|rewrite hd_is_cons; exact H1]. destruct x; try reflexivity; discriminate.
  Qed.

  Lemma ev_local_names : forall tn n tns ns rest, AttName FT tn n -> AttNamesTail FT tns ns -> nameendb rest = true ->
    exists r, tn ++ tns ++ rest = TName :: r /\
    local_name FT true (tn ++ tns ++ rest) = Ok n (tns ++ rest) /\
    local_names_tail FT (tns ++ rest) [n] = Ok (n :: ns) rest.
  Proof.
    intros tn n tns ns rest Hn Hns Hr.
    pose proof (local_name_ok _ _ Hn _ (names_tail_not_lt _ _ _ Hns Hr)) as H1. pose proof (local_names_tail_ok _ _ Hns [n] rest Hr) as H2.
    inversion Hn; subst; eexists; (split; [reflexivity|split; assumption]).
  Qed.

  Lemma case_SB_local : forall d tn n tns ns semi,
    AttName FT tn n -> AttNamesTail FT tns ns ->
    PSB d (TLocal :: tn ++ tns ++ semi_toks semi) (N KLocal (L TLocal :: n :: ns ++ semi_trees semi)) (semi_kind semi FNoSemi).
  Proof.
    intros d tn n tns ns semi Hn Hns lvl rest Hf Ha Hl. norm_app.
    destruct (afterstat_semi semi rest Ha) as [Hne Hna].
    destruct (ev_local_names tn n tns ns (semi_toks semi ++ rest) Hn Hns Hne) as (r & Heq & H1 & H2).
    eapply ev_S; [intros f; rewrite Heq, stat_S_local, <- Heq, lvl_ok, H1 by lia; cbn [bind]; rewrite H2; cbn [bind];
                  rewrite Hna; reflexivity|].
    eapply ev_semi with (k := FNoSemi); [discriminate|exact Hf|reflexivity].
  Qed.

  Lemma case_SB_localinit : forall d tn n tns ns te e tes es semi,
    AttName FT tn n -> AttNamesTail FT tns ns -> E FT 1 d te e -> PE 1 d te e -> ExpTail FT d tes es -> PET d tes es ->
    PSB d (TLocal :: tn ++ tns ++ TAssign :: te ++ tes ++ semi_toks semi)
        (N KLocal (L TLocal :: n :: ns ++ L TAssign :: e :: es ++ semi_trees semi)) (semi_kind semi FExpr).
  Proof.
    intros d tn n tns ns te e tes es semi Hn Hns _ IHe Ht IHt lvl rest Hf Ha Hl. norm_app.
    destruct (ev_local_names tn n tns ns (TAssign :: te ++ tes ++ semi_toks semi ++ rest) Hn Hns eq_refl) as (r & Heq & H1 & H2).
    eapply ev_S; [intros f; rewrite Heq, stat_S_local, <- Heq, lvl_ok, H1 by lia; cbn [bind]; rewrite H2; cbn [bind];
                  rewrite hd_is_hit; cbn [tl]; reflexivity|].
    eapply ev_bind.
    - apply (ev_explist _ d te e tes es (S lvl) (semi_toks semi ++ rest) (fun f es0 r5 => Ok (L TAssign :: es0) r5) _ IHe Ht IHt
                        (expr_stmt_end semi rest Hf Ha) Hl).
      apply ev_const.
    - eapply ev_semi with (k := FExpr); [discriminate|exact Hf|norm_app; reflexivity].
  Qed.

  Lemma return_semi : forall semi rest, block_follow rest = true ->
    opt_semi (semi_toks semi ++ rest) = (semi_trees semi, rest).
  Proof.
    intros semi rest H. apply (opt_semi_ok semi FLast); [discriminate|]. destruct semi; [destruct rest; reflexivity|exact H].
  Qed.

  Lemma case_SB_return0 : forall d semi,
    PSB d (TReturn :: semi_toks semi) (N KReturn (L TReturn :: semi_trees semi)) FLast.
  Proof.
    intros d semi lvl rest Hf _ Hl. cbn [stat_follow] in Hf. norm_app. stat_step stat_S_return.
    assert (Hc : (block_follow (semi_toks semi ++ rest) || hd_is TSemi (semi_toks semi ++ rest)) = true).
    { destruct semi; [reflexivity|]. cbn [semi_toks app]. rewrite Hf. reflexivity. }
    rewrite Hc. cbn [bind]. rewrite (return_semi semi rest Hf), Hf. apply ev_const.
  Qed.

  Lemma case_SB_return : forall d te e tes es semi,
    E FT 1 d te e -> PE 1 d te e -> ExpTail FT d tes es -> PET d tes es ->
    PSB d (TReturn :: te ++ tes ++ semi_toks semi) (N KReturn (L TReturn :: e :: es ++ semi_trees semi)) FLast.
  Proof.
    intros d te e tes es semi He IHe Ht IHt lvl rest Hf _ Hl. cbn [stat_follow] in Hf. norm_app.
    stat_step stat_S_return.
    assert (Hc : (block_follow (te ++ tes ++ semi_toks semi ++ rest) || hd_is TSemi (te ++ tes ++ semi_toks semi ++ rest)) = false).
    { destruct (E_first _ _ _ _ _ He) as (x & r0 & -> & Hx). destruct (expr_start_not x Hx) as (_ & _ & Hsemi & Hbf).
      cbn [app]. rewrite block_follow_head, Hbf, hd_is_cons, Hsemi. reflexivity. }
    rewrite Hc.
    eapply ev_bind.
    - eapply ev_bind; [apply (pe_top d _ _ IHe); try assumption; apply (ExpTail_next _ _ _ _ Ht (return_end semi rest Hf))|].
      apply (IHt (S lvl) [e] _ (return_end semi rest Hf) Hl).
    - rewrite (return_semi semi rest Hf), Hf. apply ev_const.
  Qed.

  Lemma lvalue_kinds : forall t, is_lvalue_tree t = true -> is_lvalue t = true /\ is_call t = false.
  Proof. intros [x|k cs] H; [discriminate|]. destruct k; try discriminate; split; reflexivity. Qed.
  Lemma call_kinds : forall t, is_call_tree t = true -> is_call t = true.
  Proof. intros [x|k cs] H; [discriminate|]. destruct k; try discriminate; reflexivity. Qed.

  Lemma VarsTail_next : forall d ts trs rest, VarsTail FT d ts trs -> nosuffixb (ts ++ TAssign :: rest) = true.
  Proof. intros d ts trs rest H. inversion H; subst; reflexivity. Qed.

  Lemma case_SB_assign : forall d tv v tvs vs te e tes es semi,
    Simple FT d tv v -> PS d tv v -> is_lvalue_tree v = true -> VarsTail FT d tvs vs -> PVT d tvs vs ->
    E FT 1 d te e -> PE 1 d te e -> ExpTail FT d tes es -> PET d tes es ->
    PSB d (tv ++ tvs ++ TAssign :: te ++ tes ++ semi_toks semi)
        (N KAssign (v :: vs ++ L TAssign :: e :: es ++ semi_trees semi)) (semi_kind semi FExpr).
  Proof.
    intros d tv v tvs vs te e tes es semi Hv IHv Hlv Hvt IHvt _ IHe Ht IHt lvl rest Hf Ha Hl. norm_app.
    destruct (Simple_suffixed_first _ _ _ _ Hv (or_introl Hlv)) as (x & r & -> & Hx).
    destruct (lvalue_kinds v Hlv) as [Hl1 Hl2].
    stat_step stat_S_expr.
    eapply ev_bind; [apply (IHv (S lvl) _ (VarsTail_next _ _ _ _ Hvt) Hl)|]. cbn beta. rewrite Hl1, Hl2.
    eapply ev_bind; [apply (IHvt (S lvl) [v] _ Hl)|].
    apply (ev_explist _ d te e tes es (S lvl) (semi_toks semi ++ rest) _ _ IHe Ht IHt (expr_stmt_end semi rest Hf Ha) Hl).
    eapply ev_semi with (k := FExpr); [discriminate|exact Hf|norm_app; reflexivity].
  Qed.

  Lemma case_SB_call : forall d tc c semi,
    Simple FT d tc c -> PS d tc c -> is_call_tree c = true ->
    PSB d (tc ++ semi_toks semi) (N KCallStat (c :: semi_trees semi)) (semi_kind semi FExpr).
  Proof.
    intros d tc c semi Hc IHc Hct lvl rest Hf Ha Hl. norm_app.
    destruct (Simple_suffixed_first _ _ _ _ Hc (or_intror Hct)) as (x & r & -> & Hx).
    stat_step stat_S_expr.
    eapply ev_bind; [apply (IHc (S lvl) _ (proj1 (exprendb_split _ (expr_stmt_end semi rest Hf Ha))) Hl)|].
    cbn beta. rewrite (call_kinds c Hct).
    eapply ev_semi with (k := FExpr); [discriminate|exact Hf|reflexivity].
  Qed.

  Lemma case_VT_nil : forall d, PVT d [] [].
  Proof.
    intros d lvl acc rest _. rewrite app_nil_r. eapply ev_S; [|apply ev_const]. intros f. apply assign_targets_S_assign.
  Qed.

  Lemma case_VT_cons : forall d tv v ts trs,
    Simple FT d tv v -> PS d tv v -> is_lvalue_tree v = true -> VarsTail FT d ts trs -> PVT d ts trs ->
    PVT d (TComma :: tv ++ ts) (L TComma :: v :: trs).
  Proof.
    intros d tv v ts trs _ IHv Hlv Hvt IH lvl acc rest Hl. norm_app.
    eapply ev_S; [intros f; apply assign_targets_S_comma|].
    eapply ev_bind; [apply (IHv lvl _ (VarsTail_next _ _ _ _ Hvt) Hl)|].
    cbn beta. destruct (lvalue_kinds v Hlv) as [-> _].
    eapply ev_eq; [|apply (IH lvl (acc ++ [L TComma; v]) rest Hl)]. rewrite <- app_assoc. reflexivity.
  Qed.

  Lemma case_IT_nil : forall d, PIT d [] [].
  Proof.
    intros d lvl acc rest _. rewrite app_nil_r. eapply ev_S; [|apply ev_const]. intros f. apply if_tail_S_end.
  Qed.

  Lemma case_IT_else : forall d tb b, BlockR FT d tb b -> PB d tb b -> PIT d (TElse :: tb) [N KElse (L TElse :: b)].
  Proof.
    intros d tb b _ IHb lvl acc rest Hl. norm_app.
    eapply ev_S; [intros f; apply if_tail_S_else|].
    eapply ev_bind; [apply IHb; [reflexivity|exact Hl]|apply ev_const].
  Qed.

  Lemma case_IT_elseif : forall d te e tb b ts trs,
    E FT 1 d te e -> PE 1 d te e -> BlockR FT d tb b -> PB d tb b -> IfTail FT d ts trs -> PIT d ts trs ->
    PIT d (TElseIf :: te ++ TThen :: tb ++ ts) (N KElseIf (L TElseIf :: e :: L TThen :: b) :: trs).
  Proof.
    intros d te e tb b ts trs _ IHe _ IHb Ht IHt lvl acc rest Hl. norm_app.
    eapply ev_S; [intros f; apply if_tail_S_elseif|].
    eapply ev_bind; [apply (pe_top d _ _ IHe); try assumption; reflexivity|].
    eapply ev_bind; [apply IHb; [apply (IfTail_head _ _ _ _ Ht)|exact Hl]|].
    eapply ev_eq; [|apply (IHt lvl (acc ++ [N KElseIf (L TElseIf :: e :: L TThen :: b)]) rest Hl)].
    rewrite <- app_assoc. reflexivity.
  Qed.

  Lemma case_FS_none : forall d, PFS d [] [].
  Proof.
    intros d lvl rest _. cbn [app]. change (hd_is TComma (TDo :: rest)) with false. cbv iota. apply ev_const.
  Qed.

  Lemma case_FS_some : forall d te e, E FT 1 d te e -> PE 1 d te e -> PFS d (TComma :: te) [L TComma; e].
  Proof.
    intros d te e _ IHe lvl rest Hl. norm_app. rewrite hd_is_hit. cbn [tl].
    eapply ev_bind; [apply (pe_top d _ _ IHe); try assumption; reflexivity|apply ev_const].
  Qed.

  (** the cases in the order of the rules in Spec.v *)
  Theorem complete_all :
    (forall m d ts t, E FT m d ts t -> PE m d ts t) /\
    (forall d ts t, Simple FT d ts t -> PS d ts t) /\
    (forall d ts t, Primary FT d ts t -> PP d ts t) /\
    (forall d cm ts t, Suf FT d cm ts t -> PSuf d cm ts t) /\
    (forall d ts t, ArgsR FT d ts t -> PA d ts t) /\
    (forall d ts trs, ExpTail FT d ts trs -> PET d ts trs) /\
    (forall d ts t, TableR FT d ts t -> PT d ts t) /\
    (forall d ts trs, FieldsTail FT d ts trs -> PFT d ts trs) /\
    (forall d ts t, FieldR FT d ts t -> PF d ts t) /\
    (forall d ts trs, BlockR FT d ts trs -> PB d ts trs) /\
    (forall d ts trs, StatsR FT d ts trs -> PSR d ts trs) /\
    (forall d ts t k, Stat FT d ts t k -> PSt d ts t k) /\
    (forall d ts t k, StatB FT d ts t k -> PSB d ts t k) /\
    (forall d ts trs, VarsTail FT d ts trs -> PVT d ts trs) /\
    (forall d ts trs, IfTail FT d ts trs -> PIT d ts trs) /\
    (forall d ts trs, ForStep FT d ts trs -> PFS d ts trs).
  Proof.
    exact (grammar_mutind FT PE PS PP PSuf PA PET PT PFT PF PB PSR PSt PSB PVT PIT PFS
      case_E_up case_E_binl case_E_binr case_E_pow case_E_un case_E_simple
      case_S_lit case_S_table case_S_func case_S_suffixed
      case_P_name case_P_paren
      case_Suf_nil case_Suf_field case_Suf_index case_Suf_method case_Suf_call
      case_A_empty case_A_list case_A_table
      (case_A_string TString (or_introl eq_refl)) (case_A_string TLongString (or_intror eq_refl))
      case_ET_nil case_ET_cons
      case_T_empty case_T_fields case_FT_nil case_FT_trailing case_FT_cons
      case_F_index case_F_name case_F_pos
      case_B_empty case_B_stats case_SR_nil case_SR_cons case_St_intro
      case_SB_empty case_SB_assign case_SB_call case_SB_label case_SB_break case_SB_goto case_SB_do
      case_SB_while case_SB_repeat case_SB_if case_SB_fornum case_SB_forin case_SB_function
      case_SB_localfunction case_SB_local case_SB_localinit case_SB_return0 case_SB_return
      case_VT_nil case_VT_cons case_IT_nil case_IT_else case_IT_elseif case_FS_none case_FS_some).
  Qed.
End Complete.
