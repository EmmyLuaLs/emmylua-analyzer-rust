(** C03/LexCorr.v — comparing the model of the lexical layer with observations of the Rust code.
    A [lex_case] carries a text that starts with a numeric literal or a short string (anything may
    follow it) and what the harness observed for the FIRST token of that text:
      kind      0 = TkInt, 1 = TkFloat, 2 = TkString (3 = TkComplex, 4 = TkUnknown),
      length    of the token text in UTF-8 BYTES ([token.text().len()]),
      lex_err   the lexer pushed an error for this token ("unexpected character .. after number
                literal" / "unfinished string"),
      chk_err   [int_token_value] / [float_token_value] / [check_normal_string_error] returned Err.
    [check_lex_case] recomputes the four values with the model and compares.

    The model is the same for Lua 5.1 .. 5.4 ([std_features]); [char::is_alphabetic] is known to the
    model only below 128 ([ascii_letter]): when a number token is followed by a non-ASCII character
    the lexer-error flag is not compared. *)
From EV Require Import Base.TextFacts C03.LexModel C03.LexSpec C03.LexProofs.
Local Open Scope N_scope.

Record lex_case : Type := {
  lc_text : list N;
  lc_is_string : bool;
  lc_obs_kind : N;
  lc_obs_len : N;
  lc_obs_lex_err : bool;
  lc_obs_chk_err : bool
}.

Definition kind_code (k : tkind) : N :=
  match k with TkInt => 0 | TkFloat => 1 | TkString => 2 | TkComplex => 3 | TkUnknown => 4 end.

(** what the model says about the first token: (kind, byte length, lexer error, checker error) and
    whether the lexer-error flag is comparable *)
Record model_obs : Type := {
  mo_kind : N; mo_len : N; mo_lex_err : bool; mo_chk_err : bool; mo_lex_err_known : bool
}.

Definition model_number (t : list N) : option model_obs :=
  if starts_number t then
    let tk := lex_number std_features ascii_letter t in
    Some {| mo_kind := kind_code (tk_kind tk);
            mo_len := bytes (tk_text tk);
            mo_lex_err := tk_err tk;
            mo_chk_err := negb (number_token_ok (tk_kind tk) (tk_text tk));
            mo_lex_err_known := match tk_rest tk with c :: _ => c <? 128 | [] => true end |}
  else None.

Definition model_string (zsp : N -> bool) (ubad : N -> bool) (t : list N) : option model_obs :=
  match lex_quoted std_features zsp t with
  | Some tk =>
      Some {| mo_kind := kind_code (tk_kind tk);
              mo_len := bytes (tk_text tk);
              mo_lex_err := tk_err tk;
              (* the checker looks at TkString tokens only *)
              mo_chk_err := match tk_kind tk with
                            | TkString => negb (check_string ubad (tk_text tk))
                            | _ => false
                            end;
              mo_lex_err_known := true |}
  | None => None
  end.

Definition check_lex_case_with (zsp : N -> bool) (ubad : N -> bool) (c : lex_case) : bool :=
  match (if lc_is_string c then model_string zsp ubad (lc_text c) else model_number (lc_text c)) with
  | Some m =>
      (mo_kind m =? lc_obs_kind c) && (mo_len m =? lc_obs_len c)
      && (negb (mo_lex_err_known m) || Bool.eqb (mo_lex_err m) (lc_obs_lex_err c))
      && Bool.eqb (mo_chk_err m) (lc_obs_chk_err c)
  | None => false          (* the text does not start with a number / a quote: not a case *)
  end.

(** the repaired code: six-character [\z] skip, [\u{..}] error iff above 0x7FFFFFFF *)
Definition check_lex_case (c : lex_case) : bool :=
  check_lex_case_with lexer_zsp_fixed (ubad_max lua54_umax) c.

(** the code before the repairs *)
Definition check_lex_case_old (c : lex_case) : bool :=
  check_lex_case_with lexer_zsp ubad_old c.

(** * what an agreeing observation of a valid literal looks like *)

Lemma check_fields : forall (k k' len len' : N) (le le' ce ce' : bool),
  (k =? k') && (len =? len') && Bool.eqb le le' && Bool.eqb ce ce' = true ->
  k' = k /\ len' = len /\ le' = le /\ ce' = ce.
Proof.
  intros k k' len len' le le' ce ce' H.
  apply andb_prop in H. destruct H as [H Hce].
  apply andb_prop in H. destruct H as [H Hle].
  apply andb_prop in H. destruct H as [Hk Hlen].
  apply N.eqb_eq in Hk, Hlen. apply Bool.eqb_prop in Hle, Hce.
  repeat split; symmetry; assumption.
Qed.

(** if the observation of a valid numeral (ASCII follower) agrees with the model, the Rust code
    reported no error for it *)
Lemma agreeing_numeral_has_no_error : forall v s i rest k len le ce,
  numeral v s i -> numeral_end_ascii rest ->
  check_lex_case {| lc_text := s ++ rest; lc_is_string := false; lc_obs_kind := k; lc_obs_len := len;
                    lc_obs_lex_err := le; lc_obs_chk_err := ce |} = true ->
  k = (if i then 0 else 1) /\ len = bytes s /\ le = false /\ ce = false.
Proof.
  intros v s i rest k len le ce Hn Hend H.
  destruct (number_complete_ascii ascii_letter v s rest i (fun c _ => eq_refl) Hn Hend)
    as (H1 & H2 & H3).
  unfold check_lex_case, check_lex_case_with in H.
  cbn [lc_is_string lc_text lc_obs_kind lc_obs_len lc_obs_lex_err lc_obs_chk_err] in H.
  unfold model_number in H. rewrite H1, H2 in H.
  cbn [tk_kind tk_text tk_rest tk_err mo_kind mo_len mo_lex_err mo_chk_err mo_lex_err_known] in H.
  rewrite H3 in H. cbn [negb] in H.
  assert (Hk : match rest with c :: _ => c <? 128 | [] => true end = true).
  { destruct rest as [|c r]; [reflexivity|]. destruct Hend as [Hc _]. apply N.ltb_lt. exact Hc. }
  rewrite Hk in H. cbn [negb orb] in H.
  destruct (check_fields _ _ _ _ _ _ _ _ H) as (-> & -> & -> & ->).
  destruct i; repeat split; reflexivity.
Qed.

(** the same for a valid short string *)
Lemma agreeing_string_has_no_error : forall v s rest k len le ce,
  short_string v s ->
  check_lex_case {| lc_text := s ++ rest; lc_is_string := true; lc_obs_kind := k; lc_obs_len := len;
                    lc_obs_lex_err := le; lc_obs_chk_err := ce |} = true ->
  k = 2 /\ len = bytes s /\ le = false /\ ce = false.
Proof.
  intros v s rest k len le ce Hs H.
  destruct (string_escape_complete v s rest Hs) as [H1 H2].
  unfold check_lex_case, check_lex_case_with in H.
  cbn [lc_is_string lc_text lc_obs_kind lc_obs_len lc_obs_lex_err lc_obs_chk_err] in H.
  unfold model_string in H. rewrite H1 in H.
  cbn [tk_kind tk_text tk_rest tk_err mo_kind mo_len mo_lex_err mo_chk_err mo_lex_err_known] in H.
  unfold check_string_umax in H2. rewrite H2 in H. cbn [negb orb] in H.
  exact (check_fields _ _ _ _ _ _ _ _ H).
Qed.

(** * examples *)

(** [0x.8p-3 ] : TkFloat, 7 bytes, no errors *)
Example corr_hex_float :
  check_lex_case {| lc_text := [48; 120; 46; 56; 112; 45; 51; 32]; lc_is_string := false;
                    lc_obs_kind := 1; lc_obs_len := 7; lc_obs_lex_err := false;
                    lc_obs_chk_err := false |} = true.
Proof. vm_compute. reflexivity. Qed.

(** [3x] : TkInt of 1 byte with the lexer error "unexpected character 'x' after number literal" *)
Example corr_bad_suffix :
  check_lex_case {| lc_text := [51; 120]; lc_is_string := false;
                    lc_obs_kind := 0; lc_obs_len := 1; lc_obs_lex_err := true;
                    lc_obs_chk_err := false |} = true.
Proof. vm_compute. reflexivity. Qed.

(** ["\xZZ"] : the checker reports the invalid hex escape *)
Example corr_bad_hex_escape :
  check_lex_case {| lc_text := [34; 92; 120; 90; 90; 34]; lc_is_string := true;
                    lc_obs_kind := 2; lc_obs_len := 6; lc_obs_lex_err := false;
                    lc_obs_chk_err := true |} = true.
Proof. vm_compute. reflexivity. Qed.

(** ["\u{D800}"] : accepted by the repaired checker, rejected by the original one *)
Example corr_surrogate :
  let c := {| lc_text := surrogate_string; lc_is_string := true; lc_obs_kind := 2; lc_obs_len := 10;
              lc_obs_lex_err := false; lc_obs_chk_err := false |} in
  check_lex_case c = true /\ check_lex_case_old c = false.
Proof. vm_compute. split; reflexivity. Qed.

(** ["\z<VT><LF>"] : fine with the repaired lexer, "unfinished string" with the original one *)
Example corr_vtab :
  let c := {| lc_text := vtab_string; lc_is_string := true; lc_obs_kind := 2; lc_obs_len := 6;
              lc_obs_lex_err := false; lc_obs_chk_err := false |} in
  check_lex_case c = true /\ check_lex_case_old c = false.
Proof. vm_compute. split; reflexivity. Qed.
