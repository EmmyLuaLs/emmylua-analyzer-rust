(** C03/Proofs.v — the completeness theorems for expressions and chunks (from Complete.v), and flat
    chains whose trees are of unbounded height. *)
From Coq Require Import List Bool Arith Lia.
Import ListNotations.
From EV Require Import C03.Syntax C03.Spec C03.Model C03.Facts C03.Complete.

Section Assembly.
  Variable binop_of : tok -> option binop.
  Variable unop_of : tok -> option unop.
  Variable bl br : binop -> nat.
  Variable up : nat.
  Variable FT : features.
  Variable MAXLVL : nat.
  Hypothesis Htab : table_ok binop_of unop_of bl br up = true.

  Local Notation complete_all := (Complete.complete_all binop_of unop_of bl br up FT MAXLVL Htab).
  Local Notation expr := (Model.expr binop_of unop_of bl br up FT MAXLVL).
  Local Notation chunk := (Model.chunk binop_of unop_of bl br up FT MAXLVL).
  Local Notation sub_expr := (Model.sub_expr binop_of unop_of bl br up FT MAXLVL).
  Local Notation stats := (Model.stats binop_of unop_of bl br up FT MAXLVL).

  (** every expression of the grammar, followed by anything that cannot continue it, is parsed without
      error into the tree the grammar gives it *)
  Lemma expr_complete_rest : forall d ts t rest lvl,
    E FT 1 d ts t -> lvl + d <= MAXLVL -> nosuffixb rest = true -> nobinopb rest = true ->
    exists n, forall f, n <= f -> sub_expr f lvl 0 (ts ++ rest) = Ok t rest.
  Proof.
    intros d ts t rest lvl H Hl Hs Hb. destruct complete_all as [HE _].
    apply (Complete.pe_top binop_of unop_of bl br up FT MAXLVL Htab d ts t (HE 1 d ts t H) lvl rest Hs Hb Hl).
  Qed.

  Lemma expr_complete : forall d ts t,
    E FT 1 d ts t -> d <= MAXLVL -> exists n, forall f, n <= f -> expr f ts = Ok t [].
  Proof.
    intros d ts t H Hl. destruct (expr_complete_rest d ts t [] 0 H Hl eq_refl eq_refl) as [n Hn].
    exists n. intros f Hf. unfold Model.expr. rewrite <- (app_nil_r ts). apply Hn. exact Hf.
  Qed.

  (** every chunk of the grammar is parsed without error into the tree the grammar gives it *)
  Lemma chunk_complete : forall d ts t,
    ChunkR FT d ts t -> d <= MAXLVL -> exists n, forall f, n <= f -> chunk f ts = Ok t [].
  Proof.
    intros d ts t H Hl. inversion H as [d0 ts0 b Hb]; subst.
    destruct complete_all as (_ & _ & _ & _ & _ & _ & _ & _ & _ & _ & HSR & _).
    inversion Hb; subst.
    - exists 1. intros f Hf. destruct f as [|f]; [lia|]. reflexivity.
    - match goal with Hs : StatsR _ _ _ _ |- _ => pose proof (HSR _ _ _ Hs 0 [] [] eq_refl Hl) as [n Hn] end.
      exists n. intros f Hf. unfold Model.chunk. rewrite <- (app_nil_r ts). rewrite (Hn f Hf). reflexivity.
  Qed.
End Assembly.

(** * trees of unbounded height from flat input: the chain 1 + 1 + ... + 1 *)
Fixpoint plus_toks (n : nat) : list tok :=
  match n with 0 => [TInt] | S k => plus_toks k ++ [TPlus; TInt] end.
Fixpoint plus_tree (n : nat) : tree :=
  match n with
  | 0 => N KLiteral [L TInt]
  | S k => N KBinary [plus_tree k; L TPlus; N KLiteral [L TInt]]
  end.

Lemma plus_tree_height : forall n, height (plus_tree n) = n + 2.
Proof.
  induction n as [|n IH]; [reflexivity|]. cbn [plus_tree height]. rewrite IH. cbn [height]. lia.
Qed.

Lemma plus_toks_length : forall n, length (plus_toks n) = 2 * n + 1.
Proof. induction n as [|n IH]; [reflexivity|]. cbn [plus_toks]. rewrite app_length, IH. cbn [length]. lia. Qed.

Lemma E_weaken : forall ft m m' d ts t, m <= m' -> m' <= 13 -> E ft m' d ts t -> E ft m d ts t.
Proof.
  intros ft m m' d ts t H. induction H as [|m' _ IH]; intros Hm HE; [exact HE|].
  apply IH; [lia|]. apply E_up; [lia|exact HE].
Qed.

Lemma lit_E : forall ft m d, m <= 13 -> 1 <= d -> E ft m d [TInt] (N KLiteral [L TInt]).
Proof.
  intros ft m d Hm Hd. apply (E_weaken ft m 13); [exact Hm|apply Nat.le_refl|].
  apply (E_simple ft d 0); [apply S_lit; reflexivity|exact Hd].
Qed.

Lemma plus_chain_E9 : forall ft n, E ft 9 2 (plus_toks n) (plus_tree n).
Proof.
  intros ft. induction n as [|n IH].
  - apply lit_E; lia.
  - cbn [plus_toks plus_tree].
    apply (E_binl ft 9 2 1 OpAdd (plus_toks n) (plus_tree n) [TInt] (N KLiteral [L TInt])); try reflexivity; try lia.
    + exact IH.
    + apply lit_E; lia.
Qed.

Lemma plus_chain_E : forall ft n, E ft 1 2 (plus_toks n) (plus_tree n).
Proof.
  intros ft n. apply (E_weaken ft 1 9); [lia|lia|apply plus_chain_E9].
Qed.
