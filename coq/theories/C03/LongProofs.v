(** C03/LongProofs.v — the lexer model (LongModel.v) accepts every long string and long comment of
    the reference manual (LongSpec.v), and a mutant of the closing-bracket search does not. *)
From Coq Require Import PeanoNat.
From EV Require Import C03.LongModel C03.LongSpec.
Local Open Scope N_scope.
Local Notation cp := N (only parsing).
Local Notation text := (list N) (only parsing).

(** * [eat_when('=')] *)

Definition head_ne61 (Y : text) : Prop := match Y with [] => True | c :: _ => c <> 61 end.

Lemma eat_eq_stop : forall Y, head_ne61 Y -> eat_eq Y = (O, Y).
Proof.
  intros [|c Y] H; [reflexivity|]. cbn [head_ne61] in H. cbn [eat_eq].
  destruct (N.eqb_spec c 61) as [E|_]; [contradiction|]. reflexivity.
Qed.

Lemma eat_eq_repeat : forall k Y, head_ne61 Y -> eat_eq (repeat 61 k ++ Y) = (k, Y).
Proof.
  intros k Y H. induction k as [|k IH].
  - apply eat_eq_stop. exact H.
  - cbn [repeat app eat_eq]. change (61 =? 61) with true. cbv iota. rewrite IH. reflexivity.
Qed.

(** the run of ['='] at the start of [b ++ Y] lies inside [b] when [Y] does not start with ['='] *)
Lemma eat_eq_split : forall b Y, head_ne61 Y ->
  exists k b', b = repeat 61 k ++ b' /\ eat_eq (b ++ Y) = (k, b' ++ Y).
Proof.
  intros b Y HY. induction b as [|c b IH].
  - exists O, []. split; [reflexivity|]. apply eat_eq_stop. exact HY.
  - destruct (N.eqb_spec c 61) as [E|E].
    + subst c. destruct IH as (k & b' & Eb & Ee). exists (S k), b'. split.
      * cbn [repeat app]. rewrite <- Eb. reflexivity.
      * cbn [app eat_eq]. change (61 =? 61) with true. cbv iota. rewrite Ee. reflexivity.
    + exists O, (c :: b). split; [reflexivity|]. apply eat_eq_stop. exact E.
Qed.

Lemma skipn_app_length : forall (a X : text) i, skipn (length a + i) (a ++ X) = skipn i X.
Proof. intros a X i. induction a as [|c a IH]; [reflexivity|]. cbn [length plus app skipn]. exact IH. Qed.

Lemma long_body_app_r : forall n a b, long_body n (a ++ b) -> long_body n b.
Proof.
  intros n a b H i Hi Hp. apply (H (length a + i)%nat).
  - rewrite app_length. lia.
  - rewrite <- app_assoc, skipn_app_length. exact Hp.
Qed.

Lemma closer_head : forall n X, exists s, closer n ++ X = 93 :: s.
Proof. intros n X. eexists. reflexivity. Qed.

(** a body cannot begin with a closing bracket of its own level *)
Lemma long_body_not_closer : forall n b' rest,
  long_body n (93 :: repeat 61 n ++ b') -> hd 0 (b' ++ closer n ++ rest) = 93 -> False.
Proof.
  intros n b' rest H Hh. apply (H O); [cbn [length]; lia|].
  cbn [skipn].
  assert (E : exists s, b' ++ closer n = 93 :: s).
  { destruct b' as [|c b'']; [eexists; reflexivity|]. cbn [app hd] in Hh. subst c.
    eexists. reflexivity. }
  destruct E as [s E]. exists s.
  cbn [app]. rewrite <- app_assoc, E. unfold closer. cbn [app]. rewrite <- app_assoc. reflexivity.
Qed.

Lemma lpre_mk : forall p t r e,
  lpre p {| lr_tok := t; lr_rest := r; lr_end := e |} = {| lr_tok := p ++ t; lr_rest := r; lr_end := e |}.
Proof. reflexivity. Qed.

(** on a valid body followed by its closing bracket the loop stops exactly after that bracket *)
Lemma long_loop_body : forall f n body rest,
  long_body n body -> (length (body ++ closer n ++ rest) < f)%nat ->
  long_loop false f n (body ++ closer n ++ rest) =
    {| lr_tok := body ++ closer n; lr_rest := rest; lr_end := true |}.
Proof.
  induction f as [|f IH]; intros n body rest Hb Hf; [lia|].
  destruct body as [|c b].
  - (* the closing bracket itself *)
    unfold closer. cbn [app long_loop]. change (93 =? 93) with true. cbv iota.
    rewrite <- app_assoc. cbn [app].
    rewrite (eat_eq_repeat n (93 :: rest)) by discriminate.
    cbv beta iota zeta. cbn [hd tl]. rewrite Nat.eqb_refl. change (93 =? 93) with true.
    cbn [andb]. reflexivity.
  - destruct (N.eqb_spec c 93) as [E|E].
    + (* a [']'] inside the body *)
      subst c.
      destruct (eat_eq_split b (closer n ++ rest)) as (k & b' & Eb & Ee); [discriminate|].
      cbn [app long_loop]. change (93 =? 93) with true. cbv iota.
      rewrite Ee. cbv beta iota zeta.
      destruct (Nat.eqb k n && (hd 0 (b' ++ closer n ++ rest) =? 93)) eqn:Ec.
      * exfalso. apply andb_prop in Ec. destruct Ec as [Ek Eh].
        apply Nat.eqb_eq in Ek. apply N.eqb_eq in Eh. subst k b.
        exact (long_body_not_closer n b' rest Hb Eh).
      * cbn [andb].
        assert (Hb' : long_body n b').
        { apply (long_body_app_r n (93 :: repeat 61 k) b'). cbn [app]. rewrite <- Eb. exact Hb. }
        rewrite (IH n b' rest Hb').
        -- rewrite lpre_mk. subst b. cbn [app]. rewrite <- app_assoc. reflexivity.
        -- subst b. cbn [app length] in Hf. rewrite !app_length in Hf. rewrite !app_length. lia.
    + (* any other character *)
      cbn [app long_loop]. destruct (N.eqb_spec c 93) as [E'|_]; [contradiction|].
      rewrite (IH n b rest).
      * reflexivity.
      * exact (long_body_app_r n [c] b Hb).
      * cbn [app length] in Hf. lia.
Qed.

Lemma lex_long_string_body : forall n body rest,
  long_body n body ->
  lex_long_string false n (body ++ closer n ++ rest) =
    {| lr_tok := body ++ closer n; lr_rest := rest; lr_end := true |}.
Proof.
  intros n body rest Hb. unfold lex_long_string. apply long_loop_body; [exact Hb|]. lia.
Qed.

Lemma opener_app : forall n X, opener n ++ X = 91 :: repeat 61 n ++ 91 :: X.
Proof. intros n X. unfold opener. cbn [app]. rewrite <- app_assoc. reflexivity. Qed.

(** Every long string of the reference manual (any level, any body that does not contain the closing
    bracket of that level — line breaks, other brackets and closing brackets of other levels
    included), whatever follows it, is lexed as one [TkLongString] token that ends exactly at the
    closing bracket, without the errors "unfinished long string or comment" / "invalid long string
    delimiter". *)
Theorem long_string_complete : forall (n : nat) (body rest : text),
  long_body n body ->
  lex_long false (opener n ++ body ++ closer n ++ rest) =
    Some {| lt_kind := TkLongString; lt_text := opener n ++ body ++ closer n; lt_rest := rest;
            lt_err := false |}.
Proof.
  intros n body rest Hb. rewrite !opener_app.
  cbn [lex_long]. change (91 =? 91) with true. cbv iota. f_equal.
  unfold lex_bracket. rewrite (eat_eq_repeat n (91 :: body ++ closer n ++ rest)) by discriminate.
  cbv beta iota zeta. cbn [hd tl]. change (91 =? 91) with true. cbn [negb].
  rewrite andb_false_r. rewrite (lex_long_string_body n body rest Hb).
  cbn [lr_tok lr_rest lr_end negb]. reflexivity.
Qed.

(** The same for a long comment: [--] immediately followed by a long bracket. *)
Theorem long_comment_complete : forall (n : nat) (body rest : text),
  long_body n body ->
  lex_long false (45 :: 45 :: opener n ++ body ++ closer n ++ rest) =
    Some {| lt_kind := TkLongComment; lt_text := 45 :: 45 :: opener n ++ body ++ closer n;
            lt_rest := rest; lt_err := false |}.
Proof.
  intros n body rest Hb. rewrite !opener_app.
  cbn [lex_long]. change (45 =? 91) with false. change (45 =? 45) with true. cbv iota. f_equal.
  cbn [lex_minus]. change (45 =? 45) with true. cbn [negb hd tl]. change (91 =? 91) with true.
  cbv iota. rewrite (eat_eq_repeat n (91 :: body ++ closer n ++ rest)) by discriminate.
  cbv beta iota zeta. cbn [hd tl]. change (91 =? 91) with true. cbv iota.
  rewrite (lex_long_string_body n body rest Hb).
  cbn [lr_tok lr_rest lr_end negb]. reflexivity.
Qed.

(** in terms of [long_string] / [long_comment] *)
Corollary long_string_complete' : forall n s rest,
  long_string n s ->
  lex_long false (s ++ rest) =
    Some {| lt_kind := TkLongString; lt_text := s; lt_rest := rest; lt_err := false |}.
Proof.
  intros n s rest (body & -> & Hb).
  replace ((opener n ++ body ++ closer n) ++ rest) with (opener n ++ body ++ closer n ++ rest)
    by (rewrite <- !app_assoc; reflexivity).
  apply long_string_complete. exact Hb.
Qed.

Corollary long_comment_complete' : forall n s rest,
  long_comment n s ->
  lex_long false (s ++ rest) =
    Some {| lt_kind := TkLongComment; lt_text := s; lt_rest := rest; lt_err := false |}.
Proof.
  intros n s rest (body & -> & Hb).
  replace ((45 :: 45 :: opener n ++ body ++ closer n) ++ rest)
    with (45 :: 45 :: opener n ++ body ++ closer n ++ rest)
    by (cbn [app]; rewrite <- !app_assoc; reflexivity).
  apply long_comment_complete. exact Hb.
Qed.

(** * the decision procedure is sound *)

Lemma is_prefix_prefixb : forall p t, is_prefix p t -> prefixb p t = true.
Proof.
  induction p as [|x p IH]; intros t [s E]; [reflexivity|].
  subst t. cbn [app prefixb]. rewrite N.eqb_refl. cbn [andb]. apply IH. exists s. reflexivity.
Qed.

Lemma no_closer_sound : forall cl k t,
  no_closer cl k t = true -> forall i, (i < k)%nat -> ~ is_prefix cl (skipn i t).
Proof.
  intros cl k. induction k as [|k IH]; intros t H i Hi Hp; [lia|].
  cbn [no_closer] in H. apply andb_prop in H. destruct H as [H0 Ht].
  apply negb_true_iff in H0.
  destruct i as [|i].
  - cbn [skipn] in Hp. rewrite (is_prefix_prefixb cl t Hp) in H0. discriminate.
  - destruct t as [|c t].
    + cbn [skipn] in Hp. rewrite (is_prefix_prefixb cl [] Hp) in H0. discriminate.
    + cbn [skipn] in Hp. apply (IH t Ht i); [lia|exact Hp].
Qed.

Lemma long_bodyb_sound : forall n body, long_bodyb n body = true -> long_body n body.
Proof. intros n body H i Hi. exact (no_closer_sound _ _ _ H i Hi). Qed.

(** * refutation of the greedy mutant *)

(** [[=[a]]=]] : level 1, body [a]] *)
Lemma long_greedy_refuted :
  exists n body, long_body n body /\
    exists t, lex_long true (opener n ++ body ++ closer n) = Some t /\ lt_err t = true.
Proof.
  exists 1%nat, [97; 93]. split; [apply long_bodyb_sound; reflexivity|].
  eexists. split; [vm_compute; reflexivity|reflexivity].
Qed.

Definition ok_token (k : lkind) (s rest : text) : option ltoken :=
  Some {| lt_kind := k; lt_text := s; lt_rest := rest; lt_err := false |}.

(** [[=[a]]=]] *)
Example ex_long_1 :
  long_body 1 [97; 93] /\
  lex_long false [91; 61; 91; 97; 93; 93; 61; 93] = ok_token TkLongString [91; 61; 91; 97; 93; 93; 61; 93] [].
Proof. split; [apply long_bodyb_sound; reflexivity|vm_compute; reflexivity]. Qed.

(** [[==[t[i]]==]] *)
Example ex_long_2 :
  let s := [91; 61; 61; 91; 116; 91; 105; 93; 93; 61; 61; 93] in
  long_body 2 [116; 91; 105; 93] /\ lex_long false s = ok_token TkLongString s [].
Proof. split; [apply long_bodyb_sound; reflexivity|vm_compute; reflexivity]. Qed.

(** [[[a]=]]] : a closing bracket of level 1 inside a string of level 0 *)
Example ex_long_3 :
  let s := [91; 91; 97; 93; 61; 93; 93] in
  long_body 0 [97; 93; 61] /\ lex_long false s = ok_token TkLongString s [].
Proof. split; [apply long_bodyb_sound; reflexivity|vm_compute; reflexivity]. Qed.

(** [[=[a]==]=]] : a closing bracket of level 2 inside a string of level 1 *)
Example ex_long_4 :
  let s := [91; 61; 91; 97; 93; 61; 61; 93; 61; 93] in
  long_body 1 [97; 93; 61; 61] /\ lex_long false s = ok_token TkLongString s [].
Proof. split; [apply long_bodyb_sound; reflexivity|vm_compute; reflexivity]. Qed.

(** [--[=[ x = t[u[1]]=]] followed by a line break *)
Example ex_long_comment :
  let s := [45; 45; 91; 61; 91; 32; 120; 32; 61; 32; 116; 91; 117; 91; 49; 93; 93; 61; 93] in
  long_body 1 [32; 120; 32; 61; 32; 116; 91; 117; 91; 49; 93] /\
  lex_long false (s ++ [10]) = ok_token TkLongComment s [10].
Proof. split; [apply long_bodyb_sound; reflexivity|vm_compute; reflexivity]. Qed.

(** [[[<LF>line]]] *)
Example ex_long_newline :
  let s := [91; 91; 10; 108; 105; 110; 101; 93; 93] in
  long_body 0 [10; 108; 105; 110; 101] /\ lex_long false s = ok_token TkLongString s [].
Proof. split; [apply long_bodyb_sound; reflexivity|vm_compute; reflexivity]. Qed.

(** [[[x]=]]]] is [[[x]=]]] followed by []] *)
Example ex_long_first_closer :
  long_body 0 [120; 93; 61] /\
  lex_long false [91; 91; 120; 93; 61; 93; 93; 93] = ok_token TkLongString [91; 91; 120; 93; 61; 93; 93] [93].
Proof. split; [apply long_bodyb_sound; reflexivity|vm_compute; reflexivity]. Qed.

(** the other outcomes of the two arms: [[x], [[=x] (invalid delimiter), [-x], [--[=x] (short comment),
    [[[x] (unfinished) *)
Example ex_long_others :
  lex_long false [91; 120] = ok_token TkLeftBracket [91] [120] /\
  lex_long false [91; 61; 120] =
    Some {| lt_kind := TkLongString; lt_text := [91; 61]; lt_rest := [120]; lt_err := true |} /\
  lex_long false [45; 120] = ok_token TkMinus [45] [120] /\
  lex_long false [45; 45; 91; 61; 120; 10; 121] = ok_token TkShortComment [45; 45; 91; 61; 120] [10; 121] /\
  lex_long false [91; 91; 120] =
    Some {| lt_kind := TkLongString; lt_text := [91; 91; 120]; lt_rest := []; lt_err := true |}.
Proof. vm_compute. repeat split; reflexivity. Qed.
