(** C03/Facts.v — small facts used by the completeness proofs: "eventually equal" (fuel) combinators,
    consequences of the table obligation, token classes. *)
From Coq Require Import List Bool Arith Lia.
Import ListNotations.
From EV Require Import C03.Syntax C03.Spec C03.Model.

(** * fuel: [ev g X] = with enough fuel, g returns X *)
Definition ev {A : Type} (g : nat -> res A) (X : res A) : Prop := exists n, forall f, n <= f -> g f = X.

Lemma ev_const : forall (A : Type) (X : res A), ev (fun _ => X) X.
Proof. intros. exists 0. reflexivity. Qed.

Lemma ev_S : forall (A : Type) (g h : nat -> res A) (X : res A),
  (forall f, g (S f) = h f) -> ev h X -> ev g X.
Proof.
  intros A g h X Hs [n Hn]. exists (S n). intros f Hf. destruct f as [|f]; [lia|].
  rewrite Hs. apply Hn. lia.
Qed.

Lemma ev_ext : forall (A : Type) (g h : nat -> res A) (X : res A),
  (forall f, g f = h f) -> ev h X -> ev g X.
Proof. intros A g h X He [n Hn]. exists n. intros f Hf. rewrite He. apply Hn. exact Hf. Qed.

Lemma ev_bind : forall (A B : Type) (g : nat -> res A) (k : nat -> A -> list tok -> res B) a r (X : res B),
  ev g (Ok a r) -> ev (fun f => k f a r) X -> ev (fun f => bind (g f) (k f)) X.
Proof.
  intros A B g k a r X [n1 H1] [n2 H2]. exists (n1 + n2). intros f Hf.
  rewrite H1 by lia. cbn [bind]. apply H2. lia.
Qed.

Lemma ev_eq : forall (A : Type) (g : nat -> res A) (X Y : res A), X = Y -> ev g X -> ev g Y.
Proof. intros. subst. assumption. Qed.

Lemma existsb_In : forall (A : Type) (beq : A -> A -> bool), (forall x y, beq x y = true -> x = y) ->
  forall l x, existsb (beq x) l = true -> In x l.
Proof.
  intros A beq Hbl l x H. apply existsb_exists in H. destruct H as (y & Hin & Hy).
  rewrite (Hbl _ _ Hy). exact Hin.
Qed.

Lemma all_toks_complete : forall t : tok, In t all_toks.
Proof. intros t. apply (existsb_In _ tok_beq internal_tok_dec_bl). destruct t; reflexivity. Qed.
Lemma all_binops_complete : forall b : binop, In b all_binops.
Proof. intros b. apply (existsb_In _ binop_beq internal_binop_dec_bl). destruct b; reflexivity. Qed.

Definition nosuffixb (ts : list tok) : bool := match ts with [] => true | x :: _ => negb (suffix_start x) end.
Definition nobinopb (ts : list tok) : bool := match ts with [] => true | x :: _ => negb (is_binop_tok x) end.
(** the next operator (if any) is looser than level m, or of level m and left associative *)
Definition followb (m : nat) (ts : list tok) : bool :=
  match ts with
  | [] => true
  | x :: _ => match man_binop_of x with
              | None => true
              | Some o => (man_level o <? m) || ((man_level o =? m) && negb (man_rassoc o))
              end
  end.

Definition is_unop_tok (t : tok) : bool := match man_unop_of t with Some _ => true | None => false end.
Definition simple_start (t : tok) : bool :=
  is_literal_tok t || match t with TLBrace | TFunction | TName | TLParen => true | _ => false end.
Definition expr_start (t : tok) : bool := simple_start t || is_unop_tok t.

Lemma man_binop_of_tok : forall o, man_binop_of (binop_tok o) = Some o.
Proof. destruct o; reflexivity. Qed.
Lemma man_unop_of_tok : forall u, man_unop_of (unop_tok u) = Some u.
Proof. destruct u; reflexivity. Qed.
Lemma binop_tok_not_suffix : forall o, suffix_start (binop_tok o) = false.
Proof. destruct o; reflexivity. Qed.
Lemma simple_start_not_unop : forall t, simple_start t = true -> man_unop_of t = None.
Proof. destruct t; cbn; intros H; try reflexivity; discriminate. Qed.
Lemma level_le_12 : forall o, man_level o <= 12.
Proof. destruct o; cbn; lia. Qed.
Lemma level_ge_1 : forall o, 1 <= man_level o.
Proof. destruct o; cbn; lia. Qed.
Lemma level_not_11 : forall o, man_level o <> 11.
Proof. destruct o; cbn; lia. Qed.
Lemma same_level_rassoc : forall a o, man_level a = man_level o -> man_rassoc a = man_rassoc o.
Proof. destruct a, o; cbn; intros H; try reflexivity; discriminate. Qed.
Lemma level12_rassoc : forall a, man_level a = 12 -> man_rassoc a = true.
Proof. destruct a; cbn; intros H; try reflexivity; discriminate. Qed.
Lemma pow_is_level12 : man_level OpPow = 12.
Proof. reflexivity. Qed.

Lemma followb_mono : forall m ts, followb m ts = true -> followb (S m) ts = true.
Proof.
  intros m [|x r] H; [reflexivity|]. cbn [followb] in *. destruct (man_binop_of x) as [o|]; [|reflexivity].
  apply orb_true_iff in H. apply orb_true_iff. left. apply Nat.ltb_lt.
  destruct H as [H|H].
  - apply Nat.ltb_lt in H. lia.
  - apply andb_true_iff in H. destruct H as [H _]. apply Nat.eqb_eq in H. lia.
Qed.

(** an operator of level 12 is right associative, so what may follow at level 12 is below level 11 *)
Lemma followb_pow : forall ts, followb 12 ts = true -> followb 11 ts = true.
Proof.
  intros [|x r] H; [reflexivity|]. cbn [followb] in *. destruct (man_binop_of x) as [o|]; [|reflexivity].
  apply orb_true_iff in H. apply orb_true_iff. left. apply Nat.ltb_lt. pose proof (level_not_11 o).
  destruct H as [H|H].
  - apply Nat.ltb_lt in H. lia.
  - apply andb_true_iff in H. destruct H as [He Hn]. apply Nat.eqb_eq in He.
    rewrite (level12_rassoc o He) in Hn. discriminate.
Qed.

Lemma followb_of_nobinop : forall m ts, nobinopb ts = true -> followb m ts = true.
Proof.
  intros m [|x r] H; [reflexivity|]. cbn [followb nobinopb] in *. unfold is_binop_tok in H.
  destruct (man_binop_of x); [discriminate|reflexivity].
Qed.

Section Table.
  Variable binop_of : tok -> option binop.
  Variable unop_of : tok -> option unop.
  Variable bl br : binop -> nat.
  Variable up : nat.
  Hypothesis Htab : table_ok binop_of unop_of bl br up = true.

  Lemma tab_split :
    (forall a b, (br b <? bl a) = absorbs a b) /\
    (forall a, (up <? bl a) = (man_unary_level <? man_level a)) /\
    (forall a, 0 < bl a) /\
    (forall t, binop_of t = man_binop_of t) /\
    (forall t, unop_of t = man_unop_of t).
  Proof.
    pose proof Htab as H. unfold table_ok in H.
    apply andb_true_iff in H. destruct H as [H H5].
    apply andb_true_iff in H. destruct H as [H H4].
    apply andb_true_iff in H. destruct H as [H H3].
    apply andb_true_iff in H. destruct H as [H1 H2].
    rewrite forallb_forall in H1, H2, H3, H4, H5.
    repeat split.
    - intros a b. specialize (H1 a (all_binops_complete a)). rewrite forallb_forall in H1.
      specialize (H1 b (all_binops_complete b)). apply Bool.eqb_prop in H1. exact H1.
    - intros a. specialize (H2 a (all_binops_complete a)). apply Bool.eqb_prop in H2. exact H2.
    - intros a. specialize (H3 a (all_binops_complete a)). apply Nat.ltb_lt in H3. exact H3.
    - intros t. specialize (H4 t (all_toks_complete t)).
      destruct (binop_of t) as [a|], (man_binop_of t) as [b|]; try discriminate; try reflexivity.
      apply internal_binop_dec_bl in H4. subst. reflexivity.
    - intros t. specialize (H5 t (all_toks_complete t)).
      destruct (unop_of t) as [a|], (man_unop_of t) as [b|]; try discriminate; try reflexivity.
      apply internal_unop_dec_bl in H5. subst. reflexivity.
  Qed.

  Lemma tab_abs : forall a b, (br b <? bl a) = absorbs a b. Proof. apply tab_split. Qed.
  Lemma tab_un : forall a, (up <? bl a) = (man_unary_level <? man_level a). Proof. apply tab_split. Qed.
  Lemma tab_pos : forall a, 0 < bl a. Proof. apply tab_split. Qed.
  Lemma tab_binop : forall t, binop_of t = man_binop_of t. Proof. apply tab_split. Qed.
  Lemma tab_unop : forall t, unop_of t = man_unop_of t. Proof. apply tab_split. Qed.

  (** [accepts lim m]: a loop with limit lim takes every operator of level >= m *)
  Definition accepts (lim m : nat) : Prop := forall a, m <= man_level a -> lim < bl a.

  Lemma accepts_0 : forall m, accepts 0 m.
  Proof. intros m a _. apply tab_pos. Qed.

  Lemma accepts_mono : forall lim m, accepts lim m -> accepts lim (S m).
  Proof. intros lim m H a Ha. apply H. lia. Qed.

  Lemma accepts_right_left : forall o, accepts (br o) (S (man_level o)).
  Proof.
    intros o a Ha. apply Nat.ltb_lt. rewrite tab_abs. unfold absorbs.
    apply orb_true_iff. left. apply Nat.ltb_lt. lia.
  Qed.

  Lemma accepts_right_right : forall o, man_rassoc o = true -> accepts (br o) (man_level o).
  Proof.
    intros o Ho a Ha. apply Nat.ltb_lt. rewrite tab_abs. unfold absorbs.
    apply orb_true_iff. destruct (Nat.eq_dec (man_level a) (man_level o)) as [E|E].
    - right. rewrite E, Nat.eqb_refl. cbn. rewrite (same_level_rassoc a o E). exact Ho.
    - left. apply Nat.ltb_lt. lia.
  Qed.

  Lemma accepts_unary : accepts up 11.
  Proof.
    intros a Ha. apply Nat.ltb_lt. rewrite tab_un. unfold man_unary_level. apply Nat.ltb_lt.
    pose proof (level_not_11 a). lia.
  Qed.

  Lemma accepts_pow_right : accepts (br OpPow) 11.
  Proof.
    intros a Ha. pose proof (level_not_11 a). pose proof (level_le_12 a).
    assert (E : man_level a = 12) by lia.
    apply Nat.ltb_lt. rewrite tab_abs. unfold absorbs. apply orb_true_iff. right.
    rewrite E. cbn. apply level12_rassoc. exact E.
  Qed.

  (** after the right operand of [o] the next operator (allowed by followb at o's level) is not taken *)
  Lemma not_absorbed : forall o m x r, man_level o = m -> followb m (x :: r) = true ->
    match man_binop_of x with Some o2 => bl o2 <= br o | None => True end.
  Proof.
    intros o m x r Hm Hf. cbn [followb] in Hf. destruct (man_binop_of x) as [o2|]; [|exact I].
    apply Nat.leb_le. rewrite Nat.leb_antisym. apply negb_true_iff. rewrite tab_abs. unfold absorbs.
    apply orb_false_iff. apply orb_true_iff in Hf. destruct Hf as [Hf|Hf].
    - apply Nat.ltb_lt in Hf. split.
      + apply Nat.ltb_ge. lia.
      + apply andb_false_iff. left. apply Nat.eqb_neq. lia.
    - apply andb_true_iff in Hf. destruct Hf as [He Hr]. apply Nat.eqb_eq in He. apply negb_true_iff in Hr. split.
      + apply Nat.ltb_ge. lia.
      + apply andb_false_iff. right. exact Hr.
  Qed.

  Lemma not_absorbed_unary : forall x r, followb 11 (x :: r) = true ->
    match man_binop_of x with Some o2 => bl o2 <= up | None => True end.
  Proof.
    intros x r Hf. cbn [followb] in Hf. destruct (man_binop_of x) as [o2|]; [|exact I].
    apply Nat.leb_le. rewrite Nat.leb_antisym. apply negb_true_iff. rewrite tab_un. unfold man_unary_level.
    apply Nat.ltb_ge. apply orb_true_iff in Hf. destruct Hf as [Hf|Hf].
    - apply Nat.ltb_lt in Hf. lia.
    - apply andb_true_iff in Hf. destruct Hf as [He _]. apply Nat.eqb_eq in He. lia.
  Qed.
End Table.
