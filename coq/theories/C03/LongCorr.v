(** C03/LongCorr.v — comparing the model of the long-bracket arms with observations of the Rust lexer.
    A [long_case] carries a text that starts with ['['] or ['-'] (anything may follow the first token)
    and what the harness observed for the FIRST token:
      kind    0 = TkLongString, 1 = TkLongComment, 2 = TkLeftBracket, 3 = TkShortComment, 4 = TkMinus,
              5 = anything else,
      length  of the token text in UTF-8 BYTES,
      err     the lexer pushed an error for this token ("unfinished long string or comment" /
              "invalid long string delimiter").
    [check_long_case] recomputes the three values with the model and compares; it is [false] when
    the text starts with neither character.  Evaluation is linear in the length of the text. *)
From Coq Require Import PeanoNat.
From EV Require Import Base.TextFacts C03.LongModel C03.LongSpec C03.LongProofs.
Local Open Scope N_scope.

Record long_case : Type := {
  lg_text : list N;
  lg_obs_kind : N;
  lg_obs_len : N;
  lg_obs_err : bool
}.

Definition lkind_code (k : lkind) : N :=
  match k with
  | TkLongString => 0 | TkLongComment => 1 | TkLeftBracket => 2 | TkShortComment => 3
  | TkMinus => 4 | TkOther => 5
  end.

Definition check_long_case_with (greedy : bool) (c : long_case) : bool :=
  match lex_long greedy (lg_text c) with
  | Some t =>
      (lkind_code (lt_kind t) =? lg_obs_kind c) && (bytes (lt_text t) =? lg_obs_len c)
      && Bool.eqb (lt_err t) (lg_obs_err c)
  | None => false
  end.

(** the code as written *)
Definition check_long_case (c : long_case) : bool := check_long_case_with false c.
(** the greedy mutant of the closing-bracket search *)
Definition check_long_case_greedy (c : long_case) : bool := check_long_case_with true c.

(** * what an agreeing observation of a valid long bracket looks like *)

Lemma check_long_case_token : forall c t,
  check_long_case c = true -> lex_long false (lg_text c) = Some t ->
  lg_obs_kind c = lkind_code (lt_kind t) /\ lg_obs_len c = bytes (lt_text t) /\ lg_obs_err c = lt_err t.
Proof.
  intros c t H Ht. unfold check_long_case, check_long_case_with in H. rewrite Ht in H.
  apply andb_prop in H. destruct H as [H He]. apply andb_prop in H. destruct H as [Hk Hl].
  apply N.eqb_eq in Hk, Hl. apply Bool.eqb_prop in He.
  repeat split; symmetry; assumption.
Qed.

Lemma agreeing_long_string_has_no_error : forall n s rest k len e,
  long_string n s ->
  check_long_case {| lg_text := s ++ rest; lg_obs_kind := k; lg_obs_len := len; lg_obs_err := e |} = true ->
  k = 0 /\ len = bytes s /\ e = false.
Proof.
  intros n s rest k len e Hs H. exact (check_long_case_token _ _ H (long_string_complete' n s rest Hs)).
Qed.

Lemma agreeing_long_comment_has_no_error : forall n s rest k len e,
  long_comment n s ->
  check_long_case {| lg_text := s ++ rest; lg_obs_kind := k; lg_obs_len := len; lg_obs_err := e |} = true ->
  k = 1 /\ len = bytes s /\ e = false.
Proof.
  intros n s rest k len e Hs H. exact (check_long_case_token _ _ H (long_comment_complete' n s rest Hs)).
Qed.

(** * examples *)

(** [[=[a]]=] x] : a long string of 8 bytes *)
Example corr_long_string :
  check_long_case {| lg_text := [91; 61; 91; 97; 93; 93; 61; 93; 32; 120]; lg_obs_kind := 0;
                     lg_obs_len := 8; lg_obs_err := false |} = true.
Proof. vm_compute. reflexivity. Qed.

(** the same observation refutes the greedy mutant (it runs to the end of the text, with an error) *)
Example corr_long_string_greedy :
  check_long_case_greedy {| lg_text := [91; 61; 91; 97; 93; 93; 61; 93; 32; 120]; lg_obs_kind := 0;
                            lg_obs_len := 8; lg_obs_err := false |} = false.
Proof. vm_compute. reflexivity. Qed.

(** [--[==[ é ]==]] : a long comment, length in bytes *)
Example corr_long_comment :
  check_long_case {| lg_text := [45; 45; 91; 61; 61; 91; 32; 233; 32; 93; 61; 61; 93]; lg_obs_kind := 1;
                     lg_obs_len := 14; lg_obs_err := false |} = true.
Proof. vm_compute. reflexivity. Qed.

(** [--[= x<LF>y] : a short comment; [[= x] : invalid delimiter; [[[x] : unfinished; [[x] ; [-x] *)
Example corr_others :
  check_long_case {| lg_text := [45; 45; 91; 61; 32; 120; 10; 121]; lg_obs_kind := 3; lg_obs_len := 6;
                     lg_obs_err := false |} = true /\
  check_long_case {| lg_text := [91; 61; 32; 120]; lg_obs_kind := 0; lg_obs_len := 2;
                     lg_obs_err := true |} = true /\
  check_long_case {| lg_text := [91; 91; 120]; lg_obs_kind := 0; lg_obs_len := 3;
                     lg_obs_err := true |} = true /\
  check_long_case {| lg_text := [91; 120]; lg_obs_kind := 2; lg_obs_len := 1; lg_obs_err := false |} = true /\
  check_long_case {| lg_text := [45; 120]; lg_obs_kind := 4; lg_obs_len := 1; lg_obs_err := false |} = true /\
  check_long_case {| lg_text := [120]; lg_obs_kind := 5; lg_obs_len := 1; lg_obs_err := false |} = false.
Proof. vm_compute. repeat split; reflexivity. Qed.
