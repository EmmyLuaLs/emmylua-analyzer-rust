(** C25/Proofs.v — the handlers' prologue only ever uses offsets the line index has produced, and those are
    character boundaries inside the text ([offset_always_valid]); every crash site is discharged from that. *)
From EV Require Import Base.TextFacts C22.Model C22.Props C25.Model.
Local Open Scope N_scope.

Lemma offset_always_valid : forall (t : text) (line col : N),
  match get_offset (parse t) t line col with
  | Val o => o <= bytes t /\ boundaryb t o = true /\ line < line_count (parse t)
  | Nothing => line_count (parse t) <= line
  | Panic => False
  end.
Proof.
  intros t line col.
  destruct (N.ltb_spec line (line_count (parse t))) as [L|L].
  - destruct (clamp_to_line t line col L) as [o [start [_ [E [_ [H1 [H2 [H3 _]]]]]]]].
    rewrite E. split; [lia|]. split; assumption.
  - rewrite (missing_line_none t line col L). exact L.
Qed.

(** the prologue crashes only at a token lookup past the end of the tree: impossible behind the guard, and
    impossible when the tree covers the text *)
Lemma entry_safe : forall (guard lookup : bool) (root_end : N) (t : text) (line col : N),
  (lookup = true -> guard = true \/ bytes t <= root_end) -> entry guard lookup root_end t line col <> Crash.
Proof.
  intros guard lookup root_end t line col H. unfold entry, token_at_offset_ok.
  pose proof (offset_always_valid t line col) as V.
  destruct (get_offset (parse t) t line col) as [o| |]; [|discriminate|contradiction].
  destruct lookup; [|destruct (guard && _); discriminate].
  destruct (N.ltb_spec root_end o) as [G|G], (N.leb_spec o root_end) as [K|K]; try lia.
  - destruct (H eq_refl) as [->|R]; [discriminate|lia].
  - rewrite andb_false_r. discriminate.
Qed.

Lemma guarded_entry_never_crashes : forall (lookup : bool) (root_end : N) (t : text) (line col : N),
  entry true lookup root_end t line col <> Crash.
Proof. intros. apply entry_safe. auto. Qed.

Lemma unguarded_entry_safe_on_lossless_tree : forall (lookup : bool) (root_end : N) (t : text) (line col : N),
  bytes t <= root_end -> entry false lookup root_end t line col <> Crash.
Proof. intros. apply entry_safe. auto. Qed.

(** "local a = 1\0 local b = 2\n": the tree of the real parser ends at the NUL (root_end = 11, property C01);
    the position (1, 0) is the end of the 25-byte text *)
Definition nul_text : text :=
  [108; 111; 99; 97; 108; 32; 97; 32; 61; 32; 49; 0; 32; 108; 111; 99; 97; 108; 32; 98; 32; 61; 32; 50; 10].

Lemma unguarded_lossy_refuted : exists (root_end : N) (t : text) (line col : N),
  root_end < bytes t /\ entry false true root_end t line col = Crash.
Proof. exists 11, nul_text, 1, 0. split; vm_compute; reflexivity. Qed.

Lemma range_entry_never_crashes : forall (t : text) (p q : N * N),
  match to_rowan_range_checked t p q with
  | Val (a, b) => a <= b /\ b <= bytes t /\ slice t a b <> None
  | Nothing => True
  | Panic => False
  end /\ range_entry t p q <> Crash.
Proof.
  intros t p q. unfold range_entry, to_rowan_range_checked.
  pose proof (offset_always_valid t (fst p) (snd p)) as Hp.
  pose proof (offset_always_valid t (fst q) (snd q)) as Hq.
  destruct (get_offset (parse t) t (fst p) (snd p)) as [a| |]; [|split; [exact I|discriminate]|contradiction].
  destruct (get_offset (parse t) t (fst q) (snd q)) as [b| |]; [|split; [exact I|discriminate]|contradiction].
  destruct (N.ltb_spec b a) as [R|R]; [split; [exact I|discriminate]|].
  destruct Hp as [_ [Ba _]]. destruct Hq as [Lb [Bb _]].
  pose proof (slice_boundaries t a b Ba Bb R) as S.
  split; [auto|]. destruct (slice t a b); [discriminate|contradiction].
Qed.

Lemma site_ok_safe : forall (s : site), site_ok s = true ->
  forall (root_end : N) (t : text) (p q : N * N), site_entry s root_end t p q <> Crash.
Proof.
  intros s Hs root_end t p q. unfold site_entry. unfold site_ok in Hs.
  destruct (s_source s); [|apply range_entry_never_crashes|discriminate..].
  apply entry_safe. intros L. rewrite L in Hs. left. exact Hs.
Qed.

Lemma text_range_new_ordered : forall a b, a <= b -> text_range_new a b <> Crash.
Proof. intros a b H. unfold text_range_new. destruct (N.ltb_spec b a); [lia|discriminate]. Qed.

Lemma classified_range_site_never_crashes : forall (kind : order_kind) (a b k : N),
  kind <> UnknownOrder -> range_site_entry kind a b k <> Crash.
Proof.
  intros kind a b k Hk. destruct kind; cbn [range_site_entry]; [..|contradiction].
  1-3: apply text_range_new_ordered; lia.
  all: destruct (N.ltb_spec b a); [discriminate|apply text_range_new_ordered; assumption].
Qed.

Lemma unknown_range_site_refuted : exists a b k, range_site_entry UnknownOrder a b k = Crash.
Proof. exists 20, 19, 0. reflexivity. Qed.
