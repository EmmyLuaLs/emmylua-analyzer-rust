(** C25/Props.v — property theorems only.  Each follows from a lemma of Proofs.v; those about the generated
    tables evaluate the decidable obligation on today's table first. *)
From EV Require Import C22.Model C25.Model C25.Proofs Gen.C25_Handlers.
Local Open Scope N_scope.

(** Offset safety.  For EVERY text and EVERY client position, [LuaDocument::get_offset] never panics and answers
    either nothing (exactly when the line does not exist) or an offset inside the document on a character
    boundary — so neither a string slice nor rowan's range assertion can fail on it. *)
Theorem offset_always_valid : forall (t : text) (line col : N),
  match get_offset (parse t) t line col with
  | Val o => o <= bytes t /\ boundaryb t o = true /\ line < line_count (parse t)
  | Nothing => line_count (parse t) <= line
  | Panic => False
  end.
Proof. exact Proofs.offset_always_valid. Qed.

(** A handler prologue WITH the `offset > root end => None` guard never crashes, whatever the position and
    whatever the extent of the syntax tree (even when the parser lost the tail of the text, property C01). *)
Theorem guarded_entry_never_crashes : forall (lookup : bool) (root_end : N) (t : text) (line col : N),
  entry true lookup root_end t line col <> Crash.
Proof. exact Proofs.guarded_entry_never_crashes. Qed.

(** Without the guard the prologue is safe only if the tree covers the whole text ... *)
Theorem unguarded_entry_safe_on_lossless_tree : forall (lookup : bool) (root_end : N) (t : text) (line col : N),
  bytes t <= root_end -> entry false lookup root_end t line col <> Crash.
Proof. exact Proofs.unguarded_entry_safe_on_lossless_tree. Qed.

(** ... and it does crash when the tree is shorter than the text (the document with a NUL character, replayed on
    the real server: selectionRange / inlineValue / codeAction got no response before the fix). *)
Theorem unguarded_lossy_refuted : exists (root_end : N) (t : text) (line col : N),
  root_end < bytes t /\ entry false true root_end t line col = Crash.
Proof. exact Proofs.unguarded_lossy_refuted. Qed.

(** Range-taking handlers: [to_rowan_range] yields an ordered in-document range on character boundaries or
    nothing (reversed ranges are rejected), and slicing the text by it cannot panic. *)
Theorem range_entry_never_crashes : forall (t : text) (p q : N * N),
  match to_rowan_range_checked t p q with
  | Val (a, b) => a <= b /\ b <= bytes t /\ slice t a b <> None
  | Nothing => True
  | Panic => False
  end /\ range_entry t p q <> Crash.
Proof. exact Proofs.range_entry_never_crashes. Qed.

(** The table regenerated from today's source: every site obtains its offset through get_offset /
    to_rowan_range (or from the tree itself), and every token lookup on a client offset is guarded. *)
Theorem all_sites_ok : forallb site_ok sites = true.
Proof. vm_compute. reflexivity. Qed.

(** Hence no site of today's handlers can crash on any client position or range, for any text and any tree extent. *)
Theorem all_sites_safe : forall (s : site), In s sites ->
  forall (root_end : N) (t : text) (p q : N * N), site_entry s root_end t p q <> Crash.
Proof.
  intros s Hin. apply Proofs.site_ok_safe.
  exact (proj1 (forallb_forall site_ok sites) all_sites_ok s Hin).
Qed.

(** Ranges built inside the handlers.  [TextRange::new(A, B)] asserts A <= B; a site classified as end = start +
    size, both ends of one range (shifted or not), or guarded by an explicit order test cannot crash for any
    values; [Reviewed] sites carry a hand-checked invariant A <= B (trusted, pinned to a hash of the function). *)
Theorem classified_range_site_never_crashes : forall (kind : order_kind) (a b k : N),
  kind <> UnknownOrder -> range_site_entry kind a b k <> Crash.
Proof. exact Proofs.classified_range_site_never_crashes. Qed.

(** ... while an unclassified construction can (the completion range (start+1, end-1) of a lone opening quote:
    20..19, found by the search and fixed). *)
Theorem unknown_range_site_refuted : exists a b k, range_site_entry UnknownOrder a b k = Crash.
Proof. exact Proofs.unknown_range_site_refuted. Qed.

(** today's table of every TextRange::new site under handlers/: none is unclassified *)
Theorem all_range_sites_ok : forallb range_site_ok range_sites = true.
Proof. vm_compute. reflexivity. Qed.

Theorem all_range_sites_safe : forall (s : range_site), In s range_sites ->
  forall (a b k : N), range_site_entry (r_kind s) a b k <> Crash.
Proof.
  intros s Hin a b k. apply Proofs.classified_range_site_never_crashes.
  pose proof (proj1 (forallb_forall range_site_ok range_sites) all_range_sites_ok s Hin) as H.
  unfold range_site_ok in H. destruct (r_kind s); try discriminate; congruence.
Qed.

(** non-vacuity: a text with an astral character, CRLF and no trailing newline; positions inside the surrogate
    pair, past the end of a line, past the end of the document, at column u32::MAX; a reversed range *)
Example entry_example :
  let t := [97; 128512; 98; 13; 10; 99; 100] in
  entry true true (bytes t) t 0 2 = Proceeds 1 /\ entry true true (bytes t) t 0 3 = Proceeds 5
  /\ entry true true (bytes t) t 0 4294967295 = Proceeds 7 /\ entry true true (bytes t) t 1 100 = Proceeds 10
  /\ entry true true (bytes t) t 2 0 = RetNone /\ entry true true (bytes t) t 7 4294967295 = RetNone
  /\ entry true true 3 t 1 0 = RetNone /\ entry false true 3 t 1 0 = Crash
  /\ range_entry t (0, 1) (1, 2) = Proceeds 1 /\ range_entry t (1, 2) (0, 1) = RetNone
  /\ (exists s, In s sites /\ s_source s = ViaGetOffset /\ s_lookup s = true)
  /\ (exists s, In s sites /\ s_source s = ViaRowanRange).
Proof.
  cbv zeta. repeat (split; [vm_compute; reflexivity|]).
  split.
  - assert (existsb (fun s => match s_source s with ViaGetOffset => s_lookup s | _ => false end) sites = true) as H
      by (vm_compute; reflexivity).
    apply existsb_exists in H. destruct H as [s [Hin Hs]]. exists s. split; [exact Hin|].
    destruct (s_source s); try discriminate. split; [reflexivity|exact Hs].
  - assert (existsb (fun s => match s_source s with ViaRowanRange => true | _ => false end) sites = true) as H
      by (vm_compute; reflexivity).
    apply existsb_exists in H. destruct H as [s [Hin Hs]]. exists s. split; [exact Hin|].
    destruct (s_source s); try discriminate. reflexivity.
Qed.
