(** C38/Proofs.v — soundness of the work-list trait solver of Model.v. *)
From Coq Require Import FMapPositive.
From EV Require Import C38.Model.
Local Open Scope N_scope.

Lemma ty_eqb_eq : forall a b, ty_eqb a b = true -> a = b.
Proof.
  induction a; destruct b; cbn [ty_eqb]; intros H; try discriminate; try reflexivity;
    rewrite ?andb_true_iff, ?N.eqb_eq, ?Bool.eqb_true_iff in H.
  1, 2: congruence.
  1, 2: destruct H; f_equal; auto.
  1-6: f_equal; auto.
  destruct H; congruence.
Qed.

Lemma goal_eqb_eq : forall g h, goal_eqb g h = true -> g = h.
Proof.
  intros [s t] [s' t'] H. unfold goal_eqb in H. cbn [fst snd] in H.
  apply andb_true_iff in H. destruct H as [H1 H2].
  apply Bool.eqb_prop in H1. apply ty_eqb_eq in H2. subst. reflexivity.
Qed.

Lemma mem_In : forall g l, mem g l = true -> In g l.
Proof.
  induction l as [|h l IH]; cbn [mem]; intros H; [discriminate|].
  apply orb_true_iff in H. destruct H as [H|H].
  - left. symmetry. apply goal_eqb_eq. exact H.
  - right. apply IH. exact H.
Qed.

Section Sound.
  Variable defs : list def.

  (** [h] is an immediate requirement of [g]: what [g]'s type owns (its fields after
      instantiation, the pointee of an Arc/Mutex/reference …) under the trait it needs *)
  Inductive requires : goal -> goal -> Prop :=
  | requires_intro : forall g subs h, expand defs g = Some subs -> In h subs -> requires g h.

  Inductive reach : goal -> goal -> Prop :=
  | reach_refl : forall g, reach g g
  | reach_step : forall g h k, reach g h -> requires h k -> reach g k.

  (** every seen goal expands, into goals that are seen or still to do *)
  Definition closed (seen todo : list goal) : Prop :=
    forall s, In s seen -> exists subs, expand defs s = Some subs /\ incl subs (seen ++ todo).

  Lemma check_closes : forall fuel todo seen,
    check defs fuel todo seen = true -> closed seen todo ->
    exists seen', incl (seen ++ todo) seen' /\ closed seen' [].
  Proof.
    induction fuel as [|f IH]; intros todo seen H C; cbn [check] in H; [discriminate|].
    destruct todo as [|g rest].
    - exists seen. split; [rewrite app_nil_r; apply incl_refl | exact C].
    - destruct (mem g seen) eqn:Mg.
      + apply mem_In in Mg.
        assert (M : incl (seen ++ g :: rest) (seen ++ rest)).
        { intros x. rewrite !in_app_iff. cbn [In]. intuition congruence. }
        destruct (IH rest seen H) as [seen' [S1 S2]].
        { intros s Hs. destruct (C s Hs) as [subs [E Hsub]]. exists subs. split; [exact E|exact (incl_tran Hsub M)]. }
        exists seen'. split; [exact (incl_tran M S1)|exact S2].
      + destruct (expand defs g) as [subs|] eqn:E; [|discriminate].
        assert (M : incl (seen ++ g :: rest) ((g :: seen) ++ subs ++ rest)).
        { intros x. cbn [app In]. rewrite !in_app_iff. cbn [In]. tauto. }
        destruct (IH (subs ++ rest) (g :: seen) H) as [seen' [S1 S2]].
        { intros s [<-|Hs].
          - exists subs. split; [exact E|]. apply incl_appr, incl_appl, incl_refl.
          - destruct (C s Hs) as [subs' [E' Hsub]]. exists subs'. split; [exact E'|exact (incl_tran Hsub M)]. }
        exists seen'. split; [exact (incl_tran M S1)|exact S2].
  Qed.

  Lemma closed_reach : forall seen g h,
    closed seen [] -> In g seen -> reach g h -> In h seen.
  Proof.
    intros seen g h C Hg R. induction R as [g|g h k R IH Q]; [exact Hg|].
    destruct Q as [h subs k E Hk]. destruct (C h (IH Hg)) as [subs' [E' Hsub]].
    rewrite E in E'. injection E' as <-. rewrite app_nil_r in Hsub. exact (Hsub k Hk).
  Qed.

  (** the leaves that are not thread-safe for the trait asked *)
  Inductive unsafe_leaf : goal -> Prop :=
  | ul_bad : forall s w, unsafe_leaf (s, TBad w)                    (* Rc, raw pointer, cursor node, guard *)
  | ul_cell : forall x, unsafe_leaf (true, TCell x)                  (* Cell / RefCell shared between threads *)
  | ul_unknown : forall s, unsafe_leaf (s, TUnknown)
  | ul_param : forall s i, unsafe_leaf (s, TParam i)
  | ul_dyn_send : forall y, unsafe_leaf (false, TDyn false y)        (* dyn Trait without + Send *)
  | ul_dyn_sync : forall s, unsafe_leaf (true, TDyn s false)         (* dyn Trait without + Sync *)
  | ul_unchecked : forall s id args d,
      nth_error defs (N.to_nat id) = Some d -> d_unsafe_send d || d_unsafe_sync d = true ->
      unsafe_leaf (s, TNamed id args)                                (* only thread-safe by [unsafe impl] *)
  | ul_dangling : forall s id args,
      nth_error defs (N.to_nat id) = None -> unsafe_leaf (s, TNamed id args).

  Lemma unsafe_leaf_expand : forall g, unsafe_leaf g -> expand defs g = None.
  Proof.
    intros g H. destruct H; cbn [expand]; try reflexivity.
    - rewrite H, H0. reflexivity.
    - rewrite H. reflexivity.
  Qed.

  Lemma check_no_unsafe_leaf : forall fuel todo,
    check defs fuel todo [] = true ->
    forall g h, In g todo -> reach g h -> ~ unsafe_leaf h.
  Proof.
    intros fuel todo H g h Hg R U.
    destruct (check_closes fuel todo [] H) as [seen' [S1 S2]]; [intros s []|].
    destruct (S2 h (closed_reach seen' g h S2 (S1 g Hg) R)) as [subs [E _]].
    rewrite (unsafe_leaf_expand h U) in E. discriminate.
  Qed.

  Lemma sync_ok_sound : forall fuel t,
    sync_ok defs fuel t = true -> forall h, reach (true, t) h -> ~ unsafe_leaf h.
  Proof. intros fuel t H h. apply (check_no_unsafe_leaf fuel _ H). left. reflexivity. Qed.

  Lemma send_ok_sound : forall fuel t,
    send_ok defs fuel t = true -> forall h, reach (false, t) h -> ~ unsafe_leaf h.
  Proof. intros fuel t H h. apply (check_no_unsafe_leaf fuel _ H). left. reflexivity. Qed.

  Lemma components_sync_sound : forall fuel id,
    components_sync defs fuel id = true ->
    forall g h, In g (component_goals defs id) -> reach g h -> ~ unsafe_leaf h.
  Proof. intros fuel id. apply check_no_unsafe_leaf. Qed.
End Sound.

(** [check] spends its time in [mem g seen], linear in the number of goals seen.  The same
    traversal over any representation of the seen set that answers [mem] alike gives the same
    verdict; the kernel evaluates the obligation on the generated graph with the seen goals
    held in buckets under a hash of the type. *)
Section SeenSet.
  Context {T : Type} (memT : goal -> T -> bool) (addT : goal -> T -> T).

  Fixpoint check_by (defs : list def) (fuel : nat) (todo : list goal) (seen : T) : bool :=
    match fuel with
    | O => false
    | S f =>
        match todo with
        | [] => true
        | g :: rest =>
            if memT g seen then check_by defs f rest seen
            else match expand defs g with
                 | None => false
                 | Some subs => check_by defs f (subs ++ rest) (addT g seen)
                 end
        end
    end.

  Variable R : T -> list goal -> Prop.
  Hypothesis memT_ok : forall g s l, R s l -> memT g s = mem g l.
  Hypothesis addT_ok : forall g s l, R s l -> R (addT g s) (g :: l).

  Lemma check_by_eq : forall defs fuel todo s l,
    R s l -> check_by defs fuel todo s = check defs fuel todo l.
  Proof.
    induction fuel as [|f IH]; intros todo s l H; cbn [check check_by]; [reflexivity|].
    destruct todo as [|g rest]; [reflexivity|].
    rewrite (memT_ok g s l H). destruct (mem g l); [apply IH, H|].
    destruct (expand defs g); [apply IH, addT_ok, H|reflexivity].
  Qed.
End SeenSet.

Fixpoint hash (t : ty) : positive :=
  match t with
  | TNamed id a => N.succ_pos id + hash a
  | TPair a b => hash a + hash b
  | TArc x | TCell x | TMutex x | TRwLock x | TRef x | TRefMut x => hash x
  | _ => 1
  end.

Definition buckets := PositiveMap.t (list goal).

Definition bucket (g : goal) (s : buckets) : list goal :=
  match PositiveMap.find (hash (snd g)) s with Some b => b | None => [] end.

Definition mem_hashed (g : goal) (s : buckets) : bool := mem g (bucket g s).
Definition add_hashed (g : goal) (s : buckets) : buckets :=
  PositiveMap.add (hash (snd g)) (g :: bucket g s) s.

Lemma check_hashed : forall defs fuel todo,
  check_by mem_hashed add_hashed defs fuel todo (PositiveMap.empty _) = check defs fuel todo [].
Proof.
  intros defs fuel todo.
  apply check_by_eq with (R := fun s l => forall g, mem_hashed g s = mem g l).
  - intros g s l H. apply H.
  - intros g s l H g'. unfold mem_hashed, add_hashed, bucket at 1. cbn [mem].
    destruct (Pos.eq_dec (hash (snd g')) (hash (snd g))) as [K|K].
    + rewrite K, PositiveMap.gss. cbn [mem]. rewrite <- H. unfold mem_hashed, bucket. rewrite K. reflexivity.
    + rewrite PositiveMap.gso by exact K. rewrite <- H.
      destruct (goal_eqb g' g) eqn:Q; [|reflexivity].
      apply goal_eqb_eq in Q. subst g'. contradiction.
  - intros g. unfold mem_hashed, bucket. rewrite PositiveMap.gempty. reflexivity.
Qed.
