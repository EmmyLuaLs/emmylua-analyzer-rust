(** The invariant [inv]: an analysis text that is stale has the running handler or a stage of the reload that will
    repair it; convergence, progress and termination follow from it. *)
From Coq Require Import List Arith Bool PeanoNat Lia.
From EV Require Import C29.Model.
Import ListNotations.

Lemma upd_eq : forall A (f : uri -> A) u v, upd f u v u = v.
Proof. intros. unfold upd. rewrite Nat.eqb_refl. reflexivity. Qed.

Lemma upd_neq : forall A (f : uri -> A) u v x, x <> u -> upd f u v x = f x.
Proof. intros A f u v x H. unfold upd. apply Nat.eqb_neq in H. rewrite H. reflexivity. Qed.

Section P.
  Variable disk : uri -> option text.
  Notation view := (view disk).
  Notation target := (target disk).
  Notation step := (step disk true).
  Notation sect2 := (sect2 disk).
  Notation sect1 := (sect1 true).

  Definition midu (s : st) (u : uri) : Prop := exists n, mid s = Some n /\ notif_uri n = u.

  (** the running handler's section 1 is still in force (handlers are sequential) *)
  Definition mid_ok (s : st) : Prop :=
    match mid s with
    | Some (NSet u t) => wopen s u = Some t
    | Some (NClose u) => wopen s u = None
    | None => True
    end.

  (** a stored snapshot is never from the future, and one with today's version has today's texts *)
  Definition snap_ok (s : st) (X : snap) : Prop :=
    sver X <= ver s /\ (sver X = ver s -> forall u, sfiles X u = wopen s u).

  Definition snaps_ok (s : st) : Prop :=
    match rs s with
    | RIdle => True
    | RPre X0 _ => snap_ok s X0
    | RLoop X0 => snap_ok s X0
    | RApply X0 N => snap_ok s X0 /\ snap_ok s N
    end.

  Definition isopen (s : st) (u : uri) : Prop := wopen s u <> None.

  (** which reload stage will repair a stale uri *)
  Definition covered (s : st) (u : uri) : Prop :=
    match rs s with
    | RIdle => pend s = true
    | RPre _ _ => True
    | RLoop X0 => sver X0 <> ver s /\ (isin X0 u = true \/ isopen s u)
    | RApply X0 N => (isin X0 u = true \/ isin N u = true) \/ (sver N <> ver s /\ isopen s u)
    end.

  Definition inv (s : st) : Prop :=
    mid_ok s /\ snaps_ok s /\ forall u, an s u = target s u \/ midu s u \/ covered s u.

  Lemma snap_ok_bump : forall s s' X, snap_ok s X -> ver s' = S (ver s) -> snap_ok s' X.
  Proof. intros s s' X [H1 H2] Hv. split; [lia|]. intros He. lia. Qed.

  Lemma snap_ok_same : forall s s' X, snap_ok s X -> ver s' = ver s -> wopen s' = wopen s -> snap_ok s' X.
  Proof. intros s s' X H Hv Hw. unfold snap_ok in *. rewrite Hv, Hw. assumption. Qed.

  Lemma snaps_ok_keep : forall s s', rs s' = rs s -> (forall X, snap_ok s X -> snap_ok s' X) -> snaps_ok s -> snaps_ok s'.
  Proof.
    intros s s' Hr Hk H. unfold snaps_ok in *. rewrite Hr. destruct (rs s) as [|X0 c|X0|X0 N]; auto.
    destruct H. split; auto.
  Qed.

  Lemma not_open_target : forall s u, ~ isopen s u -> target s u = disk u.
  Proof.
    intros s u H. unfold Model.target, Model.view, isopen in *. destruct (wopen s u); [exfalso; apply H; discriminate | reflexivity].
  Qed.

  Lemma isin_false_view : forall X u, isin X u = false -> view (sfiles X) u = disk u.
  Proof. intros X u H. unfold isin in H. unfold Model.view. destruct (sfiles X u); [discriminate | reflexivity]. Qed.

  Lemma isopen_dec : forall s u, isopen s u \/ ~ isopen s u.
  Proof. intros s u. unfold isopen. destruct (wopen s u); [left; discriminate | right; intros H; apply H; reflexivity]. Qed.

  (** the analysis after loading snapshot [X]: right, or another round of the version loop will look at [u] *)
  Lemma loaded : forall s X u, snap_ok s X ->
    view (sfiles X) u = target s u \/ (sver X <> ver s /\ (isin X u = true \/ isopen s u)).
  Proof.
    intros s X u [_ Hsame]. destruct (Nat.eq_dec (sver X) (ver s)) as [He | Hne].
    - left. unfold Model.target, Model.view. rewrite (Hsame He u). reflexivity.
    - destruct (isin X u) eqn:Hin; [right; auto|]. destruct (isopen_dec s u) as [Ho | Ho]; [right; auto|].
      left. rewrite (isin_false_view _ _ Hin). symmetry. apply not_open_target. exact Ho.
  Qed.

  Lemma inv_start : forall s, start disk s -> inv s.
  Proof.
    intros s [Hm [Hr Ha]]. split; [|split].
    - unfold mid_ok. rewrite Hm. exact I.
    - unfold snaps_ok. rewrite Hr. exact I.
    - intros u. left. apply Ha.
  Qed.

  Lemma sect1_fields : forall n s,
    ver (sect1 n s) = S (ver s) /\ rs (sect1 n s) = rs s /\ mid (sect1 n s) = Some n /\
    an (sect1 n s) = an s /\ pend (sect1 n s) = pend s /\ queue (sect1 n s) = tl (queue s) /\
    forall x, x <> notif_uri n -> wopen (sect1 n s) x = wopen s x.
  Proof. intros [u t|u] s; repeat split; intros x Hx; apply upd_neq; exact Hx. Qed.

  Lemma sect2_fields : forall n s,
    ver (sect2 n s) = ver s /\ rs (sect2 n s) = rs s /\ mid (sect2 n s) = None /\
    wopen (sect2 n s) = wopen s /\ pend (sect2 n s) = pend s /\ queue (sect2 n s) = queue s /\
    forall x, x <> notif_uri n -> an (sect2 n s) x = an s x.
  Proof. intros [u t|u] s; repeat split; intros x Hx; apply upd_neq; exact Hx. Qed.

  Lemma inv_sect1 : forall s n, inv s -> mid s = None -> inv (sect1 n s).
  Proof.
    intros s n [Hm [Hs Hi]] Hmid.
    destruct (sect1_fields n s) as [Hv [Hrs [Hmid' [Han [Hpend [_ Hw]]]]]].
    split; [|split].
    - unfold mid_ok. rewrite Hmid'. destruct n; cbn [sect1 wopen]; apply upd_eq.
    - apply (snaps_ok_keep s); [exact Hrs| |exact Hs]. intros X HX. eapply snap_ok_bump; eassumption.
    - intros u. destruct (Nat.eq_dec u (notif_uri n)) as [-> | Hne].
      + right. left. exists n. split; [assumption | reflexivity].
      + destruct (Hi u) as [Ht | [[m [Hm' _]] | Hc]].
        * left. rewrite Han. rewrite Ht. unfold Model.target, Model.view. rewrite (Hw u Hne). reflexivity.
        * congruence.
        * right. right. unfold covered, isopen in *. rewrite Hrs, Hpend, Hv, (Hw u Hne). unfold snaps_ok in Hs.
          destruct (rs s) as [|X0 c|X0|X0 N]; try assumption.
          -- destruct Hs as [Hle _]. destruct Hc as [_ Hc]. split; [lia|exact Hc].
          -- destruct Hs as [_ [Hle _]]. destruct Hc as [Hc | [_ Hc]]; [left; assumption | right]. split; [lia|exact Hc].
  Qed.

  Lemma inv_sect2 : forall s n, inv s -> mid s = Some n -> inv (sect2 n s).
  Proof.
    intros s n [Hm [Hs Hi]] Hmid.
    destruct (sect2_fields n s) as [Hv [Hrs [Hmid' [Hw [Hpend [_ Han]]]]]].
    split; [|split].
    - unfold mid_ok. rewrite Hmid'. exact I.
    - apply (snaps_ok_keep s); [exact Hrs| |exact Hs]. intros X HX. eapply snap_ok_same; eassumption.
    - intros u. destruct (Nat.eq_dec u (notif_uri n)) as [-> | Hne].
      + left. unfold mid_ok in Hm. rewrite Hmid in Hm. unfold Model.target, Model.view. rewrite Hw.
        destruct n as [u t | u]; cbn [sect2 an notif_uri]; rewrite upd_eq; rewrite Hm; reflexivity.
      + destruct (Hi u) as [Ht | [[m [Hm' Hu]] | Hc]].
        * left. unfold Model.target. rewrite Hw, (Han u Hne). exact Ht.
        * rewrite Hmid in Hm'. inversion Hm'; subst. contradiction.
        * right. right. unfold covered, isopen in *. rewrite Hrs, Hpend, Hv, Hw. assumption.
  Qed.

  (** a reload step that leaves the texts alone only has to say who repairs what was covered before *)
  Lemma inv_reload : forall s p r,
    let s' := mkSt (wopen s) (ver s) (an s) (queue s) (mid s) p r in
    inv s -> snaps_ok s' -> (forall u, covered s u -> covered s' u) -> inv s'.
  Proof.
    intros s p r s' [Hm [_ Hi]] Hs Hc. split; [exact Hm|split; [exact Hs|]].
    intros u. destruct (Hi u) as [Ht | [Hmu | Hcu]]; auto.
  Qed.

  Lemma inv_step : forall s s', inv s -> step s s' -> inv s'.
  Proof.
    intros s s' Hinv Hst. pose proof Hinv as [Hm [Hs Hi]]. unfold snaps_ok in Hs.
    destruct Hst as [s n q Hq Hm0 | s n Hm0 | s | s Hr0 Hp0 | s X0 H | s X0 H | s X0 H He0 | s X0 H Hne0 | s X0 N H];
      try rewrite H in Hs.
    - eapply inv_sect1; eassumption.
    - eapply inv_sect2; eassumption.
    - (* a reload is requested *)
      apply (inv_reload s _ _ Hinv); [exact Hs|].
      intros u. unfold covered. cbn [rs pend wopen ver]. destruct (rs s); auto.
    - (* the reload starts: snapshot *)
      apply (inv_reload s _ _ Hinv); [|intros; exact I].
      split; cbn [sver sfiles ver wopen]; [lia | reflexivity].
    - (* clear_non_std_workspaces: no text changes *)
      apply (inv_reload s _ _ Hinv); [exact Hs|intros; exact I].
    - (* init_analysis: everything from the snapshot and the disk *)
      split; [exact Hm | split; [exact Hs|]].
      intros u. destruct (loaded s X0 u Hs) as [Hl | Hl]; [left; exact Hl|right; right; exact Hl].
    - (* the loop sees the version it applied: done *)
      apply (inv_reload s _ _ Hinv); [exact I|].
      intros u. unfold covered. rewrite H. intros [Hc _]. contradiction.
    - (* the loop sees a newer version: next snapshot *)
      apply (inv_reload s _ _ Hinv).
      + split; [exact Hs|]. split; cbn [set_rs sver sfiles ver wopen]; [lia | reflexivity].
      + intros u. unfold covered. rewrite H. cbn [set_rs rs]. intros [_ [Hc | Hc]]; left; [left; assumption | right].
        unfold isin, isopen in *. cbn [sfiles]. destruct (wopen s u); [reflexivity | exfalso; apply Hc; reflexivity].
    - (* apply_open_file_sync *)
      destruct Hs as [HS HN]. split; [exact Hm | split; [exact HN|]].
      intros u. cbn [set_an_rs an]. destruct (isin X0 u || isin N u) eqn:Hin.
      + destruct (loaded s N u HN) as [Hl | Hl]; [left; exact Hl|right; right; exact Hl].
      + apply orb_false_iff in Hin. destruct Hin as [HinS HinN].
        destruct (Hi u) as [Ht | [Hmu | Hc]]; [left; exact Ht | right; left; exact Hmu|].
        unfold covered in Hc. rewrite H in Hc. destruct Hc as [[Hc | Hc] | Hc]; try congruence.
        right. right. split; [apply Hc|right; apply Hc].
  Qed.

  Lemma inv_reach : forall s0 s, start disk s0 -> reach disk true s0 s -> inv s.
  Proof.
    intros s0 s H0 Hr. induction Hr; [apply inv_start; assumption | eapply inv_step; eassumption].
  Qed.

  (** the editor texts follow the notifications in order *)
  Definition ed_ok (s0 s : st) : Prop :=
    forall u, editor (wopen s) (queue s) u = editor (wopen s0) (queue s0) u.

  Lemma ed_step : forall s0 s s', ed_ok s0 s -> step s s' -> ed_ok s0 s'.
  Proof.
    intros s0 s s' He Hst u. rewrite <- (He u). destruct Hst; try reflexivity.
    - destruct n; cbn [sect1 wopen queue]; rewrite H; reflexivity.
    - destruct n; reflexivity.
  Qed.

  Lemma ed_reach : forall s0 s, reach disk true s0 s -> ed_ok s0 s.
  Proof.
    intros s0 s Hr. induction Hr; [intros u; reflexivity | eapply ed_step; eassumption].
  Qed.

  Theorem reload_converges : forall s0 s, start disk s0 -> reach disk true s0 s -> quiescent s ->
    forall u,
      wopen s u = editor (wopen s0) (queue s0) u /\
      an s u = match wopen s u with Some t => Some t | None => disk u end.
  Proof.
    intros s0 s H0 Hr [Hq [Hmid [Hp Hrs]]] u. split.
    - pose proof (ed_reach _ _ Hr u) as He. rewrite Hq in He. exact He.
    - destruct (inv_reach _ _ H0 Hr) as [_ [_ Hi]]. destruct (Hi u) as [Ht | [[n [Hn _]] | Hc]].
      + exact Ht.
      + congruence.
      + unfold covered in Hc. rewrite Hrs in Hc. congruence.
  Qed.

  Lemma progress : forall s, ~ quiescent s ->
    exists s', step s s' /\ (mid s' <> mid s \/ rs s' <> rs s).
  Proof.
    intros s Hnq. destruct (mid s) as [n|] eqn:Hmid.
    - exists (sect2 n s). split; [apply s_sect2; assumption|]. left.
      destruct (sect2_fields n s) as [_ [_ [-> _]]]. discriminate.
    - destruct (rs s) as [|X0 c|X0|X0 N] eqn:Hrs.
      + destruct (pend s) eqn:Hp.
        * eexists. split; [apply r_start; assumption|]. right. cbn [rs]. discriminate.
        * destruct (queue s) as [|n q] eqn:Hq.
          -- exfalso. apply Hnq. repeat split; assumption.
          -- exists (sect1 n s). split; [eapply s_sect1; eassumption|]. left.
             destruct (sect1_fields n s) as [_ [_ [-> _]]]. discriminate.
      + destruct c.
        * eexists. split; [eapply r_init; eassumption|]. right. cbn [set_an_rs rs]. discriminate.
        * eexists. split; [eapply r_clear; eassumption|]. right. cbn [set_rs rs]. intros He. inversion He.
      + destruct (Nat.eq_dec (sver X0) (ver s)).
        * eexists. split; [eapply r_same; eassumption|]. right. cbn [set_rs rs]. discriminate.
        * eexists. split; [eapply r_next; eassumption|]. right. cbn [set_rs rs]. discriminate.
      + eexists. split; [eapply r_apply; eassumption|]. right. cbn [set_an_rs rs]. discriminate.
  Qed.

  (** version increments the snapshot [X] has not seen yet, counting the notifications still queued *)
  Definition gap (s : st) (X : snap) : nat := (ver s + List.length (queue s) + (match mid s with Some _ => 0 | None => 0 end)) - sver X.

  Definition mu (s : st) : nat :=
    8 * List.length (queue s) + (match mid s with Some _ => 4 | None => 0 end)
    + (if pend s then 3 * List.length (queue s) + 7 else 0)
    + match rs s with
      | RIdle => 0
      | RPre X false => 3 * gap s X + 6
      | RPre X true => 3 * gap s X + 5
      | RLoop X => 3 * gap s X + 2
      | RApply _ N => 3 * gap s N + 3
      end.

  Lemma step_decreases : forall s s', snaps_ok s -> step s s' ->
    mu s' < mu s \/ (pend s' = true /\ queue s' = queue s /\ mid s' = mid s /\ rs s' = rs s).
  Proof.
    intros s s' Hs Hst. unfold snaps_ok in Hs.
    destruct Hst as [s n q Hq Hm0 | s n Hm0 | s | s Hr0 Hp0 | s X0 H | s X0 H | s X0 H He0 | s X0 H Hne0 | s X0 N H];
      [| |right; repeat split; reflexivity|..]; left; unfold mu, gap.
    - (* s_sect1 *) destruct (sect1_fields n s) as [-> [-> [-> [_ [-> [-> _]]]]]]. rewrite Hq, Hm0. cbn [tl List.length].
      destruct (pend s); destruct (rs s) as [|X c|X|X Y]; try destruct c; lia.
    - (* s_sect2 *) destruct (sect2_fields n s) as [-> [-> [-> [_ [-> [-> _]]]]]]. rewrite Hm0.
      destruct (rs s) as [|X c|X|X Y]; try destruct c; lia.
    - (* r_start *) cbn [queue mid pend rs ver sver]. rewrite Hr0, Hp0. destruct (mid s); lia.
    - (* r_clear *) cbn [set_rs queue mid pend rs ver]. rewrite H. lia.
    - (* r_init *) cbn [set_an_rs queue mid pend rs ver]. rewrite H. lia.
    - (* r_same *) cbn [set_rs queue mid pend rs ver]. rewrite H. lia.
    - (* r_next: the one step that needs [snaps_ok]; the old snapshot is strictly behind ([sver X0 < ver s]),
         so its gap exceeds that of the fresh one, which is just the queue length *)
      rewrite H in Hs. destruct Hs as [Hle _].
      cbn [set_rs queue mid pend rs ver sver]. rewrite H. destruct (mid s); lia.
    - (* r_apply *) cbn [set_an_rs queue mid pend rs ver]. rewrite H. lia.
  Qed.
End P.

Lemma reach_front : forall disk always (s0 s1 s : st),
  step disk always s0 s1 -> reach disk always s1 s -> reach disk always s0 s.
Proof.
  intros disk always s0 s1 s H Hr. induction Hr.
  - eapply reachS; [apply reach0 | assumption].
  - eapply reachS; eassumption.
Qed.

(** * non-vacuity: a reload interleaved with an open and a close of an on-disk file *)
Section Example.
  Definition ex_disk (u : uri) : option text := match u with 0 => Some 7 | _ => None end.
  Notation reachE := (reach ex_disk true).

  Definition ex_start : st :=
    mkSt (fun _ => None) 0 ex_disk [NSet 0 1; NClose 0] None true RIdle.

  Lemma reload_example :
    start ex_disk ex_start /\
    exists s, reachE ex_start s /\ quiescent s /\ wopen s 0 = None /\ an s 0 = Some 7 /\ ver s = 2.
  Proof.
    split.
    - repeat split; reflexivity.
    - eexists. split.
      + (* [cbn] after each step: a successor state mentions its predecessor once per field, so
           left unreduced the states grow exponentially along the run *)
        eapply reach_front; [eapply r_start; reflexivity|cbn].
        eapply reach_front; [eapply (s_sect1 _ _ _ (NSet 0 1)); reflexivity|cbn].
        eapply reach_front; [eapply r_clear; reflexivity|cbn].
        eapply reach_front; [eapply r_init; reflexivity|cbn].
        eapply reach_front; [eapply (s_sect2 _ _ _ (NSet 0 1)); reflexivity|cbn].
        eapply reach_front; [eapply r_next; [reflexivity | cbn; discriminate]|cbn].
        eapply reach_front; [eapply (s_sect1 _ _ _ (NClose 0)); reflexivity|cbn].
        eapply reach_front; [eapply r_apply; reflexivity|cbn].
        eapply reach_front; [eapply (s_sect2 _ _ _ (NClose 0)); reflexivity|cbn].
        eapply reach_front; [eapply r_next; [reflexivity | cbn; discriminate]|cbn].
        eapply reach_front; [eapply r_apply; reflexivity|cbn].
        eapply reach_front; [eapply r_same; reflexivity|cbn].
        apply reach0.
      + vm_compute. repeat split; reflexivity.
  Qed.
End Example.

(** * if [sync_open_file] bumped the version only for uris that were not open, an edit of an open file that
      lands between the reload's snapshot and init_analysis would be lost *)
Section Refute.
  Definition no_disk (u : uri) : option text := None.
  Notation reachF := (reach no_disk false).

  Definition stale_start : st :=
    mkSt (fun u => match u with 0 => Some 1 | _ => None end) 0
         (fun u => match u with 0 => Some 1 | _ => None end) [NSet 0 2] None true RIdle.

  Lemma bump_only_new_refuted :
    start no_disk stale_start /\
    exists s, reachF stale_start s /\ quiescent s /\ wopen s 0 = Some 2 /\ an s 0 = Some 1.
  Proof.
    split.
    - repeat split; try reflexivity. intros [|u]; reflexivity.
    - eexists. split.
      + eapply reach_front; [eapply r_start; reflexivity|cbn].
        eapply reach_front; [eapply (s_sect1 _ _ _ (NSet 0 2)); reflexivity|cbn].
        eapply reach_front; [eapply (s_sect2 _ _ _ (NSet 0 2)); reflexivity|cbn].
        eapply reach_front; [eapply r_clear; reflexivity|cbn].
        eapply reach_front; [eapply r_init; reflexivity|cbn].
        eapply reach_front; [eapply r_same; [reflexivity | vm_compute; reflexivity]|cbn].
        apply reach0.
      + vm_compute. repeat split; reflexivity.
  Qed.
End Refute.
