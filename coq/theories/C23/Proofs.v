(** C23/Proofs.v — the line index (C22/Model.v) computes the LSP specification (C23/Spec.v).
    Structure lemmas about [scan] live here; C22/Proofs.v derives the round-trip properties. *)
From EV Require Import Base.TextFacts C22.Model C23.Spec.
From Coq Require Import Sorting.Sorted.
Local Open Scope N_scope.

Fixpoint starts (t : text) (off : N) : list N :=
  match t with
  | [] => []
  | c :: r => if is_break c r then (off + blen c) :: starts r (off + blen c)
              else starts r (off + blen c)
  end.

Fixpoint flags (t : text) (asc : bool) : list bool :=
  match t with
  | [] => [asc]
  | c :: r => if is_break c r then asc :: flags r true
              else flags r (asc && (c <? 128))
  end.

Lemma scan_eq : forall t off asc, scan t off asc = (starts t off, flags t asc).
Proof.
  induction t as [|c r IH]; intros off asc; cbn [scan starts flags]; [reflexivity|].
  destruct (is_break c r); rewrite IH; reflexivity.
Qed.

Lemma parse_eq : forall t,
  parse t = {| line_offsets := 0 :: starts t 0; line_ascii := flags t true |}.
Proof. intros t. unfold parse. rewrite scan_eq. reflexivity. Qed.

Lemma starts_sorted : forall t off,
  StronglySorted N.lt (starts t off) /\ Forall (fun s => off < s <= off + bytes t) (starts t off).
Proof.
  induction t as [|c r IH]; intros off; cbn [starts bytes]; [split; constructor|].
  pose proof (blen_pos c) as Hc. destruct (IH (off + blen c)) as [S F].
  assert (F' : Forall (fun s => off < s <= off + (blen c + bytes r)) (starts r (off + blen c))).
  { eapply Forall_impl; [|exact F]. cbn. lia. }
  destruct (is_break c r); [|auto].
  split; constructor; [exact S| |lia|exact F'].
  eapply Forall_impl; [|exact F]. cbn. lia.
Qed.

Lemma lsp_break_eq : forall c r, lsp_break c r = is_break c r.
Proof. reflexivity. Qed.

Lemma break_blen : forall c r, is_break c r = true -> blen c = 1.
Proof.
  intros c r H. unfold is_break in H.
  destruct (N.eqb_spec c NL) as [->|_]; [reflexivity|]. destruct (N.eqb_spec c CR) as [->|_]; [reflexivity|discriminate].
Qed.

Lemma flags_hd : forall t asc, nth 0 (flags t asc) false = true -> asc = true.
Proof.
  induction t as [|c r IH]; intros asc H; cbn [flags] in H.
  - exact H.
  - destruct (is_break c r).
    + exact H.
    + apply IH in H. apply andb_true_iff in H. tauto.
Qed.

Lemma pp_spec : forall l o, StronglySorted N.lt l ->
  forall i s, nth_error l i = Some s -> (N.of_nat i < partition_point_le l o <-> s <= o).
Proof.
  induction l as [|s0 r IH]; intros o HS i s Hn.
  - destruct i; discriminate.
  - inversion HS as [|? ? HS' HF]; subst. cbn [partition_point_le].
    destruct (N.leb_spec s0 o) as [L|L].
    + destruct i as [|j]; cbn [nth_error] in Hn.
      * inversion Hn; subst. split; [intros _; exact L|intros _; lia].
      * specialize (IH o HS' j s Hn). rewrite <- IH. lia.
    + assert (s0 <= s) as Hs.
      { destruct i as [|j]; cbn [nth_error] in Hn; [inversion Hn; lia|].
        apply nth_error_In in Hn. rewrite Forall_forall in HF. specialize (HF s Hn). lia. }
      split; lia.
Qed.

Lemma pp_le_length : forall l o, partition_point_le l o <= N.of_nat (length l).
Proof.
  induction l as [|s r IH]; intros o; cbn [partition_point_le length]; [lia|].
  destruct (s <=? o); [specialize (IH o); lia|lia].
Qed.

Lemma pp_mono : forall l x y, x <= y -> partition_point_le l x <= partition_point_le l y.
Proof.
  induction l as [|s r IH]; intros x y H; cbn [partition_point_le]; [lia|].
  destruct (N.leb_spec s x) as [L|L]; [|lia].
  destruct (N.leb_spec s y) as [L'|L']; [specialize (IH x y H); lia|lia].
Qed.

Lemma get_line_pp : forall li o k,
  get_line li o = Some k <-> partition_point_le (line_offsets li) o = k + 1.
Proof.
  intros li o k. unfold get_line.
  destruct (N.eqb_spec (partition_point_le (line_offsets li) o) 0) as [E|E].
  - split; [discriminate|lia].
  - split; [intros [= <-]; lia|intros H; f_equal; lia].
Qed.

Lemma get_line_start : forall li o k, get_line li o = Some k -> exists s, get_line_offset li k = Some s.
Proof.
  intros li o k H%get_line_pp. pose proof (pp_le_length (line_offsets li) o) as HL.
  unfold get_line_offset. destruct (nth_error (line_offsets li) (N.to_nat k)) as [s|] eqn:Hn; [eauto|].
  apply nth_error_None in Hn. lia.
Qed.

Section LineIndex.
  Variable li : line_index.
  Hypothesis sorted : StronglySorted N.lt (line_offsets li).

  Lemma get_line_iff : forall o k s, get_line_offset li k = Some s ->
    (get_line li o = Some k <->
     s <= o /\ match get_line_offset li (k + 1) with Some s' => o < s' | None => True end).
  Proof.
    intros o k s Hk. rewrite get_line_pp. unfold get_line_offset in *.
    pose proof (pp_spec _ o sorted _ _ Hk) as Q. pose proof (pp_le_length (line_offsets li) o) as HL.
    destruct (nth_error (line_offsets li) (N.to_nat (k + 1))) as [s'|] eqn:Hn.
    - pose proof (pp_spec _ o sorted _ _ Hn). lia.
    - apply nth_error_None in Hn. lia.
  Qed.

  Lemma line_le_iff : forall x lx k, get_line li x = Some lx ->
    (lx <= k <-> match get_line_offset li (k + 1) with Some s' => x < s' | None => True end).
  Proof.
    intros x lx k H%get_line_pp. pose proof (pp_le_length (line_offsets li) x) as HL. unfold get_line_offset.
    destruct (nth_error (line_offsets li) (N.to_nat (k + 1))) as [s'|] eqn:Hn.
    - pose proof (pp_spec _ x sorted _ _ Hn). lia.
    - apply nth_error_None in Hn. lia.
  Qed.
End LineIndex.

Lemma get_line_mono : forall li x y lx ly,
  x <= y -> get_line li x = Some lx -> get_line li y = Some ly -> lx <= ly.
Proof.
  intros li x y lx ly H Hx%get_line_pp Hy%get_line_pp. pose proof (pp_mono (line_offsets li) x y H). lia.
Qed.

Lemma parse_sorted : forall t, StronglySorted N.lt (line_offsets (parse t)).
Proof.
  intros t. rewrite parse_eq. destruct (starts_sorted t 0) as [S F].
  constructor; [exact S|]. eapply Forall_impl; [|exact F]. cbn. lia.
Qed.

Lemma parse_bounded : forall t k s, get_line_offset (parse t) k = Some s -> s <= bytes t.
Proof.
  intros t k s H. unfold get_line_offset in H. rewrite parse_eq in H.
  apply nth_error_In in H. destruct H as [H|H]; [lia|].
  destruct (starts_sorted t 0) as [_ F]. rewrite Forall_forall in F. specialize (F s H). lia.
Qed.

Fixpoint line_body (t : text) : text :=
  match t with
  | [] => []
  | c :: r => if is_break c r then [] else c :: line_body r
  end.

Lemma walk16_0 : forall s, walk16 s 0 = 0.
Proof.
  destruct s as [|c r]; cbn [walk16]; [reflexivity|].
  pose proof (u16len_pos c) as Hc.
  destruct (N.ltb_spec 0 (u16len c)) as [_|L]; [reflexivity|lia].
Qed.

Lemma walk16_prefix : forall s col, exists a b, s = a ++ b /\ walk16 s col = bytes a.
Proof.
  induction s as [|c r IH]; intros col; cbn [walk16].
  - exists [], []. split; reflexivity.
  - destruct (col <? u16len c).
    + exists [], (c :: r). split; reflexivity.
    + destruct (IH (col - u16len c)) as [a [b [E1 E2]]].
      exists (c :: a), b. split; [cbn [app]; f_equal; exact E1|].
      cbn [bytes]. rewrite E2. reflexivity.
Qed.

Lemma walk16_le : forall s col, walk16 s col <= bytes s.
Proof. intros s col. destruct (walk16_prefix s col) as (a & b & -> & ->). rewrite bytes_app. lia. Qed.

Lemma walk16_ascii : forall s col, all_ascii s = true -> walk16 s col = N.min col (bytes s).
Proof.
  induction s as [|c r IH]; intros col H; cbn [walk16 bytes]; [lia|].
  rewrite all_ascii_cons in H. apply andb_true_iff in H as [Hc Hr].
  rewrite (ascii_blen _ Hc), (ascii_u16len _ Hc).
  destruct (N.ltb_spec col 1) as [L|L]; [lia|].
  rewrite (IH _ Hr). lia.
Qed.

Lemma spec_off_body : forall t col, spec_off t 0 col = Some (walk16 (line_body t) col).
Proof.
  induction t as [|c r IH]; intros col; cbn [spec_off line_body].
  - reflexivity.
  - change (0 =? 0) with true. cbv iota.
    change (lsp_break c r) with (is_break c r).
    destruct (is_break c r); cbn [walk16]; [reflexivity|].
    destruct (col <? u16len c); [reflexivity|].
    rewrite IH. reflexivity.
Qed.

Lemma starts_body : forall t off,
  match starts t off with
  | next :: _ => next = off + bytes (line_body t) + 1
  | [] => line_body t = t
  end.
Proof.
  induction t as [|c r IH]; intros off; cbn [starts line_body]; [reflexivity|].
  destruct (is_break c r) eqn:B.
  - cbn [bytes]. rewrite (break_blen _ _ B). lia.
  - specialize (IH (off + blen c)). destruct (starts r (off + blen c)) as [|next l].
    + rewrite IH. reflexivity.
    + cbn [bytes]. lia.
Qed.

Lemma flags_body : forall t asc,
  nth 0 (flags t asc) false = true -> all_ascii (line_body t) = true.
Proof.
  induction t as [|c r IH]; intros asc H; cbn [flags line_body] in *; [reflexivity|].
  destruct (is_break c r); [reflexivity|].
  pose proof (flags_hd _ _ H) as HA. apply andb_true_iff in HA. destruct HA as [_ Hc].
  rewrite all_ascii_cons, Hc. exact (IH _ H).
Qed.

Lemma body_prefix : forall t, exists tail, t = line_body t ++ tail.
Proof.
  induction t as [|c r IH]; cbn [line_body].
  - exists []. reflexivity.
  - destruct (is_break c r).
    + exists (c :: r). reflexivity.
    + destruct IH as [tail E]. exists tail. cbn [app]. f_equal. exact E.
Qed.

Lemma line_body_le : forall t, bytes (line_body t) <= bytes t.
Proof. intros t. destruct (body_prefix t) as [tail E]. rewrite E at 2. rewrite bytes_app. lia. Qed.

Lemma nth_error_skipn : forall (A : Type) (n m : nat) (l : list A),
  nth_error l (n + m) = nth_error (skipn n l) m.
Proof.
  induction n as [|n IH]; intros m l; [reflexivity|].
  destruct l as [|x l]; cbn [Nat.add skipn nth_error].
  - destruct m; reflexivity.
  - apply IH.
Qed.

Lemma spec_pos_step : forall c r o line col,
  spec_pos (c :: r) (blen c + o) line col =
  if lsp_break c r then spec_pos r o (line + 1) 0 else spec_pos r o line (col + u16len c).
Proof. intros. cbn [spec_pos]. destruct (step_over c o) as (-> & -> & ->). reflexivity. Qed.

Lemma spec_off_step : forall c r n col,
  spec_off (c :: r) (N.succ n) col =
  option_map (N.add (blen c)) (spec_off r (if lsp_break c r then n else N.succ n) col).
Proof.
  intros. cbn [spec_off]. destruct (N.eqb_spec (N.succ n) 0) as [E|_]; [lia|].
  rewrite N.sub_1_r, N.pred_succ. destruct (lsp_break c r); reflexivity.
Qed.

Lemma spec_off_missing : forall t off cur line col,
  nth_error (cur :: starts t off) (N.to_nat line) = None -> spec_off t line col = None.
Proof.
  induction t as [|c r IH]; intros off cur line col H;
    (destruct (N.eqb_spec line 0) as [->|E]; [discriminate|]).
  - cbn [spec_off]. apply N.eqb_neq in E. rewrite E. reflexivity.
  - rewrite <- (N.succ_pred line E), N2Nat.inj_succ in *. rewrite spec_off_step.
    cbn [starts nth_error] in H. change (lsp_break c r) with (is_break c r).
    destruct (is_break c r); cbn [nth_error] in H.
    + rewrite (IH _ _ _ col H). reflexivity.
    + rewrite (IH (off + blen c) cur _ col); [reflexivity|]. rewrite N2Nat.inj_succ. exact H.
Qed.

Lemma option_map_add : forall a b x,
  option_map (N.add a) (option_map (N.add b) x) = option_map (N.add (a + b)) x.
Proof. intros a b [x|]; cbn [option_map]; [f_equal; lia|reflexivity]. Qed.

(** [p] is the first line with its terminator; the tables and both specification walks continue on [t1] *)
Lemma first_line : forall t off asc next rest,
  starts t off = next :: rest ->
  exists p t1,
    t = p ++ t1 /\ next = off + bytes p /\ rest = starts t1 next /\
    (exists f, flags t asc = f :: flags t1 true) /\
    (forall n col, spec_off t (N.succ n) col = option_map (N.add (bytes p)) (spec_off t1 n col)) /\
    (forall o line col, spec_pos t (bytes p + o) line col = spec_pos t1 o (line + 1) 0).
Proof.
  induction t as [|c r IH]; intros off asc next rest H; [discriminate|].
  cbn [starts flags] in *. change (is_break c r) with (lsp_break c r) in *.
  destruct (lsp_break c r) eqn:B.
  - injection H as <- <-. exists [c], r. cbn [bytes app]. rewrite !N.add_0_r.
    do 3 (split; [reflexivity|]). split; [eauto|]. split.
    + intros n col. rewrite spec_off_step, B. reflexivity.
    + intros o line col. rewrite spec_pos_step, B. reflexivity.
  - destruct (IH _ (asc && (c <? 128)) _ _ H) as (p & t1 & E1 & -> & E3 & E4 & E5 & E6).
    exists (c :: p), t1. cbn [bytes app].
    split; [f_equal; exact E1|]. split; [lia|]. split; [exact E3|]. split; [exact E4|]. split.
    + intros n col. rewrite spec_off_step, B, E5. apply option_map_add.
    + intros o line col. rewrite <- N.add_assoc, spec_pos_step, B. apply E6.
Qed.

(** line [k] of a text [t] standing at offset [off] begins after a prefix [p1] of [t] *)
Lemma line_struct : forall k t off start,
  nth_error (off :: starts t off) k = Some start ->
  exists p1 t1,
    t = p1 ++ t1 /\ start = off + bytes p1 /\
    skipn k (off :: starts t off) = start :: starts t1 start /\
    nth k (flags t true) false = nth 0 (flags t1 true) false /\
    (forall col, spec_off t (N.of_nat k) col = option_map (N.add (bytes p1)) (spec_off t1 0 col)) /\
    (forall o line, spec_pos t (bytes p1 + o) line 0 = spec_pos t1 o (line + N.of_nat k) 0).
Proof.
  induction k as [|k IH]; intros t off start H.
  - injection H as <-. exists [], t. cbn [bytes app]. rewrite N.add_0_r.
    do 4 (split; [reflexivity|]). split.
    + intros col. cbn [N.of_nat]. destruct (spec_off t 0 col); reflexivity.
    + intros o line. rewrite N.add_0_l, N.add_0_r. reflexivity.
  - cbn [nth_error skipn] in *.
    destruct (starts t off) as [|next rest] eqn:S; [destruct k; discriminate|].
    destruct (first_line t off true next rest S) as (p & t' & E1 & E2 & -> & [f E4] & E5 & E6).
    destruct (IH t' next start H) as (p1 & t1 & F1 & F2 & F3 & F4 & F5 & F6).
    exists (p ++ p1), t1. rewrite bytes_app.
    split; [rewrite <- app_assoc, <- F1; exact E1|]. split; [lia|]. split; [exact F3|].
    split; [rewrite E4; exact F4|]. split.
    + intros col. rewrite Nat2N.inj_succ, E5, F5. apply option_map_add.
    + intros o line. rewrite <- N.add_assoc, E6, F6. f_equal. lia.
Qed.

(** with the decomposition [line_struct] gives for line [line]: the line ends where its body does *)
Lemma line_end_struct : forall t line start p1 t1,
  t = p1 ++ t1 -> start = bytes p1 ->
  skipn (N.to_nat line) (0 :: starts t 0) = start :: starts t1 start ->
  line_end (parse t) t line = start + bytes (line_body t1) /\
  match get_line_offset (parse t) (line + 1) with Some next => start + bytes (line_body t1) < next | None => True end.
Proof.
  intros t line start p1 t1 Et Es Hsk.
  unfold line_end, get_line_offset. rewrite parse_eq. cbn [line_offsets].
  replace (N.to_nat (line + 1)) with (N.to_nat line + 1)%nat by lia.
  rewrite nth_error_skipn, Hsk. cbn [nth_error].
  pose proof (starts_body t1 start) as HB.
  destruct (starts t1 start) as [|next l]; cbn [nth_error].
  - split; [|exact I]. rewrite HB. rewrite Et, bytes_app. lia.
  - split; lia.
Qed.

(** on an existing line the index and the specification both answer [start + walk16 (line_body t1) col] *)
Lemma offset_struct : forall t line start,
  nth_error (0 :: starts t 0) (N.to_nat line) = Some start ->
  exists p1 t1,
    t = p1 ++ t1 /\ start = bytes p1 /\
    line_end (parse t) t line = start + bytes (line_body t1) /\
    match get_line_offset (parse t) (line + 1) with Some next => start + bytes (line_body t1) < next | None => True end /\
    forall col,
      get_offset (parse t) t line col = Val (start + walk16 (line_body t1) col) /\
      spec_off t line col = Some (start + walk16 (line_body t1) col).
Proof.
  intros t line start H.
  destruct (line_struct _ t 0 start H) as (p1 & t1 & E1 & E2 & E3 & E4 & E5 & _).
  rewrite N.add_0_l in E2. rewrite N2Nat.id, <- E2 in E5.
  destruct (line_end_struct t line start p1 t1 E1 E2 E3) as [Hle Hnext].
  exists p1, t1. split; [exact E1|]. split; [exact E2|]. split; [exact Hle|]. split; [exact Hnext|].
  intros col. split.
  - unfold get_offset, get_col_offset_at_line. rewrite Hle.
    unfold get_line_offset, is_ascii_line. rewrite parse_eq. cbn [line_offsets line_ascii].
    rewrite H.
    destruct (N.eqb_spec col 0) as [C|C].
    + subst col. rewrite walk16_0. reflexivity.
    + rewrite E4.
      destruct (nth 0 (flags t1 true) false) eqn:F.
      * rewrite (walk16_ascii _ col (flags_body _ _ F)).
        replace (start + bytes (line_body t1) - start) with (bytes (line_body t1)) by lia.
        reflexivity.
      * destruct (body_prefix t1) as [tail Etail].
        replace (slice t start (start + bytes (line_body t1))) with (Some (line_body t1)).
        { reflexivity. }
        symmetry. rewrite E1. rewrite Etail at 1.
        apply slice_app; [exact E2|rewrite E2; reflexivity].
  - rewrite E5, spec_off_body. reflexivity.
Qed.

Lemma get_line_parse : forall t o, exists k, get_line (parse t) o = Some k.
Proof.
  intros t o. unfold get_line. rewrite parse_eq. cbn [line_offsets partition_point_le].
  destruct (N.leb_spec 0 o) as [_|L]; [|lia].
  destruct (N.eqb_spec (1 + partition_point_le (starts t 0) o) 0); [lia|eauto].
Qed.

Lemma spec_pos_0 : forall t line col, spec_pos t 0 line col = Some (line, col).
Proof. destruct t; reflexivity. Qed.

Lemma spec_pos_body : forall t a b line col,
  line_body t = a ++ b -> spec_pos t (bytes a) line col = Some (line, col + u16s a).
Proof.
  induction t as [|c r IH]; intros a b line col E; cbn [line_body] in E;
    (destruct a as [|x a]; [cbn [bytes u16s]; rewrite N.add_0_r; apply spec_pos_0|]); [discriminate|].
    destruct (is_break c r) eqn:B; [discriminate|]. injection E as <- E.
    cbn [bytes u16s]. rewrite spec_pos_step. change (lsp_break c r) with (is_break c r).
    rewrite B, (IH _ _ _ _ E). f_equal. f_equal. lia.
Qed.

Lemma pos_is_lsp_pos : forall (t : text) (o : N),
  boundaryb t o = true ->
  exists p, spec_pos t o 0 0 = Some p /\ get_line_col (parse t) t o = Val p.
Proof.
  intros t o HB. destruct (boundaryb_spec _ _ HB) as (pre & suf & _ & Ht & Ho).
  (* the line [k] of [o] starts at [start = bytes p1] and continues as [t1] *)
  destruct (get_line_parse t o) as [k Hk]. destruct (get_line_start _ _ _ Hk) as [start Hs].
  pose proof Hs as Hs'. unfold get_line_offset in Hs'. rewrite parse_eq in Hs'.
  destruct (line_struct _ t 0 _ Hs') as (p1 & t1 & E1 & E2 & E3 & E4 & _ & E6).
  rewrite N.add_0_l in E2.
  destruct (line_end_struct t k start p1 t1 E1 E2 E3) as [Hle _].
  destruct (proj1 (get_line_iff _ (parse_sorted t) _ _ _ Hs) Hk) as [Hlo Hhi].
  assert (Hend : o <= start + bytes (line_body t1)).
  { rewrite <- Hle. unfold line_end. destruct (get_line_offset (parse t) (k + 1)) as [next|].
    - lia.
    - apply boundary_le_bytes, HB. }
  (* [o] lies [bytes s] into that line, before its terminator *)
  destruct (prefix_of_longer p1 t1 pre suf) as [s ->]; [congruence|lia|].
  rewrite bytes_app in Ho. rewrite E1, <- app_assoc in Ht. apply app_inv_head in Ht.
  destruct (body_prefix t1) as [tail Etail].
  destruct (prefix_of_longer s suf (line_body t1) tail) as [s' Eb]; [congruence|lia|].
  exists (k, u16s s). split.
  - rewrite <- Ho, E6, N.add_0_l, N2Nat.id. exact (spec_pos_body t1 s s' k 0 Eb).
  - unfold get_line_col, is_ascii_line. rewrite Hk, Hs, parse_eq. cbn [line_ascii].
    rewrite E4.
    destruct (nth 0 (flags t1 true) false) eqn:F.
    + apply flags_body in F. rewrite Eb, all_ascii_app in F. apply andb_true_iff in F as [F _].
      rewrite <- (all_ascii_bytes s F). f_equal. f_equal. lia.
    + rewrite E1, Ht, (slice_app p1 s suf); [reflexivity|exact E2|lia].
Qed.

Lemma off_is_lsp_off : forall (t : text) (line col : N),
  get_offset (parse t) t line col =
  match spec_off t line col with Some o => Val o | None => Nothing end.
Proof.
  intros t line col.
  destruct (nth_error (0 :: starts t 0) (N.to_nat line)) as [start|] eqn:H.
  - destruct (offset_struct t line start H) as [p1 [t1 [_ [_ [_ [_ HO]]]]]].
    destruct (HO col) as [H1 H2]. rewrite H1, H2. reflexivity.
  - rewrite (spec_off_missing t 0 0 line col H).
    unfold get_offset, get_line_offset. rewrite parse_eq. cbn [line_offsets].
    rewrite H. reflexivity.
Qed.

Lemma starts_count : forall t off, N.of_nat (length (starts t off)) + 1 = lsp_line_count t.
Proof.
  induction t as [|c r IH]; intros off; cbn [starts lsp_line_count]; [reflexivity|].
  change (lsp_break c r) with (is_break c r).
  destruct (is_break c r); cbn [length]; rewrite <- (IH (off + blen c)); lia.
Qed.

Lemma lines_match_lsp : forall (t : text), line_count (parse t) = lsp_line_count t.
Proof.
  intros t. unfold line_count. rewrite parse_eq. cbn [line_offsets length].
  rewrite <- (starts_count t 0). lia.
Qed.

Lemma nobreak_body : forall t, (forall c, In c t -> c <> 10 /\ c <> 13) -> line_body t = t.
Proof.
  induction t as [|c r IH]; intros H; cbn [line_body]; [reflexivity|].
  destruct (H c (or_introl eq_refl)) as [H1 H2]. unfold is_break, NL, CR.
  destruct (N.eqb_spec c 10) as [E|_]; [contradiction|].
  destruct (N.eqb_spec c 13) as [E|_]; [contradiction|]. cbn [orb andb].
  f_equal. apply IH. intros c' Hin. apply H. right. exact Hin.
Qed.

Lemma col_is_utf16 : forall (t : text),
  (forall c, In c t -> c <> 10 /\ c <> 13) ->
  get_line_col (parse t) t (bytes t) = Val (0, u16s t).
Proof.
  intros t H.
  assert (HB : boundaryb t (bytes t) = true).
  { rewrite <- (app_nil_r t) at 1. apply boundaryb_app. }
  destruct (pos_is_lsp_pos t (bytes t) HB) as [p [H1 H2]].
  rewrite (spec_pos_body t t [] 0 0) in H1 by (rewrite app_nil_r; apply nobreak_body, H).
  inversion H1; subst p.
  rewrite H2. reflexivity.
Qed.

Lemma utf16_example :
  get_line_col (parse [97; 128512; 98]) [97; 128512; 98] 5 = Val (0, 3)
  /\ get_line_col (parse [97; 13; 98]) [97; 13; 98] 2 = Val (1, 0).
Proof. split; vm_compute; reflexivity. Qed.
