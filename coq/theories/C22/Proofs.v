(** C22/Proofs.v — round-trip, clamping and no-panic properties of the line index, derived
    from its agreement with the LSP specification (C23/Proofs.v) and spec-level lemmas. *)
From EV Require Import Base.TextFacts C22.Model C23.Spec C23.Proofs.
Local Open Scope N_scope.

Lemma spec_off_0_0 : forall t, spec_off t 0 0 = Some 0.
Proof. intros t. rewrite spec_off_body. apply f_equal, walk16_0. Qed.

Lemma spec_pos_cons : forall x r o line col q,
  spec_pos (x :: r) o line col = Some q ->
  (o = 0 /\ q = (line, col)) \/
  (blen x <= o /\
   spec_pos r (o - blen x) (if lsp_break x r then line + 1 else line)
     (if lsp_break x r then 0 else col + u16len x) = Some q).
Proof.
  intros x r o line col q H. cbn [spec_pos] in H.
  destruct (N.eqb_spec o 0) as [E|E]; [left; injection H as <-; auto|right].
  destruct (N.ltb_spec o (blen x)) as [L|L]; [discriminate|].
  split; [exact L|]. destruct (lsp_break x r); exact H.
Qed.

(** seen from [(line, col)], [o] is [dl] lines further at column [dc] of that line; [spec_off] finds it again *)
Lemma spec_roundtrip : forall t o line col p,
  spec_pos t o line col = Some p ->
  exists dl dc, p = (line + dl, if dl =? 0 then col + dc else dc) /\ spec_off t dl dc = Some o.
Proof.
  induction t as [|x r IH]; intros o line col p H.
  - cbn [spec_pos] in H. destruct (N.eqb_spec o 0) as [->|]; [|discriminate]. injection H as <-.
    exists 0, 0. rewrite !N.add_0_r. split; reflexivity.
  - apply spec_pos_cons in H as [[-> ->]|[L H]].
    { exists 0, 0. rewrite !N.add_0_r. split; [reflexivity|apply spec_off_0_0]. }
    apply IH in H as (dl & dc & -> & H).
    assert (E : option_map (N.add (blen x)) (Some (o - blen x)) = Some o) by (cbn; f_equal; lia).
    destruct (lsp_break x r) eqn:B.
    + exists (N.succ dl), (if dl =? 0 then 0 + dc else dc). rewrite spec_off_step, B.
      destruct (N.eqb_spec (N.succ dl) 0) as [|_]; [lia|].
      split; [f_equal; lia|]. destruct (dl =? 0); rewrite ?N.add_0_l, H; exact E.
    + destruct (N.eqb_spec dl 0) as [->|Z].
      * exists 0, (u16len x + dc). cbn [spec_off]. rewrite B. change (0 =? 0) with true. cbv iota.
        split; [f_equal; lia|]. destruct (N.ltb_spec (u16len x + dc) (u16len x)) as [|_]; [lia|].
        replace (u16len x + dc - u16len x) with dc by lia. rewrite H. exact E.
      * exists dl, dc. cbn [spec_off]. rewrite B. destruct (N.eqb_spec dl 0) as [|_]; [contradiction|].
        rewrite H. auto.
Qed.

Lemma spec_pos_ge : forall t o line col l c,
  spec_pos t o line col = Some (l, c) -> line < l \/ (line = l /\ col <= c).
Proof.
  intros t o line col l c (dl & dc & [= -> ->] & _)%spec_roundtrip.
  destruct (N.eqb_spec dl 0); lia.
Qed.

Lemma spec_pos_mono : forall t a b line col la ca lb cb,
  a <= b ->
  spec_pos t a line col = Some (la, ca) -> spec_pos t b line col = Some (lb, cb) ->
  la < lb \/ (la = lb /\ ca <= cb).
Proof.
  induction t as [|x r IH]; intros a b line col la ca lb cb Hab Ha Hb.
  - cbn [spec_pos] in Ha, Hb. destruct (a =? 0), (b =? 0); try discriminate.
    injection Ha as <- <-. injection Hb as <- <-. lia.
  - apply spec_pos_cons in Ha as [[-> [= <- <-]]|[La Ha]]; [exact (spec_pos_ge _ _ _ _ _ _ Hb)|].
    apply spec_pos_cons in Hb as [[-> _]|[Lb Hb]]; [pose proof (blen_pos x); lia|].
    eapply IH; [|exact Ha|exact Hb]. lia.
Qed.

Lemma roundtrip_core : forall t o,
  boundaryb t o = true ->
  exists p, spec_pos t o 0 0 = Some p /\ get_line_col (parse t) t o = Val p /\
            get_offset (parse t) t (fst p) (snd p) = Val o.
Proof.
  intros t o HB. destruct (pos_is_lsp_pos t o HB) as [p [H1 H2]].
  exists p. split; [exact H1|]. split; [exact H2|].
  destruct (spec_roundtrip _ _ _ _ _ H1) as (dl & dc & -> & E). cbn [fst snd].
  rewrite off_is_lsp_off, !N.add_0_l. destruct (dl =? 0); rewrite E; reflexivity.
Qed.

Lemma offset_pos_roundtrip : forall (t : text) (o : N),
  boundaryb t o = true ->
  exists l c, get_line_col (parse t) t o = Val (l, c) /\ get_offset (parse t) t l c = Val o.
Proof.
  intros t o HB. destruct (roundtrip_core t o HB) as [[l c] [_ [H2 H3]]].
  exists l, c. split; [exact H2|exact H3].
Qed.

Lemma missing_line_none : forall (t : text) (line col : N),
  line_count (parse t) <= line -> get_offset (parse t) t line col = Nothing.
Proof.
  intros t line col H. unfold get_offset, get_line_offset.
  unfold line_count in H.
  assert (E : nth_error (line_offsets (parse t)) (N.to_nat line) = None).
  { apply nth_error_None. lia. }
  rewrite E. reflexivity.
Qed.

Lemma clamp_to_line : forall (t : text) (line col : N),
  line < line_count (parse t) ->
  exists o start,
    get_line_offset (parse t) line = Some start /\
    get_offset (parse t) t line col = Val o /\
    start <= o /\ o <= line_end (parse t) t line /\ line_end (parse t) t line <= bytes t /\
    boundaryb t o = true /\
    get_line (parse t) o = Some line.
Proof.
  intros t line col H.
  destruct (get_line_offset (parse t) line) as [start|] eqn:Hn.
  2: { apply nth_error_None in Hn. unfold line_count in H. lia. }
  pose proof Hn as Hn'. unfold get_line_offset in Hn'. rewrite parse_eq in Hn'.
  destruct (offset_struct t line start Hn') as [p1 [t1 [E1 [E2 [Hle [Hnext HO]]]]]].
  destruct (HO col) as [Hget _].
  (* the offset is [start] plus the bytes of a prefix [a] of the line's body: a boundary of
     [t = p1 ++ a ++ b ++ tail] that lies on the line *)
  destruct (body_prefix t1) as [tail Etail].
  destruct (walk16_prefix (line_body t1) col) as [a [b [Eab Ew]]].
  pose proof (walk16_le (line_body t1) col) as Hw.
  exists (start + walk16 (line_body t1) col), start.
  split; [reflexivity|]. split; [exact Hget|]. split; [lia|]. split; [lia|].
  split. { rewrite Hle, E1, bytes_app, <- E2. pose proof (line_body_le t1). lia. }
  split.
  - rewrite Ew, E2, <- bytes_app.
    replace t with ((p1 ++ a) ++ (b ++ tail)); [apply boundaryb_app|].
    rewrite E1. rewrite Etail at 1. rewrite Eab, <- !app_assoc. reflexivity.
  - apply (get_line_iff _ (parse_sorted t) _ _ _ Hn). split; [lia|].
    destruct (get_line_offset (parse t) (line + 1)); [lia|exact I].
Qed.

Lemma conversions_never_panic : forall (t : text) (o line col : N),
  (boundaryb t o = true -> get_line_col (parse t) t o <> Panic) /\
  get_offset (parse t) t line col <> Panic.
Proof.
  intros t o line col. split.
  - intros HB. destruct (pos_is_lsp_pos t o HB) as [p [_ H]]. rewrite H. discriminate.
  - rewrite off_is_lsp_off. destruct (spec_off t line col); discriminate.
Qed.

Lemma range_roundtrip : forall (t : text) (a b : N),
  boundaryb t a = true -> boundaryb t b = true -> a <= b ->
  exists p q, to_lsp_range (parse t) t a b = Val (p, q) /\
              (fst p < fst q \/ (fst p = fst q /\ snd p <= snd q)) /\
              to_rowan_range (parse t) t p q = Val (a, b).
Proof.
  intros t a b Ha Hb Hab.
  destruct (roundtrip_core t a Ha) as [[la ca] [A1 [A2 A3]]].
  destruct (roundtrip_core t b Hb) as [[lb cb] [B1 [B2 B3]]].
  exists (la, ca), (lb, cb).
  split. { unfold to_lsp_range. rewrite A2, B2. reflexivity. }
  split. { cbn [fst snd]. exact (spec_pos_mono _ _ _ _ _ _ _ _ _ Hab A1 B1). }
  unfold to_rowan_range. rewrite A3, B3. reflexivity.
Qed.

Lemma roundtrip_example :
  let t := [97; 128512; 98; 13; 10; 99; 100; 13; 101; 10; 233] in
  forallb (fun o => match get_line_col (parse t) t o with
                    | Val (l, c) => match get_offset (parse t) t l c with Val o' => o' =? o | _ => false end
                    | _ => false end) [0; 1; 5; 6; 7; 8; 9; 10; 11; 12; 13; 15] = true
  /\ get_offset (parse t) t 0 100 = Val 7 /\ get_offset (parse t) t 9 0 = Nothing.
Proof. vm_compute. split; [reflexivity|]. split; reflexivity. Qed.
