(** C01/PumpProofs.v — the token pump emits every token; the marker API keeps the mark level exact. *)
From Coq Require Import PeanoNat ZArith.
From EV Require Import C01.Model C01.Proofs C01.LexProofs C01.Pump.
Local Open Scope N_scope.

(** inclusion of one kind table in another is decided by [forallb]; the two facts about the tables of Gen/C01_Kinds.v
    below are proved this way, so they are re-checked whenever the tables are regenerated *)
Lemma mem_incl : forall a b, forallb (fun x => mem x b) a = true -> forall k, mem k a = true -> mem k b = true.
Proof.
  induction a as [|x a IH]; intros b H k Hk; [discriminate|]. cbn [forallb] in H. apply andb_true_iff in H as [Hx Ha].
  apply orb_true_iff in Hk as [Hk|Hk]; [apply N.eqb_eq in Hk; subst; exact Hx|exact (IH _ Ha _ Hk)].
Qed.

(** the three trivia arms of [parse_trivia_tokens] are exactly [is_trivia_kind] *)
Lemma trivia_split : forall k,
  is_trivia_kind k = mem k pt_comment_kinds || mem k pt_eol_kinds || mem k pt_ws_kinds.
Proof.
  intros k. unfold is_trivia_kind, mem. rewrite <- !existsb_app. apply eq_true_iff_eq. split; apply mem_incl; reflexivity.
Qed.

(** [bump] does not emit a trivia token itself: [parse_trivia_tokens] does *)
Lemma trivia_invalid : forall k, is_trivia_kind k = true -> is_invalid_kind k = true.
Proof. apply mem_incl. reflexivity. Qed.

Lemma tiles_start : forall t r x y, tiles (t :: r) x y -> group_start (t :: r) = x.
Proof. intros [k [s l]] r x y [H _]. exact H. Qed.

Lemma tiles_end : forall a x y, a <> [] -> tiles a x y -> group_end a = y.
Proof.
  intros a x y Hne H. destruct (exists_last Hne) as (a' & t & ->). unfold group_end. rewrite last_last.
  destruct (tiles_app_inv _ _ _ _ H) as (m & _ & H2). destruct t as [k [s l]]. destruct H2 as [-> <-]. reflexivity.
Qed.

Lemma tiles_one : forall k s l, tiles [(k, (s, l))] s (s + l).
Proof. intros. cbn. auto. Qed.

Lemma split_trailing_app : forall l a b, split_trailing l = (a, b) -> l = a ++ b.
Proof.
  induction l as [|t r IH]; intros a b H; cbn [split_trailing] in H.
  - inversion H. reflexivity.
  - destruct (split_trailing r) as [a0 b0] eqn:E. specialize (IH a0 b0 eq_refl). subst r.
    destruct a0 as [|x a0].
    + destruct (mem (fst t) pc_trim_kinds); inversion H; subst; reflexivity.
    + inversion H; subst. reflexivity.
Qed.

(** the obligation on a doc-parser run over a group: its tokens tile the range of the group's non-trailing part *)
Lemma doc_range_tiles : forall g prefix trailing a0 a1,
  split_trailing g = (prefix, trailing) -> g <> [] -> tiles g a0 a1 ->
  exists mid, tiles prefix a0 mid /\ tiles trailing mid a1 /\
    forall ds, tilesb ds (fst (doc_range g prefix)) (snd (doc_range g prefix)) = true <-> tiles ds a0 mid.
Proof.
  intros g prefix trailing a0 a1 Hs Hne Ht.
  assert (Hstart : group_start g = a0) by (destruct g; [congruence|eapply tiles_start; eauto]).
  rewrite (split_trailing_app _ _ _ Hs) in Ht. destruct (tiles_app_inv _ _ _ _ Ht) as (mid & Hp & Htr).
  exists mid. split; [exact Hp|]. split; [exact Htr|]. intros ds. rewrite tilesb_tiles. unfold doc_range. cbn [fst snd].
  rewrite Hstart. replace (match prefix with [] => a0 | _ :: _ => group_end prefix end) with mid; [reflexivity|].
  symmetry. destruct prefix; [exact Hp|]. eapply tiles_end; [discriminate|exact Hp].
Qed.

Lemma tokens_of_eats : forall ts, tokens_of (map eat ts) = ts.
Proof. induction ts as [|[k [s l]] ts IH]; [reflexivity|]. cbn. rewrite IH. reflexivity. Qed.

Definition T (m : mst) : list leaf := tokens_of (fst m).

Lemma T_app : forall evs more lv lv', T (evs ++ more, lv') = T (evs, lv) ++ tokens_of more.
Proof. intros. apply tokens_of_app. Qed.

Lemma T_emit_all : forall m ts, T (emit_all m ts) = T m ++ ts.
Proof. intros m ts. unfold T, emit_all. cbn [fst]. rewrite tokens_of_app, tokens_of_eats. reflexivity. Qed.

Lemma T_emit : forall m t, T (emit m t) = T m ++ [t].
Proof. intros m t. apply (T_emit_all m [t]). Qed.

Local Open Scope Z_scope.

(** what a [NodeStart k] adds to [depth]: nothing once it is erased (kind [None]) *)
Definition wk (k : skind) : Z := if N.eqb k SK_None then 0 else 1.

Lemma wk_live : forall k, negb (N.eqb k SK_None) = true -> wk k = 1.
Proof. intros k H. unfold wk. destruct (N.eqb k SK_None); [discriminate|reflexivity]. Qed.

Lemma depth_app : forall a b, depth (a ++ b) = depth a + depth b.
Proof.
  induction a as [|e a IH]; intros b; [reflexivity|]. cbn [app depth]. destruct e; rewrite IH; lia.
Qed.

Lemma depth_eats : forall ts, depth (map eat ts) = 0.
Proof. induction ts as [|t ts IH]; [reflexivity|]. exact IH. Qed.

Lemma depth_emit_all : forall m ts, depth (fst (emit_all m ts)) = depth (fst m).
Proof. intros [evs lv] ts. unfold emit_all. cbn [fst snd]. rewrite depth_app, depth_eats. lia. Qed.

Lemma depth_emit : forall m t, depth (fst (emit m t)) = depth (fst m).
Proof. intros m t. apply (depth_emit_all m [t]). Qed.

Lemma prefix_ok_app : forall a b d, prefix_ok (a ++ b) d = prefix_ok a d && prefix_ok b (d + depth a).
Proof.
  induction a as [|e a IH]; intros b d; cbn [app prefix_ok depth].
  - rewrite Z.add_0_r. reflexivity.
  - destruct e as [k par|k s l| |].
    + rewrite IH. destruct (N.eqb k SK_None); do 2 f_equal; lia.
    + apply IH.
    + rewrite IH, andb_assoc. do 2 f_equal. lia.
    + apply IH.
Qed.

Lemma prefix_ok_weaken : forall l d d', prefix_ok l d = true -> d <= d' ->
  prefix_ok l d' = true /\ (0 <= d -> 0 <= d + depth l).
Proof.
  induction l as [|e l IH]; intros d d' H Hd; cbn [prefix_ok depth] in *; [split; [reflexivity|lia]|].
  destruct e as [k par|k s l0| |].
  - destruct (N.eqb k SK_None); [destruct (IH d d' H Hd)|destruct (IH (d + 1) (d' + 1) H ltac:(lia))]; split; (assumption || lia).
  - destruct (IH d d' H Hd). split; (assumption || lia).
  - apply andb_true_iff in H as [H1 H2]. apply Z.leb_le in H1. destruct (IH (d - 1) (d' - 1) H2 ltac:(lia)) as [A B].
    rewrite A, andb_true_r. split; [apply Z.leb_le|]; lia.
  - destruct (IH d d' H Hd). split; (assumption || lia).
Qed.

Lemma prefix_eats : forall ts d, prefix_ok (map eat ts) d = true.
Proof. induction ts as [|t ts IH]; intros d; [reflexivity|]. apply IH. Qed.

(** the invariant of the marker API: the mark level is the bracket depth, and no prefix closes more than it opened *)
Definition lvl_ok (m : mst) : Prop := snd m = depth (fst m) /\ prefix_ok (fst m) 0 = true.

Lemma lvl_app : forall evs lv more lv',
  lvl_ok (evs, lv) -> prefix_ok more lv = true -> lv' = lv + depth more -> lvl_ok (evs ++ more, lv').
Proof.
  unfold lvl_ok. cbn [fst snd]. intros evs lv more lv' [-> H2] Hp ->.
  split; [symmetry; apply depth_app|]. rewrite prefix_ok_app, H2. exact Hp.
Qed.

Lemma lvl_emit_all : forall m ts, lvl_ok m -> lvl_ok (emit_all m ts).
Proof.
  intros [evs lv] ts H. apply (lvl_app _ _ _ _ H); [apply prefix_eats|]. rewrite depth_eats. symmetry. apply Z.add_0_r.
Qed.

Lemma lvl_emit : forall m t, lvl_ok m -> lvl_ok (emit m t).
Proof. intros m t. apply (lvl_emit_all m [t]). Qed.

Lemma lvl_ok_split : forall a k q b lv,
  lvl_ok (a ++ NodeStart k q :: b, lv) <->
  lv = depth a + wk k + depth b /\ prefix_ok a 0 = true /\ prefix_ok b (depth a + wk k) = true.
Proof.
  intros a k q b lv. unfold lvl_ok. cbn [fst snd]. rewrite depth_app, prefix_ok_app, andb_true_iff.
  cbn [depth prefix_ok Z.add]. unfold wk. destruct (N.eqb k SK_None); [rewrite !Z.add_0_r|rewrite Z.add_assoc]; reflexivity.
Qed.

Lemma lvl_retag : forall evs lv p k0 par k par',
  nth_error evs p = Some (NodeStart k0 par) -> wk k = wk k0 ->
  lvl_ok (evs, lv) -> lvl_ok (set_nth evs p (NodeStart k par'), lv).
Proof.
  intros evs lv p k0 par k par' Hn Hw. destruct (set_nth_split _ _ _ _ Hn) as (a & b & -> & _ & _ & ->).
  rewrite !lvl_ok_split, Hw. auto.
Qed.

Lemma lvl_erase : forall evs lv p k0 par,
  nth_error evs p = Some (NodeStart k0 par) -> wk k0 = 1 -> unclosed evs p = true ->
  lvl_ok (evs, lv) -> lvl_ok (set_nth evs p (NodeStart SK_None par), lv - 1).
Proof.
  intros evs lv p k0 par Hn Hw Hu. unfold unclosed in Hu. destruct (set_nth_split _ _ _ _ Hn) as (a & b & -> & _ & <- & ->).
  rewrite !lvl_ok_split, Hw. change (wk SK_None) with 0. intros (-> & Ha & _).
  split; [lia|]. split; [exact Ha|]. apply (prefix_ok_weaken _ _ _ Hu). pose proof (proj2 (prefix_ok_weaken a 0 0 Ha (Z.le_refl 0))). lia.
Qed.

Lemma set_start_kind_spec : forall evs p k evs', set_start_kind evs p k = Some evs' ->
  exists k0 par, nth_error evs p = Some (NodeStart k0 par) /\ evs' = set_nth evs p (NodeStart k par).
Proof.
  unfold set_start_kind. intros evs p k evs' H. destruct (nth_error evs p) as [[k0 par| | |]|]; try discriminate.
  injection H as <-. eauto.
Qed.

(** [++ []] is [deats [d]] for a marker operation [d]: the form in which [exec_dop_spec] meets this fact *)
Lemma T_retag : forall evs p k0 par k par' lv lv',
  nth_error evs p = Some (NodeStart k0 par) -> T (set_nth evs p (NodeStart k par'), lv') = T (evs, lv) ++ [].
Proof. intros. rewrite app_nil_r. apply (set_nth_start_tokens evs p k0 par k par' 0). assumption. Qed.

Lemma live_start_wk : forall evs p k par,
  nth_error evs p = Some (NodeStart k par) -> live_start evs p = true -> wk k = 1.
Proof. unfold live_start. intros evs p k par ->. apply wk_live. Qed.

Lemma lvl_mark : forall m k, negb (N.eqb k SK_None) = true -> lvl_ok m -> lvl_ok (m_mark m k).
Proof.
  intros [evs lv] k Hk L. apply (lvl_app _ _ _ _ L); [reflexivity|].
  cbn [depth snd]. fold (wk k). rewrite (wk_live _ Hk). reflexivity.
Qed.

Lemma lvl_raw_end : forall m, (0 <? snd m) = true -> lvl_ok m -> lvl_ok (m_raw_end m).
Proof.
  intros [evs lv] Hpos L. cbn [snd] in Hpos. apply Z.ltb_lt in Hpos. apply (lvl_app _ _ _ _ L); [|reflexivity].
  cbn [prefix_ok snd]. rewrite andb_true_r. apply Z.leb_le. lia.
Qed.

Lemma exec_dop_spec : forall raw m d m', exec_dop raw m d = Some m' ->
  T m' = T m ++ deats [d] /\ (raw = false -> mop_ok m d = true -> lvl_ok m -> lvl_ok m').
Proof.
  intros raw [evs lv] d m' H. destruct d; cbn [exec_dop mop_ok deats fst snd] in *.
  - (* mark *)
    injection H as <-. split; [apply T_app|]. intros _. apply lvl_mark.
  - (* set_kind *)
    unfold m_set_kind in H. cbn [fst snd] in H. destruct (set_start_kind evs p k) as [evs'|] eqn:E; [|discriminate].
    injection H as <-. apply set_start_kind_spec in E as (k0 & par & Hn & ->). split; [eapply T_retag, Hn|].
    intros _ Hok. apply andb_true_iff in Hok as [Hk Hl].
    apply (lvl_retag _ _ _ _ _ _ _ Hn). rewrite (live_start_wk _ _ _ _ Hn Hl). apply wk_live, Hk.
  - (* complete *)
    unfold m_complete in H. cbn [fst snd] in H. destruct (nth_error evs p) as [[k0 par| | |]|] eqn:Hn; try discriminate.
    destruct (Nat.eqb_spec (length evs) (S p)) as [El|_].
    + (* the node is empty: its start is the last event and is erased *)
      unfold set_start_kind in H. rewrite Hn in H. injection H as <-. split; [eapply T_retag, Hn|].
      intros _ Hok. apply andb_true_iff in Hok as [Hl _].
      apply (lvl_erase _ _ _ _ _ Hn (live_start_wk _ _ _ _ Hn Hl)). unfold unclosed. rewrite skipn_all2 by lia. reflexivity.
    + destruct raw; injection H as <-; (split; [|intros [=]]); [symmetry; apply app_nil_r|apply T_app|].
      intros Hok. apply andb_true_iff in Hok as [_ Hpos]. apply (lvl_raw_end (evs, lv)), Hpos.
  - (* undo *)
    unfold m_undo in H. cbn [fst snd] in H. destruct (set_start_kind evs p SK_None) as [evs'|] eqn:E; [|discriminate].
    injection H as <-. apply set_start_kind_spec in E as (k0 & par & Hn & ->). split; [eapply T_retag, Hn|].
    intros _ Hok. apply andb_true_iff in Hok as [Hl Hu]. apply (lvl_erase _ _ _ _ _ Hn (live_start_wk _ _ _ _ Hn Hl) Hu).
  - (* precede: push a start, link the preceded start to it, push Trivia *)
    unfold m_precede, m_mark in H. cbn [fst snd] in H.
    destruct (nth_error (evs ++ [NodeStart k 0]) start) as [[k0 par| | |]|] eqn:Hn; try discriminate.
    injection H as <-. split.
    + rewrite (T_app _ _ (lv + 1)), (T_retag _ _ _ _ _ _ lv _ Hn), (T_app _ _ lv). rewrite !app_nil_r. reflexivity.
    + intros _ Hk L. apply (lvl_app _ (lv + 1) [Trivia]); [|reflexivity|symmetry; apply Z.add_0_r].
      apply (lvl_retag _ _ _ _ _ _ _ Hn eq_refl), (lvl_mark (evs, lv)), L. exact Hk.
  - (* push_node_end *)
    injection H as <-. split; [apply T_app|]. intros _. apply (lvl_raw_end (evs, lv)).
  - (* a token *)
    injection H as <-. split; [apply T_app|]. intros _ _ L. apply (lvl_app _ _ _ _ L); [reflexivity|symmetry; apply Z.add_0_r].
Qed.

Lemma exec_dops_spec : forall raw ds m m', exec_dops raw m ds = Some m' ->
  T m' = T m ++ deats ds /\ (raw = false -> mops_ok raw m ds = true -> lvl_ok m -> lvl_ok m').
Proof.
  induction ds as [|d ds IH]; intros m m' H; cbn [exec_dops mops_ok] in *.
  - injection H as <-. split; [symmetry; apply app_nil_r|auto].
  - destruct (exec_dop raw m d) as [m1|] eqn:E; [|discriminate].
    destruct (exec_dop_spec _ _ _ _ E) as [T1 L1], (IH _ _ H) as [T2 L2]. split.
    + rewrite T2, T1, <- app_assoc. destruct d; reflexivity.
    + intros Hr Hok. apply andb_true_iff in Hok as [Hd Hds]. auto.
Qed.

Local Close Scope Z_scope.

Definition trivia_tokb (t : leaf) : bool := is_trivia_kind (fst t).

Definition temit (s : tst) (t : leaf) : tst :=
  {| t_m := emit (t_m s) t; t_docs := t_docs s; t_ok := t_ok s; t_disc := t_disc s |}.

(** [keeps s p s' p' ts]: from state [s] with open comment group [p] the loop has reached [s'] with group [p'] and
    has dealt with the tokens [ts] on the way: if the discipline has been respected up to [s'] it had been up to [s], and
    then the marker invariant carries over from [s] to [s']; if the doc obligation holds at [s'] it held at [s], and what
    has been emitted or is waiting in the group has grown by [ts]. *)
Definition keeps (s : tst) (p : list leaf) (s' : tst) (p' ts : list leaf) : Prop :=
  (t_disc s' = true -> t_disc s = true /\ (lvl_ok (t_m s) -> lvl_ok (t_m s'))) /\
  (t_ok s' = true -> t_ok s = true /\
     forall b, tiles (T (t_m s) ++ p ++ ts) 0 b -> tiles (T (t_m s') ++ p') 0 b).

Lemma keeps_refl : forall s p, keeps s p s p [].
Proof. intros s p. split; [auto|]. intros H. split; [exact H|]. intros b. rewrite app_nil_r. auto. Qed.

Lemma keeps_trans : forall s0 p0 s1 p1 s2 p2 ts us,
  keeps s0 p0 s1 p1 ts -> keeps s1 p1 s2 p2 us -> keeps s0 p0 s2 p2 (ts ++ us).
Proof.
  intros s0 p0 s1 p1 s2 p2 ts us [D1 K1] [D2 K2]. split.
  - intros H. destruct (D2 H) as [H1 L2]. destruct (D1 H1) as [H0 L1]. auto.
  - intros H. destruct (K2 H) as [H1 T2]. destruct (K1 H1) as [H0 T1]. split; [exact H0|].
    intros c Hc. rewrite !app_assoc in Hc. destruct (tiles_app_inv _ _ _ _ Hc) as (b & Hb & Hbc).
    apply T2. rewrite app_assoc. apply (tiles_app _ _ b); [apply T1; rewrite app_assoc|]; assumption.
Qed.

Lemma keeps_push : forall s p t s' p' ts, keeps s (p ++ [t]) s' p' ts -> keeps s p s' p' (t :: ts).
Proof.
  intros s p t s' p' ts [D K]. split; [exact D|]. intros H. destruct (K H) as [K0 Tl]. split; [exact K0|].
  intros b Hb. apply Tl. rewrite <- app_assoc. exact Hb.
Qed.

Lemma keeps_emit : forall s t s' p' ts, keeps (temit s t) [] s' p' ts -> keeps s [] s' p' (t :: ts).
Proof.
  intros s t s' p' ts [D K]. cbn [temit t_m t_disc t_ok] in D, K. split.
  - intros H. destruct (D H) as [D0 L]. split; [exact D0|]. intros L0. apply L, lvl_emit, L0.
  - intros H. destruct (K H) as [K0 Tl]. split; [exact K0|]. intros b Hb. apply Tl. rewrite T_emit, <- app_assoc. exact Hb.
Qed.

Lemma parse_comments_keeps : forall doc s g s',
  parse_comments false doc s g = Some s' -> g <> [] -> keeps s g s' [] [].
Proof.
  intros doc s g s' H Hne. unfold parse_comments in H. destruct doc; cbn [negb] in H.
  - destruct (split_trailing g) as [prefix trailing] eqn:Es.
    destruct (t_docs s) as [|ds rest]; [discriminate|].
    destruct (exec_dops false (t_m s) ds) as [m'|] eqn:Ed; [|discriminate].
    destruct (exec_dops_spec _ _ _ _ Ed) as [Tm Lm]. inversion H; subst s'; clear H. split; cbn [t_disc t_ok t_m].
    + intros Hd. apply andb_true_iff in Hd as [Hd1 Hd2]. split; [exact Hd1|]. intros L. apply lvl_emit_all. auto.
    + intros Hk. apply andb_true_iff in Hk as [Hk1 Hk2]. split; [exact Hk1|]. intros a Ha. rewrite app_nil_r in Ha.
      destruct (tiles_app_inv _ _ _ _ Ha) as (a0 & HT & Hg).
      destruct (doc_range_tiles _ _ _ _ _ Es Hne Hg) as (mid & _ & Htr & Hr). apply (proj1 (Hr _)) in Hk2.
      rewrite app_nil_r, T_emit_all, Tm.
      apply (tiles_app _ _ mid); [apply (tiles_app _ _ a0)|]; assumption.
  - injection H as <-. split; cbn [t_disc t_ok t_m].
    + intros Hd. split; [exact Hd|apply lvl_emit_all].
    + intros Hk. split; [exact Hk|]. intros a Ha. rewrite app_nil_r in *. rewrite T_emit_all. exact Ha.
Qed.

Lemma keeps_flush : forall doc s p s2 s' p' ts,
  parse_comments false doc s p = Some s2 -> p <> [] -> keeps s2 [] s' p' ts -> keeps s p s' p' ts.
Proof. intros doc s p s2 s' p' ts H Hne. apply (keeps_trans s p s2 [] s' p' []), (parse_comments_keeps _ _ _ _ H Hne). Qed.

Lemma trivia_loop_keeps : forall toks doc fuel i lc pending s pending' s',
  trivia_loop false toks doc fuel i lc pending s = Some (pending', s') ->
  keeps s pending s' pending' (filter trivia_tokb fuel).
Proof.
  intros toks doc. induction fuel as [|t rest IH]; intros i lc pending s pending' s' H; cbn [trivia_loop] in H.
  - injection H as <- <-. apply keeps_refl.
  - cbn [filter]. unfold trivia_tokb at 1. rewrite trivia_split.
    destruct (mem (fst t) pt_comment_kinds); [apply keeps_push, (IH _ _ _ _ _ _ H)|].
    destruct (mem (fst t) pt_eol_kinds); cbn [orb].
    { destruct pending as [|p0 pending].
      - (* no group open: the token is emitted, and both flush tests fail on the empty group *)
        cbn [length Nat.eqb negb andb] in H. rewrite andb_false_r in H. apply keeps_emit, (IH _ _ _ _ _ _ H).
      - apply keeps_push. set (pending1 := (p0 :: pending) ++ [t]) in *.
        assert (Hne : pending1 <> []) by (subst pending1; discriminate).
        destruct (Nat.ltb 1 (S lc) && _); [|destruct (_ && _); [destruct (inline_scan _ _)|]];
          try exact (IH _ _ _ _ _ _ H);
          (destruct (parse_comments false doc s pending1) as [s2|] eqn:Hp; [|discriminate]);
          exact (keeps_flush _ _ _ _ _ _ _ Hp Hne (IH _ _ _ _ _ _ H)). }
    destruct (mem (fst t) pt_ws_kinds); cbn [orb].
    { destruct pending; [apply keeps_emit|apply keeps_push]; exact (IH _ _ _ _ _ _ H). }
    destruct pending as [|p0 pending]; [exact (IH _ _ _ _ _ _ H)|].
    destruct (parse_comments false doc s (p0 :: pending)) as [s2|] eqn:Hp; [|discriminate].
    apply (keeps_flush _ _ _ _ _ _ _ Hp); [discriminate|exact (IH _ _ _ _ _ _ H)].
Qed.

Lemma parse_trivia_tokens_keeps : forall toks doc start next s s',
  parse_trivia_tokens false toks doc start next s = Some s' ->
  (next <= length toks)%nat /\ keeps s [] s' [] (filter trivia_tokb (firstn (next - start) (skipn start toks))).
Proof.
  intros toks doc start next s s' H. unfold parse_trivia_tokens in H.
  destruct (Nat.ltb_spec (length toks) next) as [|Hnext]; [discriminate|]. split; [exact Hnext|].
  destruct (trivia_loop _ _ _ _ _ _ _ _) as [[pending s1]|] eqn:Hloop; [|discriminate].
  apply trivia_loop_keeps in Hloop. destruct pending as [|p0 pending].
  - injection H as <-. exact Hloop.
  - rewrite <- (app_nil_r (filter _ _)). apply (keeps_trans _ _ _ _ _ _ _ _ Hloop), (parse_comments_keeps _ _ _ _ H).
    discriminate.
Qed.

Lemma skip_trivia_spec : forall toks i,
  (i <= skip_trivia toks i)%nat /\
  Forall (fun t => trivia_tokb t = true) (firstn (skip_trivia toks i - i) (skipn i toks)).
Proof.
  intros toks i. unfold skip_trivia. generalize (skipn i toks) as l. intros l. revert i.
  induction l as [|t l IH]; intros i; cbn [skip_trivia_go].
  - rewrite Nat.sub_diag. split; [lia|constructor].
  - destruct (is_trivia_kind (fst t)) eqn:E; [|rewrite Nat.sub_diag; split; [lia|constructor]].
    destruct (IH (S i)) as (A & C). split; [lia|].
    replace (skip_trivia_go l (S i) - i)%nat with (S (skip_trivia_go l (S i) - S i)) by lia.
    constructor; [exact E|exact C].
Qed.

Definition alive (toks : list leaf) : Prop := Forall (fun t => dead_kind (fst t) = false) toks.

(** the pump's progress, in terms of its token list, the index and kind of its current token and the tokens [out]
    of its event list: the events hold exactly the tokens before the current one *)
Definition covered (total : N) (toks : list leaf) (idx : nat) (inited : bool) (cur : tkind) (out : list leaf) : Prop :=
  tiles toks 0 total /\ alive toks /\ (inited = true -> cur = kind_at toks idx) /\ (inited = false -> idx = 0%nat) /\
  exists a, tiles (firstn idx toks) 0 a /\ tiles out 0 a.

Definition einv (total : N) (st : pst) : Prop :=
  covered total (p_tokens st) (p_index st) (p_inited st) (p_current st) (T (p_m st)).

(** if the discipline has been respected up to [st'] it had been up to [st], and then the marker invariant is
    preserved and, if also the doc obligation holds at [st'], it held at [st] and [einv] is preserved *)
Definition preserves (total : N) (st st' : pst) : Prop :=
  p_disc st' = true ->
  p_disc st = true /\ (lvl_ok (p_m st) -> lvl_ok (p_m st')) /\
  (p_doc_ok st' = true -> p_doc_ok st = true /\ (einv total st -> einv total st')).

Lemma preserves_refl : forall total st, preserves total st st.
Proof. intros total st Hd. auto. Qed.

Lemma preserves_trans : forall total a b c, preserves total a b -> preserves total b c -> preserves total a c.
Proof.
  intros total a b c P1 P2 Hd. destruct (P2 Hd) as (Hd1 & L2 & K2), (P1 Hd1) as (Hd0 & L1 & K1).
  split; [exact Hd0|]. split; [auto|]. intros Hk. destruct (K2 Hk) as [Hk1 E2], (K1 Hk1) as [Hk0 E1]. auto.
Qed.

Lemma with_disc_preserves : forall total st b, preserves total st (with_disc st b).
Proof. intros total st b Hd. apply andb_true_iff in Hd as [Hd _]. split; [exact Hd|]. split; auto. Qed.

Lemma p_bump_preserves : forall total st docs st', p_bump false st docs = Some st' ->
  (p_disc st = true -> p_inited st = true) -> preserves total st st'.
Proof.
  intros total st docs st' H Hinit. unfold p_bump in H.
  destruct (parse_trivia_tokens _ _ _ _ _ _) as [s|] eqn:Hpt; [|discriminate].
  destruct (t_docs s); [|discriminate]. injection H as <-.
  apply parse_trivia_tokens_keeps in Hpt as [Hnext [KD KT]]. cbn [t_m t_ok t_disc] in KD, KT.
  unfold preserves, einv. cbn [p_tokens p_inited p_current p_index p_disc p_doc_ok p_m].
  set (toks := p_tokens st) in *. set (idx := p_index st) in *. set (next := skip_trivia toks (S idx)) in *.
  intros Hd. destruct (KD Hd) as [D0 L]. split; [exact D0|]. split.
  { intros L0. apply L. destruct (_ && _); [destruct (nth_error toks idx)|]; try apply lvl_emit; exact L0. }
  intros Hk. destruct (KT Hk) as [K0 Tl]. split; [exact K0|]. intros (A & B & C & _ & a & F1 & F2).
  pose proof (Hinit D0) as Hi. split; [exact A|]. split; [exact B|]. split; [reflexivity|]. split; [congruence|].
  (* the loop visits the current token and the trivia after it *)
  pose proof (skip_trivia_spec toks (S idx)) as (Hge & Htriv). fold next in Hge, Htriv.
  destruct (nth_error toks idx) as [tcur|] eqn:Hcur; [|apply nth_error_None in Hcur; lia].
  set (run := firstn (next - S idx) (skipn (S idx) toks)) in *.
  assert (Hfuel : firstn (next - idx) (skipn idx toks) = tcur :: run).
  { rewrite (skipn_cons_nth _ _ _ _ Hcur). replace (next - idx)%nat with (S (next - S idx)) by lia. reflexivity. }
  rewrite Hfuel in Tl.
  (* the current token is emitted by [bump] itself unless it is trivia, and then the loop emits it *)
  assert (Hcat : T (if negb (is_invalid_kind (p_current st)) && Nat.ltb idx (length toks) then emit (p_m st) tcur else p_m st)
                 ++ filter trivia_tokb (tcur :: run) = T (p_m st) ++ tcur :: run).
  { cbn [filter]. rewrite (filter_all _ _ _ Htriv), (C Hi). unfold kind_at, trivia_tokb. rewrite Hcur.
    destruct (is_trivia_kind (fst tcur)) eqn:Etr; [rewrite (trivia_invalid _ Etr); reflexivity|].
    unfold alive in B. rewrite Forall_forall in B. specialize (B _ (nth_error_In _ _ Hcur)).
    unfold dead_kind in B. rewrite Etr, andb_true_r in B. rewrite B.
    destruct (Nat.ltb_spec idx (length toks)); [|lia]. cbn [negb andb]. rewrite T_emit, <- app_assoc. reflexivity. }
  rewrite <- (firstn_skipn next toks) in A. destruct (tiles_app_inv _ _ _ _ A) as (b & Hb & _).
  exists b. split; [exact Hb|]. rewrite (firstn_split _ toks idx next), Hfuel in Hb by lia.
  destruct (tiles_app_inv _ _ _ _ Hb) as (a' & F1' & Hrun). rewrite <- (tiles_fun _ _ _ _ F1 F1') in Hrun.
  rewrite <- (app_nil_r (T (t_m s))). apply Tl. cbn [app]. rewrite Hcat. exact (tiles_app _ _ _ _ F2 _ Hrun).
Qed.

Lemma p_init_preserves : forall total st docs st', p_init false st docs = Some st' ->
  (p_disc st = true -> p_inited st = false) -> preserves total st st'.
Proof.
  intros total st docs st' H Hi. unfold p_init in H.
  set (cur := match p_tokens st with [] => TK_TkEof | t :: _ => fst t end) in *.
  set (st1 := {| p_tokens := p_tokens st; p_index := p_index st; p_current := cur; p_m := p_m st; p_doc := p_doc st;
                 p_inited := true; p_doc_ok := p_doc_ok st; p_disc := p_disc st |}) in *.
  assert (P1 : preserves total st st1).
  { intros Hd. split; [exact Hd|]. split; [auto|]. intros Hk. split; [exact Hk|].
    unfold einv. cbn [st1 p_tokens p_index p_inited p_current p_m]. intros (A & B & _ & D & F).
    repeat split; try assumption; [|discriminate]. intros _. rewrite (D (Hi Hd)).
    unfold cur, kind_at. destruct (p_tokens st); reflexivity. }
  destruct (is_trivia_kind cur).
  - exact (preserves_trans _ _ _ _ P1 (p_bump_preserves total _ _ _ H (fun _ => eq_refl))).
  - destruct docs; [|discriminate]. injection H as <-. exact P1.
Qed.

Lemma set_tok_kind_preserves : forall total st k, (p_disc st = true -> dead_kind k = false) ->
  preserves total st (p_set_tok_kind st k).
Proof.
  intros total st k Hk. unfold p_set_tok_kind.
  destruct (Nat.ltb_spec (p_index st) (length (p_tokens st))) as [Hlt|Hge]; [|apply preserves_refl].
  unfold preserves, einv, alive. cbn [p_disc p_doc_ok p_m p_tokens p_index p_inited p_current].
  intros Hd. split; [exact Hd|]. split; [auto|]. intros Hok. split; [exact Hok|]. intros (A & B & _ & D & a & F1 & F2).
  destruct (nth_error (p_tokens st) (p_index st)) as [t|] eqn:Hn; [|apply nth_error_None in Hn; lia].
  destruct (set_nth_split _ _ _ _ Hn) as (pre & post & Et & Hlen & _ & ->). rewrite Et in A, B, F1. rewrite <- Hlen in *.
  destruct (tiles_app_inv _ _ _ _ A) as (m & A1 & A2). apply Forall_app in B as [B1 B2].
  split; [apply (tiles_app _ _ _ _ A1); destruct t as [k0 [s ln]]; exact A2|].
  split; [apply Forall_app; split; [exact B1|]; inversion B2; constructor; auto|].
  split; [intros _; unfold kind_at; rewrite nth_error_app2, Nat.sub_diag by lia; reflexivity|].
  split; [exact D|]. exists a. rewrite firstn_app_exact in * by reflexivity. auto.
Qed.

Lemma marker_preserves : forall total st d m', exec_dop false (p_m st) d = Some m' -> deats [d] = [] ->
  (p_disc st = true -> mop_ok (p_m st) d = true) -> preserves total st (with_m st m').
Proof.
  intros total st d m' Hm Hne Hok Hd. destruct (exec_dop_spec _ _ _ _ Hm) as [Tm Lm]. rewrite Hne, app_nil_r in Tm.
  unfold einv. cbn [with_m p_disc p_doc_ok p_m p_tokens p_index p_inited p_current] in *. rewrite Tm. auto.
Qed.

(** the marker operations of the client are those of the doc parser, on the pump's event list *)
Lemma marker_op_exec : forall st o d, op_as_dop o = Some d ->
  op_ok st o = mop_ok (p_m st) d /\ deats [d] = [] /\
  exec_op false st o = lift (with_disc st (op_ok st o)) (exec_dop false (p_m st) d).
Proof. intros st o d H. destruct o; try discriminate; injection H as <-; repeat split. Qed.

Lemma exec_op_step : forall total st o st', exec_op false st o = Some st' -> preserves total st st'.
Proof.
  intros total st o st' H. apply (preserves_trans _ _ _ _ (with_disc_preserves total st (op_ok st o))).
  assert (Hok : p_disc (with_disc st (op_ok st o)) = true -> op_ok st o = true)
    by (intros Hd; apply andb_true_iff in Hd; apply Hd).
  destruct (op_as_dop o) as [d|] eqn:Ho.
  - destruct (marker_op_exec st _ _ Ho) as (Eok & Hne & E). rewrite E in H. rewrite Eok in *.
    destruct (exec_dop false (p_m st) d) as [m'|] eqn:Hm; [|discriminate]. injection H as <-.
    exact (marker_preserves total (with_disc st _) d m' Hm Hne Hok).
  - destruct o; try discriminate; cbn [exec_op] in H.
    + apply (p_init_preserves _ _ _ _ H). intros Hd. apply negb_true_iff, Hok, Hd.
    + exact (p_bump_preserves _ _ _ _ H Hok).
    + injection H as <-. apply set_tok_kind_preserves. intros Hd. apply Hok, andb_true_iff in Hd as [_ Hd].
      apply negb_true_iff, Hd.
Qed.

Lemma exec_ops_inv : forall total ops st st', exec_ops false st ops = Some st' -> preserves total st st'.
Proof.
  intros total. induction ops as [|o ops IH]; intros st st' H; cbn [exec_ops] in H.
  - injection H as <-. apply preserves_refl.
  - destruct (exec_op false st o) as [st1|] eqn:E; [|discriminate].
    exact (preserves_trans _ _ _ _ (exec_op_step total _ _ _ E) (IH _ _ H)).
Qed.

Lemma markers_balanced : forall toks doc ops st,
  exec_ops false (pst_new toks doc) ops = Some st -> p_disc st = true ->
  prefix_ok (fst (p_m st)) 0 = true /\ snd (p_m st) = depth (fst (p_m st)).
Proof.
  intros toks doc ops st H Hd. destruct (exec_ops_inv 0 _ _ _ H Hd) as (_ & L & _).
  destruct L as [A B]; [split; reflexivity|auto].
Qed.

Lemma mark_level_exact : forall toks doc ops st,
  exec_ops false (pst_new toks doc) ops = Some st -> p_disc st = true ->
  snd (p_m st) = depth (fst (p_m st)).
Proof. intros toks doc ops st H Hd. apply (markers_balanced toks doc ops st H Hd). Qed.

Lemma pump_emits_all : forall toks total doc ops st,
  tiles toks 0 total -> alive toks ->
  exec_ops false (pst_new toks doc) ops = Some st -> p_disc st = true -> p_doc_ok st = true ->
  exists a, tiles (firstn (p_index st) (p_tokens st)) 0 a /\ tiles (tokens_of (fst (p_m st))) 0 a /\
            (p_inited st = true -> p_current st = TK_TkEof -> a = total).
Proof.
  intros toks total doc ops st Ht Ha H Hd Hk.
  destruct (exec_ops_inv total _ _ _ H Hd) as (_ & _ & K). destruct (K Hk) as [_ E].
  destruct E as (A & B & C & _ & a & F1 & F2).
  { repeat split; try assumption; try discriminate. exists 0. split; reflexivity. }
  exists a. split; [exact F1|]. split; [exact F2|].
  intros Hi Hc. rewrite (C Hi) in Hc. unfold kind_at in Hc.
  destruct (nth_error (p_tokens st) (p_index st)) as [t|] eqn:Hn.
  - (* a token of kind TkEof would be dead *)
    exfalso. unfold alive in B. rewrite Forall_forall in B. specialize (B t (nth_error_In _ _ Hn)). rewrite Hc in B.
    discriminate B.
  - apply nth_error_None in Hn. rewrite firstn_all2 in F1 by exact Hn. exact (tiles_fun _ _ _ _ F1 A).
Qed.
