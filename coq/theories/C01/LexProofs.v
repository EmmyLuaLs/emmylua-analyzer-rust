(** C01/LexProofs.v — the tokenize loop tiles the text, for every contract-respecting lexer step. *)
From Coq Require Import PeanoNat.
From EV Require Import Base.TextFacts Base.Reader Base.ReaderFacts C01.Model C01.Proofs C01.LexModel.
Local Open Scope N_scope.

Section Contract.
  Variable S : Type.
  Variable step : S -> reader -> tkind * S * reader.
  (** what is known about (state, reader) whenever the loop calls the step *)
  Variable Inv : S -> reader -> Prop.
  (** a property of the kinds the step reports (e.g. "not a kind the parser drops") *)
  Variable Pk : tkind -> Prop.

  (** The step contract, for the calls the loop makes (reader not exhausted): the step first forgets the previous
      token ([reset_buff]), then moves at least one character [cs] of the unread text into the buffer, and does not
      report [TkEof]. *)
  Definition step_contract : Prop :=
    forall st r, reader_wf r -> is_eof r = false -> Inv st r ->
      let '(k, st', r') := step st r in
      exists cs, moved (reset_buff r) r' cs /\ cs <> [] /\ k <> TK_TkEof /\ Pk k /\ (is_eof r' = false -> Inv st' r').

  Hypothesis Hstep : step_contract.

  (** loop invariant: the text is [seen ++ unread]; the emitted ranges tile [0, |seen|) and spell [seen] *)
  Definition covers (t : text) (r : reader) (acc : list leaf) : Prop :=
    exists seen, t = seen ++ r_rest r /\ bytes seen = r_pos r + r_len r /\ r_start r = 0 /\ reader_wf r /\
                 tiles acc 0 (bytes seen) /\ concat_slices t acc = Some seen.

  Lemma covers_new : forall t, covers t (reader_new t) [].
  Proof. intros t. exists []. repeat split. Qed.

  Lemma covers_push : forall t r acc r' cs k,
    covers t r acc -> moved (reset_buff r) r' cs -> covers t r' (acc ++ [(k, current_range r')]).
  Proof.
    intros t r acc r' cs k (seen & Ht & Hb & Hs & Hwf & Hti & Hco) (M1 & M2 & M3 & M4 & M5 & M6).
    cbn [reset_buff r_rest r_len r_pos r_total r_start] in *. exists (seen ++ cs). unfold current_range.
    rewrite M5, Hs, M3, <- Hb. replace (r_len r') with (bytes cs) by lia. rewrite N.add_0_l, bytes_app.
    split; [rewrite Ht, M1, app_assoc; reflexivity|]. split; [lia|]. split; [congruence|]. split; [exact M6|].
    split; [apply tiles_snoc, Hti|]. apply concat_slices_app; [exact Hco|]. cbn [concat_slices].
    rewrite Ht, M1, (slice_app seen cs (r_rest r') _ _ eq_refl eq_refl), app_nil_r. reflexivity.
  Qed.

  Lemma tok_loop_spec : forall fuel t st r acc,
    (length (r_rest r) < fuel)%nat -> covers t r acc -> (is_eof r = false -> Inv st r) ->
    Forall (fun x => Pk (fst x)) acc ->
    let '(toks, r', ex) := tok_loop S step fuel st r acc in
    ex = true /\ tiles toks 0 (bytes t) /\ concat_slices t toks = Some t /\ Forall (fun x => Pk (fst x)) toks.
  Proof.
    induction fuel as [|f IH]; intros t st r acc Hf Hc Hinv Hacc; [lia|].
    cbn [tok_loop]. destruct (is_eof r) eqn:Heof.
    - destruct Hc as (seen & Ht & _ & _ & Hwf & Hti & Hco).
      apply (wf_eof_iff r Hwf) in Heof. rewrite Heof, app_nil_r in Ht. subst seen. auto.
    - pose proof Hc as (_ & _ & _ & _ & Hwf & _). specialize (Hstep st r Hwf Heof (Hinv eq_refl)).
      destruct (step st r) as [[k st'] r'].
      destruct Hstep as (cs & Hmv & Hprog & Hkeof & Hpk & Hinv').
      destruct (N.eqb_spec k TK_TkEof) as [Ek|Ek]; [congruence|].
      apply IH; [|exact (covers_push _ _ _ _ _ k Hc Hmv)|exact Hinv'|].
      + destruct Hmv as (M1 & _). cbn [reset_buff r_rest] in M1. rewrite M1, app_length in Hf.
        destruct cs; [congruence|cbn in Hf; lia].
      + apply Forall_app. split; [exact Hacc|]. constructor; [exact Hpk|constructor].
  Qed.

  Lemma lex_tiles : forall t normal st0,
    (forall r cs, moved (reader_new t) r cs -> is_eof r = false -> Inv st0 r) -> Pk TK_TkShebang ->
    let '(toks, r', ex) := tokenize S step normal st0 t in
    ex = true /\ tiles toks 0 (bytes t) /\ concat_slices t toks = Some t /\ Forall (fun x => Pk (fst x)) toks.
  Proof.
    intros t normal st0 Hinit Hsheb. unfold tokenize, tokenize_from.
    pose proof (reader_new_wf t 0) as Hwf0. fold (reader_new t) in Hwf0.
    destruct (normal && (current_char (reader_new t) =? 35)).
    - (* the shebang line is one more token *)
      destruct (eat_while_moved not_newline (reader_new t) Hwf0) as (cs & Hmv).
      apply tok_loop_spec; [|exact (covers_push _ _ [] _ _ _ (covers_new t) Hmv)|intros He; eapply Hinit; eauto|].
      + destruct Hmv as (M1 & _). apply (f_equal (@length _)) in M1. rewrite app_length in M1. cbn [reader_new reader_new_at r_rest] in *. lia.
      + constructor; [exact Hsheb|constructor].
    - apply tok_loop_spec; [cbn; lia|apply covers_new| |constructor].
      intros He. eapply Hinit; [apply moved_refl; exact Hwf0|exact He].
  Qed.
End Contract.
