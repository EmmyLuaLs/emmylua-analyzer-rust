(** C01/DocPumpProofs.v — the doc parser's token pump re-emits the comment group as a tiling of its range,
    for every sequence of primitives and every oracle that respects the Reader discipline. *)
From Coq Require Import PeanoNat.
From EV Require Import C01.Model C01.Proofs C01.LexProofs C01.Pump C01.PumpProofs C01.DocPump.
Local Open Scope N_scope.

Definition tstart (t : leaf) : N := fst (snd t).
Definition tlen (t : leaf) : N := snd (snd t).
Definition tend (t : leaf) : N := tstart t + tlen t.

Lemma deats_app : forall a b, deats (a ++ b) = deats a ++ deats b.
Proof. induction a as [|d a IH]; intros b; [reflexivity|]. cbn [app deats]. destruct d; rewrite IH; reflexivity. Qed.

Lemma tiles_skipn_cons : forall (toks : list leaf) i t a b,
  nth_error toks i = Some t -> tiles (skipn i toks) a b -> tstart t = a /\ tiles (skipn (S i) toks) (a + tlen t) b.
Proof.
  intros toks i t a b Hn H. rewrite (skipn_cons_nth _ _ _ _ Hn) in H. destruct t as [k [s l]].
  destruct H as [-> H]. split; [reflexivity|exact H].
Qed.

Lemma whole_valid : forall k, whole_kind k = true -> doc_invalid k = false.
Proof.
  intros k H. unfold whole_kind in H. apply orb_true_iff in H. destruct H as [H|H]; [apply orb_true_iff in H; destruct H as [H|H]|];
    apply N.eqb_eq in H; subst; reflexivity.
Qed.

Section Group.
  Variable G1 : N.   (* end of the comment group *)

  (** the origin token [lex_token] moves to when the doc lexer's reader is exhausted; [cur_none]: the current token
      is still [None], i.e. nothing has been lexed yet *)
  Definition next_origin (oidx : nat) (cur_none : bool) : nat := if cur_none && Nat.eqb oidx 0 then O else S oidx.

  (** where the next [lex_token] will read from: position [F], either inside the origin token [oidx] that the doc
      lexer's reader [lx] is on, or at the start of the next origin token *)
  Inductive front (lx : option (N * N)) (oidx : nat) (toks : list leaf) (cur_none : bool) (F : N) : Prop :=
  | FValid : forall e t, lx = Some (F, e) -> F < e -> nth_error toks oidx = Some t -> tend t = e ->
             tiles (skipn (S oidx) toks) e G1 -> front lx oidx toks cur_none F
  | FNext : lx_invalid lx = true -> tiles (skipn (next_origin oidx cur_none) toks) F G1 -> front lx oidx toks cur_none F.

  Definition frontier (st : dst) (F : N) : Prop :=
    front (d_lx st) (d_oidx st) (d_toks st) (d_cur st =? TK_None) F.
  (** the same, once the caller has stored a non-None kind in [current_token] *)
  Definition lexed (st : dst) (F : N) : Prop := front (d_lx st) (d_oidx st) (d_toks st) false F.

  Definition nonempty_toks (toks : list leaf) : Prop := Forall (fun t => 1 <= tlen t) toks.

  Lemma lex_token_frame : forall fuel st st' tok, lex_token fuel st = Some (st', tok) ->
    d_toks st' = d_toks st /\ d_cur st' = d_cur st /\ d_crange st' = d_crange st /\ d_out st' = d_out st /\
    d_disc st' = d_disc st /\ (d_lex_ok st' = true -> d_lex_ok st = true).
  Proof.
    induction fuel as [|fuel IH]; intros st st' tok H; cbn [lex_token] in H; [discriminate|].
    destruct (lx_invalid (d_lx st));
      [destruct (nth_error (d_toks st) _) as [t|]; [destruct (whole_kind (fst t))|]|destruct (d_lx st) as [[pos e]|]];
      try discriminate; try (injection H as <- <-; cbn [set_lex d_toks d_cur d_crange d_out d_disc d_lex_ok]; tauto).
    (* what is left are the two calls of [next_round]: one more round, or one answer is consumed *)
    all: destruct (_ <=? _); [exact (IH _ _ _ H)|].
    all: destruct (d_answers _) as [|[k0 n0] rest]; [discriminate|]; injection H as <- <-.
    all: cbn [set_lex d_toks d_cur d_crange d_out d_disc d_lex_ok]; repeat split.
    all: intros Hok; repeat (apply andb_true_iff in Hok as [Hok _]); exact Hok.
  Qed.

  (** one answer of the oracle, consumed from a reader that is inside an origin token *)
  Lemma lex_answer : forall fuel st pos e t st' k s n,
    d_lx st = Some (pos, e) -> pos < e -> nth_error (d_toks st) (d_oidx st) = Some t -> tend t = e ->
    tiles (skipn (S (d_oidx st)) (d_toks st)) e G1 ->
    lex_token (S fuel) st = Some (st', (k, (s, n))) -> d_lex_ok st' = true ->
    s = pos /\ 1 <= n /\ doc_invalid k = false /\ lexed st' (pos + n).
  Proof.
    intros fuel st pos e t st' k s n Hlx Hlt Hn He Ht H. cbn [lex_token] in H. rewrite Hlx in H. cbn [lx_invalid] in H.
    rewrite (proj2 (N.leb_gt e pos) Hlt) in H. destruct (d_answers st) as [|[k0 n0] rest]; [discriminate|].
    injection H as <- <- <- <-. unfold lexed. cbn [set_lex d_lex_ok d_lx d_oidx d_toks]. intros Hok.
    apply andb_true_iff in Hok as [Hok Hk]. apply andb_true_iff in Hok as [Hok Hin]. apply andb_true_iff in Hok as [_ H1].
    apply N.leb_le in H1, Hin. apply negb_true_iff in Hk. repeat split; try assumption.
    destruct (N.eq_dec (pos + n0) e) as [Ee|Ene].
    - apply FNext; [apply N.leb_le; lia|]. rewrite Ee. exact Ht.
    - apply (FValid _ _ _ _ _ e t); [reflexivity|lia|assumption..].
  Qed.

  Lemma lex_token_spec : forall fuel st F st' k s n,
    frontier st F -> nonempty_toks (d_toks st) ->
    lex_token (S fuel) st = Some (st', (k, (s, n))) ->
    (k = TK_TkEof /\ n = 0 /\ F = G1 /\ st' = st /\ lexed st F) \/
    (d_lex_ok st' = true -> s = F /\ 1 <= n /\ doc_invalid k = false /\ lexed st' (F + n)).
  Proof.
    intros fuel st F st' k s n [e t Hlx Hlt Hn He Ht|Hinv Ht] Hne H; [right; eapply lex_answer; eauto|].
    cbn [lex_token] in H. rewrite Hinv, andb_comm in H. fold (next_origin (d_oidx st) (d_cur st =? TK_None)) in H.
    set (next := next_origin _ _) in *.
    assert (Hle : (next <= S (d_oidx st))%nat) by (unfold next, next_origin; destruct (_ && _); lia).
    destruct (nth_error (d_toks st) next) as [t|] eqn:Hn.
    - right. destruct (tiles_skipn_cons _ _ _ _ _ Hn Ht) as [Hs Hrest].
      assert (Hl : 1 <= tlen t) by (apply (proj1 (Forall_forall _ _) Hne), (nth_error_In _ _ Hn)).
      destruct (whole_kind (fst t)) eqn:Hw.
      + destruct t as [k0 [s0 l0]]. injection H as <- <- <- <-. intros _.
        repeat split; [exact Hs|exact Hl|apply whole_valid, Hw|]. apply FNext; [exact Hinv|exact Hrest].
      + (* the reader is put on the token: one answer is consumed from there *)
        set (st1 := set_lex st next (Some (fst (snd t), fst (snd t) + snd (snd t))) (d_answers st) (d_lex_ok st)) in *.
        assert (Hc : (fst (snd t) + snd (snd t) <=? fst (snd t)) = false) by (apply N.leb_gt; unfold tlen in Hl; lia).
        rewrite Hc in H. rewrite <- Hs. apply (lex_answer 0 st1 (tstart t) (tend t) t); try reflexivity.
        * apply N.leb_gt, Hc.
        * exact Hn.
        * unfold tend. rewrite Hs. exact Hrest.
        * cbn [lex_token st1 set_lex d_lx lx_invalid]. rewrite Hc. exact H.
    - left. apply nth_error_None in Hn. rewrite skipn_all2 in Ht by exact Hn. injection H as <- <- <- <-.
      repeat split; [exact Ht|]. apply FNext; [exact Hinv|]. rewrite skipn_all2 by (cbn [next_origin andb]; lia). exact Ht.
  Qed.

  Variable G0 : N.   (* start of the comment group *)

  (** the invariant of the doc pump: [E] = end of what has been emitted, [F] = end of what has been lexed *)
  Definition dinv (st : dst) : Prop :=
    nonempty_toks (d_toks st) /\
    exists E F,
      tiles (deats (d_out st)) G0 E /\
      (doc_invalid (d_cur st) = false -> fst (d_crange st) = E /\ E + snd (d_crange st) = F) /\
      (doc_invalid (d_cur st) = true -> E = F) /\
      (d_cur st = TK_TkEof -> F = G1) /\
      frontier st F.

  (** [dkeeps st st']: nothing the client did is recorded between [st] and [st'], and if the oracle has respected the
      Reader discipline up to [st'] it had up to [st] and the invariant is preserved *)
  Definition dkeeps (st st' : dst) : Prop :=
    d_disc st' = d_disc st /\ (d_lex_ok st' = true -> d_lex_ok st = true /\ (dinv st -> dinv st')).

  Lemma valid_not_none : forall k, doc_invalid k = false -> (k =? TK_None) = false.
  Proof. intros k H. apply N.eqb_neq. intros ->. discriminate H. Qed.

  (** consuming the result of one [lex_token] call made at frontier [F] with everything before [F] emitted;
      [r0] is the range kept when the returned range is empty *)
  Lemma take_token : forall st st' k s n r0,
    lex_token (lex_fuel st) st = Some (st', (k, (s, n))) ->
    let st2 := with_cur st' k (if n =? 0 then r0 else (s, n)) in
    d_disc st2 = d_disc st /\
    (d_lex_ok st2 = true -> d_lex_ok st = true /\
       forall F, nonempty_toks (d_toks st) -> frontier st F -> tiles (deats (d_out st)) G0 F -> dinv st2).
  Proof.
    intros st st' k s n r0 H st2. destruct (lex_token_frame _ _ _ _ H) as (T1 & _ & _ & T4 & T5 & T6).
    split; [exact T5|]. intros Hok. split; [exact (T6 Hok)|]. intros F Hne Hf Hout.
    unfold dinv, frontier. cbn [st2 with_cur d_toks d_out d_cur d_crange d_lx d_oidx]. rewrite T1, T4. split; [exact Hne|].
    destruct (lex_token_spec _ _ _ _ _ _ _ Hf Hne H) as [(-> & -> & E3 & -> & E5)|Hr].
    - exists F, F. split; [exact Hout|]. split; [intros C; discriminate C|]. split; [reflexivity|]. split; [intros _; exact E3|exact E5].
    - destruct (Hr Hok) as (-> & S2 & S3 & S4). destruct (N.eqb_spec n 0) as [E0|_]; [lia|].
      exists F, (F + n). rewrite (valid_not_none _ S3), <- T1. split; [exact Hout|]. split; [intros _; split; reflexivity|].
      split; [congruence|]. split; [intros ->; discriminate S3|exact S4].
  Qed.

  Lemma emitted_frontier : forall st E F,
    tiles (deats (d_out st)) G0 E -> fst (d_crange st) = E -> E + snd (d_crange st) = F ->
    tiles (deats (d_out (emit_cur st))) G0 F.
  Proof.
    intros st E F H1 H2 H3. cbn [emit_cur d_out]. rewrite deats_app. cbn [deats]. rewrite H2, <- H3. apply tiles_snoc. exact H1.
  Qed.

  Lemma eat_lex_spec : forall st st', eat_lex st = Some st' ->
    d_disc st' = d_disc st /\
    (d_lex_ok st' = true -> d_lex_ok st = true /\ (dinv st -> doc_invalid (d_cur st) = false -> dinv st')).
  Proof.
    intros st st' H. unfold eat_lex in H.
    destruct (lex_token (lex_fuel (emit_cur st)) (emit_cur st)) as [[st1 [k [s n]]]|] eqn:Hl; [|discriminate].
    injection H as <-. cbn [snd].
    destruct (take_token _ _ _ _ _ (d_crange st1) Hl) as [D K].
    split; [exact D|]. intros Hok. destruct (K Hok) as [K0 I]. split; [exact K0|].
    intros [Hne (E & F & I1 & I2 & _ & _ & I5)] Hp. destruct (I2 Hp) as [J1 J2].
    apply (I F); [exact Hne|exact I5|]. eapply emitted_frontier; eauto.
  Qed.

  (** the loops of [bump] never skip None or TkEof *)
  Lemma in_skip_valid : forall sk k, in_skip sk k = true -> doc_invalid k = false.
  Proof.
    intros sk k H. destruct (doc_invalid k) eqn:D; [exfalso|reflexivity].
    unfold doc_invalid, mem, doc_invalid_kinds in D. cbn [existsb] in D. rewrite orb_false_r in D.
    apply orb_true_iff in D as [D|D]; apply N.eqb_eq in D; subst k;
      unfold in_skip in H; destruct (sk =? 0), (sk =? 1), (sk =? 2); discriminate H.
  Qed.

  Lemma dkeeps_trans : forall a b c, dkeeps a b -> dkeeps b c -> dkeeps a c.
  Proof.
    intros a b c [D1 K1] [D2 K2]. split; [congruence|]. intros Hok.
    destruct (K2 Hok) as [Hb I2], (K1 Hb) as [Ha I1]. auto.
  Qed.

  Lemma skip_loop_spec : forall fuel sk st st', skip_loop fuel sk st = Some st' -> dkeeps st st'.
  Proof.
    induction fuel as [|fuel IH]; intros sk st st' H; cbn [skip_loop] in H; [discriminate|].
    destruct (in_skip sk (d_cur st)) eqn:Hs; [|injection H as <-; split; auto].
    destruct (eat_lex st) as [st1|] eqn:He; [|discriminate]. apply (dkeeps_trans _ st1); [|exact (IH _ _ _ H)].
    destruct (eat_lex_spec _ _ He) as [D K]. split; [exact D|]. intros Hok. destruct (K Hok) as [K0 I].
    pose proof (in_skip_valid _ _ Hs). auto.
  Qed.

  Lemma d_bump_spec : forall sk st st', d_bump sk st = Some st' -> dkeeps st st'.
  Proof.
    intros sk st st' H. unfold d_bump in H.
    set (st0 := if doc_invalid (d_cur st) then st else emit_cur st) in *.
    destruct (lex_token (lex_fuel st0) st0) as [[st1 [k [s n]]]|] eqn:Hl; [|discriminate].
    (* the call is made with everything before the frontier emitted *)
    assert (H0 : dkeeps st (with_cur st1 k (s, n))).
    { destruct (take_token _ _ _ _ _ (s, n) Hl) as [D K].
      replace (if n =? 0 then (s, n) else (s, n)) with (s, n) in * by (destruct (n =? 0); reflexivity).
      subst st0. split; [destruct (doc_invalid (d_cur st)); exact D|]. intros Hok. destruct (K Hok) as [K0 I].
      split; [destruct (doc_invalid (d_cur st)); exact K0|]. intros [Hne (E & F & I1 & I2 & I3 & _ & I5)].
      destruct (doc_invalid (d_cur st)) eqn:Hp.
      - apply (I F); [exact Hne|exact I5|]. rewrite <- (I3 eq_refl). exact I1.
      - destruct (I2 eq_refl) as [J1 J2]. apply (I F); [exact Hne|exact I5|]. eapply emitted_frontier; eauto. }
    destruct (k =? TK_TkEof); [injection H as <-; exact H0|]. exact (dkeeps_trans _ _ _ H0 (skip_loop_spec _ _ _ _ H)).
  Qed.

  (** resetting the doc lexer to the start of the pending current token *)
  Lemma reset_spec : forall st st1, reset_to_current st = Some st1 ->
    exists e, st1 = set_lex st (d_oidx st) (Some (fst (d_crange st), e)) (d_answers st) (d_lex_ok st) /\
      forall F c c', front (d_lx st) (d_oidx st) (d_toks st) c F -> lx_invalid (d_lx st) = false -> fst (d_crange st) <= F ->
        front (Some (fst (d_crange st), e)) (d_oidx st) (d_toks st) c' (fst (d_crange st)).
  Proof.
    intros st st1 H. unfold reset_to_current in H. destruct (nth_error (d_toks st) (d_oidx st)) as [t|] eqn:Hn; [|discriminate].
    fold (tstart t) (tlen t) (tend t) in H. destruct (N.ltb_spec (tend t) (fst (d_crange st))); [discriminate|]. injection H as <-.
    exists (tend t). split; [reflexivity|]. intros F c c' [e t' Hlx Hlt Hn' He Ht|Hinv _] Hv Hle; [|congruence].
    rewrite Hn in Hn'. injection Hn' as <-. subst e. apply (FValid _ _ _ _ _ (tend t) t); [reflexivity|lia|exact Hn|reflexivity|exact Ht].
  Qed.

  Lemma disc_flags : forall d a b, d && (negb a && negb b) = true -> d = true /\ a = false /\ b = false.
  Proof. intros [] [] []; auto; discriminate. Qed.

  (** if the client has respected the discipline up to [st'], it had up to [st], and then: if the oracle has respected
      the Reader discipline up to [st'] it had up to [st] and the invariant is preserved *)
  Definition dstep (st st' : dst) : Prop :=
    d_disc st' = true -> d_disc st = true /\ (d_lex_ok st' = true -> d_lex_ok st = true /\ (dinv st -> dinv st')).

  Lemma dstep_trans : forall a b c, dstep a b -> dstep b c -> dstep a c.
  Proof.
    intros a b c S1 S2 Hd. destruct (S2 Hd) as [Hd1 K2], (S1 Hd1) as [Hd0 K1]. split; [exact Hd0|]. intros Hok.
    destruct (K2 Hok) as [Hok1 I2], (K1 Hok1) as [Hok0 I1]. auto.
  Qed.

  Lemma dkeeps_dstep : forall a b, dkeeps a b -> dstep a b.
  Proof. intros a b [D K] Hd. rewrite D in Hd. auto. Qed.

  Lemma exec_pop_spec : forall st o st', exec_pop st o = Some st' -> dstep st st'.
  Proof.
    intros st o st' H. destruct o; cbn [exec_pop] in H.
    - (* bump *)
      exact (dkeeps_dstep _ _ (d_bump_spec _ _ _ H)).
    - (* bump_to_end's eat: the current token is pending *)
      destruct (eat_lex_spec _ _ H) as [D K]. cbn [with_ddisc d_disc d_lex_ok d_cur] in D, K. intros Hd. rewrite D in Hd.
      apply andb_true_iff in Hd as [Hd Hp]. apply negb_true_iff in Hp. split; [exact Hd|]. intros Hok.
      destruct (K Hok) as [K0 I]. auto.
    - (* re_calc_detail *)
      destruct (reset_spec _ _ H) as (e & -> & Hfr). unfold dstep, dinv, frontier.
      cbn [set_lex with_cur with_ddisc d_disc d_lex_ok d_toks d_out d_cur d_crange d_lx d_oidx] in *. intros Hd.
      apply disc_flags in Hd as (Hd & Hv & Hp).
      split; [exact Hd|]. intros Hok. split; [exact Hok|]. intros [Hne (E & F & I1 & I2 & _ & _ & I5)].
      destruct (I2 Hp) as [<- J2]. split; [exact Hne|]. exists (fst (d_crange st)), (fst (d_crange st)).
      split; [exact I1|]. split; [discriminate|]. split; [reflexivity|]. split; [discriminate|]. apply (Hfr F _ _ I5 Hv). lia.
    - (* re_calc_cast_type: the same reset, then the current token is lexed again *)
      destruct (reset_to_current _) as [st1|] eqn:Hr; [|discriminate].
      destruct (lex_token (lex_fuel st1) st1) as [[st2 [k [s n]]]|] eqn:Hl; [|discriminate]. injection H as <-.
      destruct (take_token _ _ _ _ _ (d_crange st2) Hl) as [D K]. cbn [snd]. intros Hd. rewrite D in Hd.
      destruct (reset_spec _ _ Hr) as (e & -> & Hfr). unfold frontier in K.
      cbn [set_lex with_ddisc d_disc d_lex_ok d_toks d_out d_cur d_crange d_lx d_oidx] in *.
      apply disc_flags in Hd as (Hd & Hv & Hp).
      split; [exact Hd|]. intros Hok. destruct (K Hok) as [K0 I]. split; [exact K0|].
      intros [Hne (E & F & I1 & I2 & _ & _ & I5)]. destruct (I2 Hp) as [<- J2].
      apply (I (fst (d_crange st)) Hne); [|exact I1]. apply (Hfr F _ _ I5 Hv). lia.
    - (* set kind *)
      injection H as <-. unfold dstep, dinv, frontier. cbn [with_cur with_ddisc d_disc d_lex_ok d_toks d_out d_cur d_crange d_lx d_oidx].
      intros Hd. apply disc_flags in Hd as (Hd & A & B).
      split; [exact Hd|]. intros Hok. split; [exact Hok|]. intros [Hne (E & F & I1 & I2 & _ & _ & I5)].
      split; [exact Hne|]. exists E, F. rewrite (valid_not_none _ A) in I5. rewrite (valid_not_none _ B).
      split; [exact I1|]. split; [auto|]. split; [congruence|]. split; [intros ->; discriminate B|exact I5].
    - (* marker operation *)
      injection H as <-. unfold dstep, dinv, frontier. cbn [d_disc d_lex_ok d_toks d_out d_cur d_crange d_lx d_oidx].
      intros Hd. apply andb_true_iff in Hd as [Hd Hm]. split; [exact Hd|]. intros Hok. split; [exact Hok|].
      rewrite deats_app. destruct d; try discriminate Hm; cbn [deats]; rewrite app_nil_r; auto.
  Qed.

  Lemma exec_pops_spec : forall ops st st', exec_pops st ops = Some st' -> dstep st st'.
  Proof.
    induction ops as [|o ops IH]; intros st st' H; cbn [exec_pops] in H.
    - injection H as <-. intros Hd. auto.
    - destruct (exec_pop st o) as [st1|] eqn:E; [|discriminate].
      exact (dstep_trans _ _ _ (exec_pop_spec _ _ _ E) (IH _ _ H)).
  Qed.

  Lemma doc_pump_tiles : forall toks answers ops st,
    nonempty_toks toks -> tiles toks G0 G1 ->
    doc_run toks answers ops = Some st ->
    d_disc st = true -> d_lex_ok st = true -> d_cur st = TK_TkEof ->
    tiles (deats (d_out st)) G0 G1.
  Proof.
    intros toks answers ops st Hne Ht H Hd Hok Hc.
    assert (I0 : dinv (dst_new toks answers)).
    { split; [exact Hne|]. exists G0, G0. split; [reflexivity|]. split; [discriminate|]. split; [reflexivity|].
      split; [discriminate|]. apply FNext; [reflexivity|exact Ht]. }
    assert (Hfin : forall st0, dinv st0 -> dstep st0 st -> tiles (deats (d_out st)) G0 G1).
    { intros st0 I S. destruct (S Hd) as [_ K]. destruct (K Hok) as [_ J].
      destruct (J I) as [_ (E & F & J1 & _ & J3 & J4 & _)]. rewrite Hc in J3. rewrite (J3 eq_refl), (J4 Hc) in J1. exact J1. }
    unfold doc_run in H. destruct toks as [|t0 toks']; [exact (Hfin _ I0 (exec_pops_spec _ _ _ H))|].
    destruct (d_bump 2 (dst_new (t0 :: toks') answers)) as [st1|] eqn:Hb; [|discriminate].
    exact (Hfin _ I0 (dstep_trans _ _ _ (dkeeps_dstep _ _ (d_bump_spec _ _ _ Hb)) (exec_pops_spec _ _ _ H))).
  Qed.
End Group.
