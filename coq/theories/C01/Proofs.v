(** C01/Proofs.v — the builder model (layer d) keeps the leaves; with the facts about lists, [tiles] and
    [concat_slices] that the other layers' proofs share. *)
From Coq Require Import PeanoNat.
From EV Require Import C01.Model.
Local Open Scope N_scope.

Lemma leaves_node : forall k cs, leaves (Node k cs) = leaves_list cs.
Proof.
  intros k cs. cbn [leaves]. unfold leaves_list. induction cs as [|c r IH]; [reflexivity|].
  cbn [flat_map]. rewrite <- IH. reflexivity.
Qed.

Lemma leaves_list_app : forall a b, leaves_list (a ++ b) = leaves_list a ++ leaves_list b.
Proof. intros. unfold leaves_list. apply flat_map_app. Qed.

Lemma leaves_list_cons : forall a b, leaves_list (a :: b) = leaves a ++ leaves_list b.
Proof. reflexivity. Qed.

Lemma leaves_list_split : forall n cs, leaves_list (firstn n cs) ++ leaves_list (skipn n cs) = leaves_list cs.
Proof. intros. rewrite <- leaves_list_app, firstn_skipn. reflexivity. Qed.

Lemma scan_end_le : forall p cs lo e r, scan_end p cs lo e = Some r -> (r <= e)%nat.
Proof.
  induction e as [|e IH]; intros r H; cbn [scan_end] in H.
  - inversion H. lia.
  - destruct (Nat.ltb lo (S e)).
    + destruct (nth_error cs (S e)) as [t|]; [|discriminate].
      destruct (p t).
      * apply IH in H. lia.
      * inversion H. lia.
    + inversion H. lia.
Qed.

Lemma skipn_skipn' : forall A (l : list A) x y, skipn x (skipn y l) = skipn (y + x) l.
Proof.
  intros A l x y. revert l. induction y as [|y IH]; intros l; [reflexivity|].
  destruct l as [|a l]; [cbn; destruct x; reflexivity|]. cbn [skipn Nat.add]. apply IH.
Qed.

Lemma firstn_app_exact : forall A (l1 l2 : list A) n, n = length l1 -> firstn n (l1 ++ l2) = l1.
Proof. intros A l1 l2 n ->. induction l1; cbn; [destruct l2; reflexivity|f_equal; assumption]. Qed.

Lemma skipn_app_exact : forall A (l1 l2 : list A) n, n = length l1 -> skipn n (l1 ++ l2) = l2.
Proof. intros A l1 l2 n ->. induction l1; cbn; auto. Qed.

Lemma three_way : forall A (l : list A) i n, (i <= n)%nat ->
  l = firstn i l ++ firstn (n - i) (skipn i l) ++ skipn n l.
Proof.
  intros A l i n Hin.
  rewrite <- (firstn_skipn i l) at 1. f_equal.
  rewrite <- (firstn_skipn (n - i) (skipn i l)) at 1. f_equal.
  rewrite skipn_skipn'. f_equal. lia.
Qed.

Lemma firstn_split : forall A (l : list A) i n, (i <= n)%nat ->
  firstn n l = firstn i l ++ firstn (n - i) (skipn i l).
Proof.
  intros A l i n H. apply (app_inv_tail (skipn n l)). rewrite firstn_skipn, <- app_assoc. apply three_way, H.
Qed.

Lemma filter_all : forall A (f : A -> bool) l, Forall (fun x => f x = true) l -> filter f l = l.
Proof. intros A f l H. induction H as [|x l Hx _ IH]; [reflexivity|]. cbn [filter]. rewrite Hx, IH. reflexivity. Qed.

Lemma finish_trim_leaves : forall p pk fs ps cs s',
  cs <> [] -> finish_trim p pk fs ps cs = Some s' ->
  leaves_list (children s') = leaves_list cs /\ parents s' = ps.
Proof.
  intros p pk fs ps cs s' Hne H. unfold finish_trim in H.
  set (a := scan_fwd p (skipn fs cs) fs) in *.
  destruct (scan_end p cs a (length cs - 1)) as [b|] eqn:Hb; [|discriminate].
  apply scan_end_le in Hb.
  assert (Hlen : (1 <= length cs)%nat) by (destruct cs; [congruence|cbn; lia]).
  remember (S b) as sb eqn:Hsb.
  destruct (Nat.ltb_spec sb a) as [Hpanic|Hab]; [discriminate|].
  pose proof (three_way _ cs a sb Hab) as Hsplit.
  assert (Hfa : length (firstn a cs) = a) by (rewrite firstn_length; lia).
  destruct (Nat.ltb_spec sb (length cs)) as [Hlt|Hge]; injection H as H; subst s'; cbn [children parents]; (split; [|reflexivity]).
  - rewrite firstn_app_exact by (symmetry; exact Hfa).
    rewrite skipn_app_exact by (symmetry; exact Hfa).
    rewrite leaves_list_app, leaves_list_cons, leaves_node.
    rewrite Hsplit at 4. rewrite !leaves_list_app. reflexivity.
  - (* the push branch: nothing trails, so the node lands where it was cut out *)
    assert (Hnil : skipn sb cs = []) by (apply skipn_all2; lia).
    rewrite Hsplit at 4. rewrite Hnil.
    rewrite !leaves_list_app, leaves_list_cons, leaves_node.
    change (leaves_list (@nil tree)) with (@nil leaf). rewrite !app_nil_r. reflexivity.
Qed.

Lemma finish_node_spec : forall s s', gb_finish_node s = Some s' ->
  leaves_list (children s') = leaves_list (children s) /\
  (parents s <> [] -> children s <> [] -> parents s' = tl (parents s)).
Proof.
  intros [ps cs] s' H. unfold gb_finish_node in H. cbn [parents children] in *.
  destruct ps as [|[pk fs] ps]; [injection H as <-; split; [reflexivity|congruence]|].
  destruct cs as [|c cs]; [injection H as <-; split; [reflexivity|congruence]|].
  set (l := c :: cs) in *. cbn [tl].
  enough (leaves_list (children s') = leaves_list l /\ parents s' = ps) as [A B] by auto.
  destruct (mem pk gb_pull_kinds).
  - destruct (scan_back l fs) as [a|]; [|discriminate].
    destruct (Nat.ltb (length l) _); [discriminate|].
    injection H as <-. cbn [children parents]. split; [|reflexivity].
    rewrite leaves_list_app, leaves_list_cons, leaves_node. cbn [leaves_list flat_map].
    rewrite app_nil_r. apply leaves_list_split.
  - destruct (mem pk gb_wsonly_kinds); eapply finish_trim_leaves in H; try (subst l; discriminate); exact H.
Qed.

Lemma finish_node_leaves : forall s s', gb_finish_node s = Some s' ->
  leaves_list (children s') = leaves_list (children s).
Proof. intros s s' H. apply (finish_node_spec s s' H). Qed.

Lemma token_leaves : forall s k a b, leaves_list (children (gb_token s k a b)) = leaves_list (children s) ++ [(k, (a, b))].
Proof. intros. cbn [gb_token children]. rewrite leaves_list_app. reflexivity. Qed.

Lemma start_nodes_children : forall ks s, children (fold_left gb_start_node ks s) = children s.
Proof. induction ks as [|k ks IH]; intros s; [reflexivity|]. cbn [fold_left]. rewrite IH. reflexivity. Qed.

Lemma set_nth_length : forall A (l : list A) i x, length (set_nth l i x) = length l.
Proof. induction l as [|a l IH]; intros [|i] x; cbn; auto. Qed.

Lemma set_nth_split : forall A (l : list A) p e, nth_error l p = Some e ->
  exists a b, l = a ++ e :: b /\ length a = p /\ skipn (S p) l = b /\ forall x, set_nth l p x = a ++ x :: b.
Proof.
  induction l as [|y l IH]; intros [|p] e H; try discriminate.
  - injection H as ->. exists [], l. auto.
  - destruct (IH p e H) as (a & b & E & Hl & Hs & Hx). exists (y :: a), b.
    split; [cbn [app]; f_equal; exact E|]. split; [cbn [length]; f_equal; exact Hl|]. split; [exact Hs|].
    intros x. cbn [set_nth app]. f_equal. apply Hx.
Qed.

Lemma skipn_cons_nth : forall A (l : list A) i t, nth_error l i = Some t -> skipn i l = t :: skipn (S i) l.
Proof.
  intros A l i t H. destruct (set_nth_split _ _ _ _ H) as (a & b & E & Hl & -> & _). rewrite E.
  apply skipn_app_exact. symmetry. exact Hl.
Qed.

Definition toks_from (j : nat) (evs : list event) : list leaf := tokens_of (skipn j evs).

Lemma tokens_of_app : forall a b, tokens_of (a ++ b) = tokens_of a ++ tokens_of b.
Proof.
  induction a as [|e a IH]; intros b; [reflexivity|]. cbn [app tokens_of]. destruct e; rewrite IH; reflexivity.
Qed.

(** overwriting a [NodeStart] with a [NodeStart] (what [follow_parents] does to the event array) moves no token *)
Lemma set_nth_start_tokens : forall evs p k q k' q' j,
  nth_error evs p = Some (NodeStart k q) ->
  toks_from j (set_nth evs p (NodeStart k' q')) = toks_from j evs.
Proof.
  intros evs p k q k' q' j H. destruct (set_nth_split _ _ _ _ H) as (a & b & -> & _ & _ & ->).
  unfold toks_from. rewrite !skipn_app, !tokens_of_app. f_equal. destruct (j - length a)%nat; reflexivity.
Qed.

Lemma set_nth_skip : forall (evs : list event) i x, skipn (S i) (set_nth evs i x) = skipn (S i) evs.
Proof.
  induction evs as [|e evs IH]; intros [|i] x; try reflexivity.
  cbn [set_nth]. change (skipn (S (S i)) (e :: ?l)) with (skipn (S i) l). apply IH.
Qed.

Lemma follow_parents_inv : forall fuel evs pp acc evs' ks,
  follow_parents fuel evs pp acc = Some (evs', ks) ->
  length evs' = length evs /\ forall j, toks_from j evs' = toks_from j evs.
Proof.
  induction fuel as [|f IH]; intros evs pp acc evs' ks H.
  - destruct pp; cbn in H; [inversion H; auto|discriminate].
  - destruct pp as [|pp]; cbn [follow_parents] in H; [inversion H; auto|].
    destruct (nth_error evs (S pp)) as [[k p| | |]|] eqn:Hn; try discriminate.
    apply IH in H. destruct H as [Hl Ht]. rewrite set_nth_length in Hl. split; [exact Hl|].
    intros j. rewrite Ht. eapply set_nth_start_tokens; eauto.
Qed.

Lemma toks_from_step : forall evs i e, nth_error evs i = Some e ->
  toks_from i evs = match e with EatToken k s l => [(k, (s, l))] | _ => [] end ++ toks_from (S i) evs.
Proof. intros evs i e H. unfold toks_from. rewrite (skipn_cons_nth _ _ _ _ H). destruct e; reflexivity. Qed.

Lemma toks_from_set_nth_S : forall evs i x, toks_from (S i) (set_nth evs i x) = toks_from (S i) evs.
Proof. intros. unfold toks_from. rewrite set_nth_skip. reflexivity. Qed.

(** invariant of the main loop: what is already in [children] followed by the tokens still to come *)
Lemma build_step_inv : forall evs g i evs' g',
  build_step (evs, g) i = Some (evs', g') ->
  length evs' = length evs /\
  leaves_list (children g') ++ toks_from (S i) evs' = leaves_list (children g) ++ toks_from i evs.
Proof.
  intros evs g i evs' g' H. unfold build_step in H.
  destruct (nth_error evs i) as [e|] eqn:Hn; [|discriminate].
  rewrite (toks_from_step _ _ _ Hn).
  destruct e as [k parent|k s l| |].
  - destruct (k =? SK_None).
    + inversion H; subst. rewrite set_nth_length, toks_from_set_nth_S. auto.
    + destruct (follow_parents _ _ _ _) as [[evs2 ks]|] eqn:Hf; [|discriminate].
      inversion H; subst. apply follow_parents_inv in Hf. destruct Hf as [Hl Ht].
      rewrite set_nth_length in Hl. split; [exact Hl|].
      rewrite start_nodes_children, Ht, toks_from_set_nth_S. reflexivity.
  - inversion H; subst. rewrite set_nth_length, toks_from_set_nth_S, token_leaves, <- app_assoc. auto.
  - destruct (gb_finish_node g) as [g2|] eqn:Hg; [|discriminate]. inversion H; subst.
    rewrite set_nth_length, toks_from_set_nth_S, (finish_node_leaves _ _ Hg). auto.
  - inversion H; subst. rewrite set_nth_length, toks_from_set_nth_S. auto.
Qed.

Lemma build_loop_inv : forall n i evs g evs' g',
  build_loop n i (evs, g) = Some (evs', g') ->
  length evs' = length evs /\
  leaves_list (children g') ++ toks_from (n + i) evs' = leaves_list (children g) ++ toks_from i evs.
Proof.
  induction n as [|n IH]; intros i evs g evs' g' H; cbn [build_loop] in H.
  - inversion H; subst. auto.
  - destruct (build_step (evs, g) i) as [[evs1 g1]|] eqn:Hs; [|discriminate].
    apply build_step_inv in Hs. destruct Hs as [Hl1 Ht1].
    apply IH in H. destruct H as [Hl2 Ht2]. split; [congruence|].
    replace (S n + i)%nat with (n + S i)%nat by lia. rewrite Ht2, Ht1. reflexivity.
Qed.

Lemma toks_from_all : forall evs n, (length evs <= n)%nat -> toks_from n evs = [].
Proof. intros. unfold toks_from. rewrite skipn_all2 by assumption. reflexivity. Qed.

(** after [build], [children] holds exactly the event list's tokens, in order — for EVERY event list *)
Lemma build_leaves : forall evs g, build evs = Some g -> leaves_list (children g) = tokens_of evs.
Proof.
  intros evs g H. unfold build in H.
  destruct (build_loop _ _ _) as [[evs' g1]|] eqn:Hl; [|discriminate].
  apply build_loop_inv in Hl. destruct Hl as [Hlen Ht].
  rewrite toks_from_all in Ht by lia. rewrite app_nil_r in Ht.
  rewrite (finish_node_leaves _ _ H), Ht. reflexivity.
Qed.

Lemma close_open_spec : forall fuel s s', close_open fuel s = Some s' ->
  leaves_list (children s') = leaves_list (children s) /\
  ((length (parents s) <= fuel)%nat -> parents s' = [] \/ children s' = []).
Proof.
  induction fuel as [|f IH]; intros s s' H; cbn [close_open] in H.
  - assert (s' = s) by (destruct (parents s), (children s); congruence). subst s'.
    split; [reflexivity|]. destruct (parents s); [auto|cbn; lia].
  - destruct (parents s) as [|p ps] eqn:Hp; [inversion H; subst; auto|].
    destruct (children s) as [|c cs] eqn:Hc; [inversion H; subst; rewrite Hc; auto|].
    destruct (gb_finish_node s) as [s1|] eqn:Hf; [|discriminate].
    destruct (finish_node_spec _ _ Hf) as [L P], (IH _ _ H) as [L' C]. split; [congruence|].
    intros Hle. apply C. rewrite P, Hp by (rewrite ?Hp, ?Hc; discriminate). cbn [length tl] in *. lia.
Qed.

Lemma close_open_closed : forall fuel s s', (length (parents s) <= fuel)%nat -> close_open fuel s = Some s' ->
  parents s' = [] \/ children s' = [].
Proof. intros fuel s s' Hle H. exact (proj2 (close_open_spec _ _ _ H) Hle). Qed.

Lemma adopt_rest_spec : forall cs,
  (adopt_rest cs = [] /\ cs = []) \/ exists root, adopt_rest cs = [root] /\ leaves root = leaves_list cs.
Proof.
  intros [|first [|x rest]]; [left; auto|right; exists first; split; [reflexivity|symmetry; apply app_nil_r]|].
  right. cbn [adopt_rest]. destruct first as [k s l|k sub]; [|destruct (k =? SK_Chunk)];
    eexists; (split; [reflexivity|]); rewrite leaves_list_cons, !leaves_node, ?leaves_list_app; reflexivity.
Qed.

Lemma chunk_root_leaves : forall root, leaves (if is_chunk root then root else Node SK_Chunk [root]) = leaves root.
Proof. intros root. destruct (is_chunk root); [reflexivity|]. rewrite leaves_node. apply app_nil_r. Qed.

Lemma finish_spec : forall s t, gb_finish s = Some t -> leaves t = leaves_list (children s) /\ is_chunk t = true.
Proof.
  intros s t H. unfold gb_finish in H.
  destruct (close_open _ s) as [s1|] eqn:Hc; [|discriminate].
  apply close_open_spec in Hc as [<- _].
  destruct (adopt_rest_spec (children s1)) as [[E ->]|(root & E & <-)]; rewrite E in H; injection H as <-.
  - split; reflexivity.
  - split; [apply chunk_root_leaves|]. destruct (is_chunk root) eqn:Er; [exact Er|reflexivity].
Qed.

Lemma builder_yield : forall evs t, run evs = Some t -> leaves t = tokens_of evs.
Proof.
  intros evs t H. unfold run in H. destruct (build evs) as [g|] eqn:Hb; [|discriminate].
  rewrite (proj1 (finish_spec _ _ H)). apply build_leaves. exact Hb.
Qed.

Lemma builder_root_chunk : forall evs t, run evs = Some t -> is_chunk t = true.
Proof.
  intros evs t H. unfold run in H. destruct (build evs) as [g|]; [|discriminate].
  exact (proj2 (finish_spec _ _ H)).
Qed.

(** the ORIGINAL [finish] keeps only [children.first()]: a suffix is lost as soon as the event list closes the
    Chunk early.  Witness: the shape of the events of ["{,then"] (one NodeEnd too many). *)
Definition orig_witness : list event :=
  [NodeStart SK_Block 0; EatToken TK_TkLeftBrace 0 1; NodeEnd; NodeEnd; EatToken TK_TkComma 1 1; EatToken TK_TkThen 2 4; NodeEnd].

Lemma builder_yield_orig_refuted : exists evs t, run_orig evs = Some t /\ leaves t <> tokens_of evs.
Proof.
  exists orig_witness. eexists. split; [vm_compute; reflexivity|]. vm_compute. discriminate.
Qed.

Lemma builder_yield_orig_disciplined : forall evs g,
  build evs = Some g -> length (children g) = 1%nat ->
  leaves (gb_finish_orig g) = tokens_of evs.
Proof.
  intros evs g Hb Hl. rewrite <- (build_leaves _ _ Hb). unfold gb_finish_orig.
  destruct (children g) as [|root [|x r]]; try discriminate.
  rewrite chunk_root_leaves. symmetry. apply app_nil_r.
Qed.

Lemma concat_slices_app : forall t a b x y,
  concat_slices t a = Some x -> concat_slices t b = Some y -> concat_slices t (a ++ b) = Some (x ++ y).
Proof.
  induction a as [|[k [s l]] a IH]; intros b x y Ha Hb; cbn [concat_slices app] in *.
  - inversion Ha. exact Hb.
  - destruct (slice t s (s + l)) as [p|]; [|discriminate].
    destruct (concat_slices t a) as [q|] eqn:Hq; [|discriminate]. inversion Ha; subst x.
    rewrite (IH b q y eq_refl Hb), app_assoc. reflexivity.
Qed.

Lemma tiles_app : forall a x m y, tiles a x m -> forall b, tiles b m y -> tiles (a ++ b) x y.
Proof.
  induction a as [|[k [s l]] a IH]; intros x m y H b Hb; cbn [tiles app] in *.
  - subst. exact Hb.
  - destruct H as [H1 H2]. split; [exact H1|]. eapply IH; eauto.
Qed.

Lemma tiles_app_inv : forall a b x y, tiles (a ++ b) x y -> exists m, tiles a x m /\ tiles b m y.
Proof.
  induction a as [|[k [s l]] a IH]; intros b x y H; cbn [tiles app] in *.
  - exists x. split; [reflexivity|exact H].
  - destruct H as [H1 H2]. destruct (IH _ _ _ H2) as (m & A & B). exists m. split; [split; assumption|exact B].
Qed.

Lemma tiles_fun : forall a x y y', tiles a x y -> tiles a x y' -> y = y'.
Proof.
  induction a as [|[k [s l]] a IH]; intros x y y' H H'; cbn [tiles] in *; [congruence|].
  destruct H as [_ H], H' as [_ H']. eapply IH; eauto.
Qed.

Lemma tiles_snoc : forall acc a b k l, tiles acc a b -> tiles (acc ++ [(k, (b, l))]) a (b + l).
Proof. intros acc a b k l H. apply (tiles_app _ _ _ _ H). split; reflexivity. Qed.

Lemma tilesb_tiles : forall ls a b, tilesb ls a b = true <-> tiles ls a b.
Proof.
  induction ls as [|[k [s l]] ls IH]; intros a b; cbn [tilesb tiles].
  - apply N.eqb_eq.
  - rewrite andb_true_iff, N.eqb_eq, IH. reflexivity.
Qed.
