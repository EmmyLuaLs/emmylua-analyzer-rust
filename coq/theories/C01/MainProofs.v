(** C01/MainProofs.v — composition of the four layers. *)
From Coq Require Import PeanoNat.
From EV Require Import Base.TextFacts Base.Reader Base.ReaderFacts C01.Model C01.LexModel C01.Pump
                       C01.Proofs C01.LexProofs C01.PumpProofs.
Local Open Scope N_scope.

Lemma slice_prefix : forall p rest l w, slice (p ++ rest) (bytes p) (bytes p + l) = Some w ->
  exists r, rest = w ++ r /\ bytes w = l.
Proof.
  intros p rest l w. unfold slice. destruct (N.ltb_spec (bytes p + l) (bytes p)); [lia|].
  rewrite drop_bytes_app. replace (bytes p + l - bytes p) with l by lia. apply take_bytes_spec.
Qed.

(** if the ranges tile [|p|, |t|) and every slice exists (no panic), the slices spell the rest of the text *)
Lemma tiles_concat_from : forall t ls p rest x,
  t = p ++ rest -> tiles ls (bytes p) (bytes t) -> concat_slices t ls = Some x -> x = rest.
Proof.
  intros t. induction ls as [|[k [s l]] ls IH]; intros p rest x Ht Hti Hc; cbn [tiles concat_slices] in *.
  - inversion Hc; subst x. rewrite Ht, bytes_app in Hti.
    destruct rest as [|c rest]; [reflexivity|]. cbn [bytes] in Hti. pose proof (blen_pos c). lia.
  - destruct Hti as [-> Hti].
    destruct (slice t (bytes p) (bytes p + l)) as [w|] eqn:Hsl; [|discriminate].
    destruct (concat_slices t ls) as [x'|] eqn:Hx; [|discriminate]. injection Hc as <-.
    rewrite Ht in Hsl. destruct (slice_prefix _ _ _ _ Hsl) as (r & -> & <-).
    f_equal. apply (IH (p ++ w) r); [rewrite Ht, app_assoc; reflexivity| |reflexivity].
    rewrite bytes_app. exact Hti.
Qed.

Lemma tiles_concat : forall t ls x, tiles ls 0 (bytes t) -> concat_slices t ls = Some x -> x = t.
Proof. intros t ls x H Hc. eapply (tiles_concat_from t ls [] t x); eauto. Qed.

Lemma C01_main :
  forall (S : Type) (step : S -> reader -> tkind * S * reader) (Inv : S -> reader -> Prop),
    step_contract S step Inv (fun k => dead_kind k = false) ->
    forall (t : text) (normal : bool) (st0 : S),
      (forall r cs, moved (reader_new t) r cs -> is_eof r = false -> Inv st0 r) ->
      let toks := fst (fst (tokenize S step normal st0 t)) in
      forall (doc : bool) (ops : list op) (st : pst) (tr : tree),
        exec_ops false (pst_new toks doc) ops = Some st ->
        p_disc st = true -> p_doc_ok st = true -> p_inited st = true -> p_current st = TK_TkEof ->
        run (fst (p_m st)) = Some tr ->
        tiles (leaves tr) 0 (bytes t) /\
        (forall x, tree_text t tr = Some x -> x = t).
Proof.
  intros S step Inv Hc t normal st0 Hinit toks doc ops st tr Hex Hd Hk Hi Hcur Hrun.
  pose proof (lex_tiles S step Inv _ Hc t normal st0 Hinit eq_refl) as Hlex.
  destruct (tokenize S step normal st0 t) as [[toks0 r'] ex] eqn:Etok. cbn [fst] in toks. subst toks.
  destruct Hlex as (_ & Hti & _ & Halive).
  destruct (pump_emits_all toks0 (bytes t) doc ops st Hti Halive Hex Hd Hk) as (a & _ & F2 & F3).
  specialize (F3 Hi Hcur). subst a.
  assert (Hleaves : tiles (leaves tr) 0 (bytes t)) by (rewrite (builder_yield _ _ Hrun); exact F2).
  split; [exact Hleaves|]. intros x Hx. unfold tree_text in Hx. eapply tiles_concat; eauto.
Qed.
