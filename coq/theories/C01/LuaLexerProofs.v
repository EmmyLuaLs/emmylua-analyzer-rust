(** C01/LuaLexerProofs.v — the transcribed Lua lexer satisfies the step contract, for every feature set and every
    classification of non-ASCII characters. *)
From Coq Require Import PeanoNat.
From EV Require Import Base.TextFacts Base.Reader Base.ReaderFacts C01.Model C01.LexModel C01.LuaLexer C01.Pump C01.LexProofs.
Local Open Scope N_scope.

(** [reach a x]: [x] is [a] after moving at least one character into the buffer *)
Definition reach (a x : reader) : Prop := exists cs, moved a x cs /\ cs <> [].

Lemma reach_wf : forall a x, reach a x -> reader_wf x.
Proof. intros a x (cs & H & _). apply H. Qed.

Lemma reach_moved : forall a x y cs, reach a x -> moved x y cs -> reach a y.
Proof.
  intros a x y c2 (c1 & H1 & N1) H2. exists (c1 ++ c2). split; [eapply moved_trans; eauto|].
  destruct c1; [congruence|discriminate].
Qed.

Lemma reach_bump : forall a x, reach a x -> reach a (bump x).
Proof. intros a x H. destruct (bump_moved x (reach_wf _ _ H)) as (cs & M & _). exact (reach_moved _ _ _ _ H M). Qed.

Lemma reach_bump_first : forall a, reader_wf a -> is_eof a = false -> reach a (bump a).
Proof. intros a H E. destruct (bump_moved a H) as (cs & M & P). exists cs. split; [exact M|exact (P E)]. Qed.

Lemma reach_eat : forall f a x, reach a x -> reach a (fst (eat_while f x)).
Proof. intros f a x H. destruct (eat_while_moved f x (reach_wf _ _ H)) as (cs & M). exact (reach_moved _ _ _ _ H M). Qed.

Lemma reach_eat_when : forall c a x, reach a x -> reach a (fst (eat_when c x)).
Proof. intros c. apply reach_eat. Qed.

Lemma reach_eat_first : forall f a, reader_wf a -> is_eof a = false -> f (current_char a) = true -> reach a (fst (eat_while f a)).
Proof.
  intros f a H E Hf. unfold eat_while. destruct (r_rest a) as [|c rest] eqn:Hr.
  - apply (wf_eof_iff a H) in Hr. congruence.
  - cbn [eat_while_go]. rewrite E, Hf. cbn [negb andb]. pose proof (reach_bump_first a H E) as P.
    destruct (eat_while_go_moved f rest (bump a) (0 + 1) (reach_wf _ _ P)) as (cs & M). exact (reach_moved _ _ _ _ P M).
Qed.

Create HintDb reach discriminated.
#[local] Hint Resolve reach_bump reach_bump_first reach_eat reach_eat_when : reach.

(** case analysis on every [if] the goal shows: the lexer's loops and branches are nests of them *)
Ltac ifs := repeat match goal with |- context [if ?b then _ else _] => destruct b eqn:? end.

Lemma reach_new_line : forall a x, reach a x -> reach a (lex_new_line x).
Proof. intros a x H. unfold lex_new_line. ifs; auto with reach. Qed.
#[local] Hint Resolve reach_new_line : reach.

Lemma reach_new_line_first : forall a, reader_wf a -> is_eof a = false -> (cur_is a 10 || cur_is a 13) = true -> reach a (lex_new_line a).
Proof.
  intros a H E C. unfold lex_new_line. destruct (cur_is a 10); [|cbn [orb] in C; rewrite C]; ifs; auto with reach.
Qed.

Lemma is_eof_reset : forall r, is_eof (reset_buff r) = is_eof r.
Proof. intros r. unfold is_eof, reset_buff. cbn. rewrite N.add_0_r. reflexivity. Qed.

Lemma eof_bump_false : forall x, is_eof (bump x) = false -> is_eof x = false.
Proof. intros x H. unfold bump in H. destruct (is_eof x) eqn:E; [congruence|reflexivity]. Qed.

Section Lexer.
  Variable feats : list N.
  Variable uni_alpha uni_alnum : cp -> bool.
  Notation lex := (lex feats uni_alpha uni_alnum).
  Notation lua_step := (lua_step feats uni_alpha uni_alnum).
  Notation lex_number := (lex_number feats).
  Notation number_loop := (number_loop feats).
  Notation number_prefix_loop := (number_prefix_loop feats).

  Lemma reach_string_loop : forall fuel q a x, reach a x -> reach a (lex_string_loop fuel q x).
  Proof.
    induction fuel as [|f fuel IH]; intros q a x H; cbn [lex_string_loop]; [exact H|]. ifs; auto 6 with reach.
  Qed.

  (** what a step has to deliver, relative to the reader [a] it started from (after reset_buff) *)
  Definition fine (a : reader) (res : tkind * lstate * reader) : Prop :=
    let '(k, st', r') := res in
    reach a r' /\ (k <> TK_TkEof /\ dead_kind k = false) /\ (is_eof r' = false -> st' = LNormal).

  Lemma kind_ok : forall k, (k =? TK_TkEof) = false -> dead_kind k = false -> k <> TK_TkEof /\ dead_kind k = false.
  Proof. intros k H D. split; [apply N.eqb_neq; exact H|exact D]. Qed.

  Lemma fine_normal : forall a k x, reach a x -> (k =? TK_TkEof) = false -> dead_kind k = false -> fine a (k, LNormal, x).
  Proof. intros a k x H Hk Hd. split; [exact H|]. split; [apply kind_ok; assumption|reflexivity]. Qed.

  Lemma lex_string_fine : forall q st a x, reach a x -> fine a (lex_string q st x).
  Proof.
    intros q st a x Hx. unfold lex_string. pose proof (reach_string_loop (r_rest x) q a x Hx) as Hy.
    set (y := lex_string_loop (r_rest x) q x) in *.
    destruct (cur_is y q); cbn [negb orb]; (split; [auto with reach|]); (split; [apply kind_ok; reflexivity|]); [reflexivity|].
    intros E. rewrite E. reflexivity.
  Qed.

  Lemma reach_long_loop : forall fuel sep a x, reach a x -> reach a (snd (lex_long_loop fuel sep x)).
  Proof.
    induction fuel as [|f fuel IH]; intros sep a x H; cbn [lex_long_loop]; [exact H|].
    destruct (is_eof x); [exact H|]. destruct (cur_is x 93); [|auto with reach].
    assert (R1 : reach a (fst (eat_when 61 (bump x)))) by auto with reach.
    destruct (eat_when 61 (bump x)) as [r1 count]. destruct (_ && _); cbn [snd]; auto with reach.
  Qed.

  Lemma lex_long_string_fine : forall sep st a x, reach a x -> fine a (lex_long_string sep st x).
  Proof.
    intros sep st a x Hx. unfold lex_long_string. pose proof (reach_long_loop (r_rest x) sep a x Hx) as Hm.
    destruct (lex_long_loop (r_rest x) sep x) as [ended y]. split; [exact Hm|]. split; [apply kind_ok; reflexivity|].
    intros E. rewrite E, orb_true_r. reflexivity.
  Qed.

  Lemma reach_sign_next : forall a x, reach a x -> reach a (sign_next x).
  Proof. intros a x H. unfold sign_next. ifs; auto with reach. Qed.
  #[local] Hint Resolve reach_sign_next : reach.

  Lemma reach_number_prefix : forall fuel a x, reach a x -> reach a (snd (number_prefix_loop fuel x)).
  Proof.
    induction fuel as [|f fuel IH]; intros a x H; cbn [LuaLexer.number_prefix_loop]; [exact H|].
    ifs; cbn [snd]; auto with reach.
  Qed.

  Lemma reach_number_loop : forall fuel ns a x, reach a x -> reach a (snd (number_loop fuel ns x)).
  Proof.
    induction fuel as [|f fuel IH]; intros ns a x H; cbn [LuaLexer.number_loop]; [exact H|].
    destruct (is_eof x); [exact H|].
    destruct (sup feats F_UnderscoreNumber && (current_char x =? 95)); [auto with reach|].
    destruct ns; repeat (ifs; cbn beta iota zeta delta [snd fst]); auto with reach.
  Qed.

  Lemma lex_number_fine : forall a, reader_wf a -> is_eof a = false ->
    fine a (let '(k, r) := lex_number a in (k, LNormal, r)).
  Proof.
    intros a H E. unfold LuaLexer.lex_number.
    assert (P1 : reach a (bump a)) by auto with reach.
    destruct (if current_char a =? 48 then number_prefix_loop (r_rest a) (bump a)
              else if current_char a =? 46 then (NFloat, bump a) else (NInt, bump a)) as [ns r2] eqn:E1.
    assert (P2 : reach a r2).
    { change r2 with (snd (ns, r2)). rewrite <- E1. ifs; [apply reach_number_prefix|..]; exact P1. }
    pose proof (reach_number_loop (r_rest a) ns _ _ P2) as P3. destruct (number_loop (r_rest a) ns r2) as [ns' r3].
    ifs; apply fine_normal; auto with reach; destruct ns'; reflexivity.
  Qed.

  Lemma reach_slash_star : forall fuel a x, reach a x -> reach a (slash_star_loop fuel x).
  Proof.
    induction fuel as [|f fuel IH]; intros a x H; cbn [slash_star_loop]; [exact H|]. ifs; auto with reach.
  Qed.
  #[local] Hint Resolve reach_slash_star : reach.

  (** a branch of [lex] that ends in [simple k x]: [x] is reached by a chain of reader operations *)
  Ltac leaf := apply fine_normal; [auto 8 with reach|reflexivity..].

  Lemma keyword_kinds_ok : forallb (fun e => negb (snd (fst e) =? TK_TkEof) && negb (dead_kind (snd (fst e)))) keyword_table = true.
  Proof. vm_compute. reflexivity. Qed.

  Lemma name_to_kind_ok : forall name, name_to_kind feats name <> TK_TkEof /\ dead_kind (name_to_kind feats name) = false.
  Proof.
    intros name. unfold name_to_kind. pose proof keyword_kinds_ok as Hk.
    induction keyword_table as [|[[w k] f] tbl IH]; cbn [kw_lookup].
    - apply kind_ok; reflexivity.
    - cbn [forallb fst snd] in Hk. apply andb_true_iff in Hk. destruct Hk as [Hk1 Hk2].
      destruct (text_eqb w name); [|apply IH; exact Hk2].
      destruct ((f =? 0) || sup feats f); [|apply kind_ok; reflexivity].
      apply andb_true_iff in Hk1. destruct Hk1 as [A B].
      apply kind_ok; [destruct (k =? TK_TkEof); [discriminate|reflexivity]|destruct (dead_kind k); [discriminate|reflexivity]].
  Qed.

  Lemma lex_fine : forall r0, reader_wf r0 -> is_eof r0 = false -> fine (reset_buff r0) (lex LNormal r0).
  Proof.
    intros r0 H0 E0. unfold LuaLexer.lex.
    set (a := reset_buff r0).
    assert (H : reader_wf a) by (apply reset_buff_wf; exact H0).
    assert (E : is_eof a = false) by (unfold a; rewrite is_eof_reset; exact E0).
    clearbody a. clear H0 E0 r0. cbv zeta.
    (* newline, whitespace *)
    destruct ((current_char a =? 10) || (current_char a =? 13)) eqn:C1.
    { apply fine_normal; [apply reach_new_line_first; assumption|reflexivity..]. }
    destruct ((current_char a =? 32) || (current_char a =? 9)) eqn:C2.
    { apply fine_normal; [apply reach_eat_first; assumption|reflexivity..]. }
    (* '-' *)
    destruct (current_char a =? 45).
    { ifs; try leaf.
      (* "--[" : probe for a long comment *)
      destruct (eat_when 61 (bump (bump (bump a)))) as [r1 sep] eqn:Ee.
      assert (r1 = fst (eat_when 61 (bump (bump (bump a))))) by (rewrite Ee; reflexivity). subst r1.
      destruct (cur_is (fst (eat_when 61 (bump (bump (bump a))))) 91); cbn beta iota delta [fst snd]; [|leaf].
      match goal with |- context [lex_long_string ?sp ?st ?x] =>
        assert (Px : reach a x) by auto 8 with reach;
        pose proof (lex_long_string_fine sp st _ _ Px) as Hk;
        destruct (lex_long_string sp st x) as [[k st'] r3] end.
      destruct Hk as (K1 & K2 & K3).
      split; [exact K1|]. split; [apply kind_ok; reflexivity|exact K3]. }
    (* '[' *)
    destruct (current_char a =? 91).
    { destruct (eat_when 61 (bump a)) as [r1 sep] eqn:Ee.
      assert (r1 = fst (eat_when 61 (bump a))) by (rewrite Ee; reflexivity). subst r1.
      ifs; try leaf. apply lex_long_string_fine. auto with reach. }
    (* everything else, one top-level branch of [lex] at a time: a symbol ends in [simple] ([leaf]); a digit, or a dot
       before one, goes to [lex_number]; a quote to [lex_string]; a name start to [name_to_kind] *)
    rewrite E.
    repeat (match goal with |- fine _ (if ?b then _ else _) => destruct b eqn:? end;
            [ solve [ ifs; first [ leaf
                                 | apply lex_number_fine; assumption
                                 | apply lex_string_fine; auto with reach
                                 | split; [auto with reach|split; [apply name_to_kind_ok|reflexivity]] ] ] | ]).
    leaf.
  Qed.

  (** in [LuaParser::parse] the lexer starts in [LexerState::Normal] and leaves it only when the reader is exhausted *)
  Definition lua_inv (st : lstate) (r : reader) : Prop := st = LNormal.

  Definition alive_kind (k : tkind) : Prop := dead_kind k = false.

  Lemma lua_lexer_contract : step_contract lstate lua_step lua_inv alive_kind.
  Proof.
    intros st r Hwf Heof Hinv. unfold lua_inv in Hinv. subst st. cbn [LuaLexer.lua_step].
    pose proof (lex_fine r Hwf Heof) as G. destruct (lex LNormal r) as [[k st'] r']. destruct G as ((cs & M & P) & (K & D) & S).
    exists cs. repeat split; try apply M; auto.
  Qed.

  Lemma lua_lex_tiles : forall t,
    let toks := lua_tokenize feats uni_alpha uni_alnum t in
    tiles toks 0 (bytes t) /\ concat_slices t toks = Some t /\ Forall (fun x => dead_kind (fst x) = false) toks.
  Proof.
    intros t. unfold lua_tokenize.
    pose proof (lex_tiles lstate lua_step lua_inv alive_kind lua_lexer_contract t true LNormal) as H.
    destruct (tokenize lstate lua_step true LNormal t) as [[toks r'] ex]. cbn [fst].
    destruct H as (_ & A & B & C); [intros; reflexivity|reflexivity|]. auto.
  Qed.
End Lexer.
