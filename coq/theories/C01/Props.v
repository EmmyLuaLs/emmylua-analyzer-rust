(** C01/Props.v — the property theorems of C01, each with what it claims of the Rust code, and the examples that
    show their hypotheses can be met. *)
From Coq Require Import ZArith.
From EV Require Import Base.Reader Base.ReaderFacts C01.Model C01.LexModel C01.LuaLexer C01.Pump C01.Proofs C01.LexProofs C01.LuaLexerProofs C01.PumpProofs C01.MainProofs C01.DocPump C01.DocPumpProofs.
Local Open Scope N_scope.

(** (d) LuaTreeBuilder::build + LuaGreenNodeBuilder (after the repair of [finish]):
    for EVERY event list — well-bracketed or not, whatever the parent links — if the builder does not panic,
    the leaves of the tree it returns are exactly the event list's tokens, in order (kinds and ranges). *)
Theorem builder_yield : forall (evs : list event) (t : tree),
  run evs = Some t -> leaves t = tokens_of evs.
Proof. exact Proofs.builder_yield. Qed.

(** and the root is a Chunk *)
Theorem builder_root_chunk : forall (evs : list event) (t : tree),
  run evs = Some t -> is_chunk t = true.
Proof. exact Proofs.builder_root_chunk. Qed.

(** the ORIGINAL [finish] (root = first top-level element only) lost text on unbalanced event lists:
    witness = the event shape of ["{,then"]. *)
Theorem builder_yield_orig_refuted : exists evs t, run_orig evs = Some t /\ leaves t <> tokens_of evs.
Proof. exact Proofs.builder_yield_orig_refuted. Qed.

(** (a)+(b) the tokenize loop over the (repaired) Reader, for EVERY lexer step that obeys the step contract
    (whenever the reader is not exhausted: forget the previous token first, then move >= 1 character, do not
    report TkEof, and report a kind satisfying [Pk]): the loop ends by exhaustion, the emitted ranges tile [0, |text|) in order and their slices
    concatenate to the text. *)
Theorem lex_tiles : forall (S : Type) (step : S -> reader -> tkind * S * reader) (Inv : S -> reader -> Prop) (Pk : tkind -> Prop),
  step_contract S step Inv Pk ->
  forall (t : text) (normal : bool) (st0 : S),
    (forall r cs, moved (reader_new t) r cs -> is_eof r = false -> Inv st0 r) -> Pk TK_TkShebang ->
    let '(toks, r', exhausted) := tokenize S step normal st0 t in
    exhausted = true /\ tiles toks 0 (bytes t) /\ concat_slices t toks = Some t /\ Forall (fun x => Pk (fst x)) toks.
Proof. exact LexProofs.lex_tiles. Qed.

(** the transcription of lua_lexer.rs satisfies the step contract — for EVERY feature set (language level +
    non-standard symbols) and every classification of non-ASCII characters as alphabetic/alphanumeric — with the
    invariant "the lexer state is Normal whenever the reader is not exhausted", and only reports kinds the parser
    does not drop *)
Theorem lua_lexer_contract : forall (feats : list N) (uni_alpha uni_alnum : cp -> bool),
  step_contract lstate (lua_step feats uni_alpha uni_alnum) lua_inv alive_kind.
Proof. exact LuaLexerProofs.lua_lexer_contract. Qed.

(** hence its token list tiles every text (NUL, BOM and unterminated strings/comments included), spells it, and
    contains no token of a kind that [bump] would drop *)
Theorem lua_lex_tiles : forall (feats : list N) (uni_alpha uni_alnum : cp -> bool) (t : text),
  let toks := lua_tokenize feats uni_alpha uni_alnum t in
  tiles toks 0 (bytes t) /\ concat_slices t toks = Some t /\ Forall (fun x => dead_kind (fst x) = false) toks.
Proof. exact LuaLexerProofs.lua_lex_tiles. Qed.

(** (c) the token pump + marker API as a state machine, for EVERY sequence of client operations (mark / set_kind /
    complete / undo / precede / push_node_end / init / bump / set_current_token_kind) and EVERY behaviour of the
    doc-comment parser (its operations are carried by the bumps):

    mark_level_exact — if every operation respected the client discipline ([p_disc]: kinds are never None; set_kind,
    undo and complete address a start that has not been erased; init once and first; no retag to None/TkEof), the
    parser's [mark_level] equals the bracket depth of the event list (non-erased starts minus ends).  This is the
    accounting that error recovery relies on ([for _ in 0..(current_level - level) { push_node_end }]); it was false
    before the repair of [Marker::undo] / empty [complete]. *)
Theorem mark_level_exact : forall (toks : list leaf) (doc : bool) (ops : list op) (st : pst),
  exec_ops false (pst_new toks doc) ops = Some st -> p_disc st = true ->
  snd (p_m st) = depth (fst (p_m st)).
Proof. exact PumpProofs.mark_level_exact. Qed.

(** markers_balanced — for such a client, at every moment: no prefix of the event list contains more NodeEnds than
    non-erased NodeStarts (so the event list is well-bracketed once the None starts are erased, as soon as the mark
    level is back to 0), and the mark level is the number of nodes still open.  The discipline [p_disc] includes:
    a NodeEnd is pushed (by complete or by error recovery) only while the mark level is positive, and a node that is
    undone has not been closed by a later NodeEnd ([unclosed]); both are evaluated on every recorded real trace. *)
Theorem markers_balanced : forall (toks : list leaf) (doc : bool) (ops : list op) (st : pst),
  exec_ops false (pst_new toks doc) ops = Some st -> p_disc st = true ->
  prefix_ok (fst (p_m st)) 0 = true /\ snd (p_m st) = depth (fst (p_m st)).
Proof. exact PumpProofs.markers_balanced. Qed.

(** pump_emits_all — if the lexer's tokens tile [0,total), none has a kind the pump drops (None, TkEof), the client
    respected the discipline and every doc-parser run re-emitted a tiling of the range it was handed ([p_doc_ok], the
    obligation of the un-modelled LuaDocParser), then at every moment the EatToken events tile exactly the range of
    the tokens before the current one; once the current token is Eof they tile [0,total). *)
Theorem pump_emits_all : forall (toks : list leaf) (total : N) (doc : bool) (ops : list op) (st : pst),
  tiles toks 0 total -> alive toks ->
  exec_ops false (pst_new toks doc) ops = Some st -> p_disc st = true -> p_doc_ok st = true ->
  exists a, tiles (firstn (p_index st) (p_tokens st)) 0 a /\ tiles (tokens_of (fst (p_m st))) 0 a /\
            (p_inited st = true -> p_current st = TK_TkEof -> a = total).
Proof. exact PumpProofs.pump_emits_all. Qed.

(** (c') the token pump of LuaDocParser (init / bump / calc_next_current_token / eat_current_and_lex_next / lex_token /
    re_calc_detail / re_calc_cast_type / bump_to_end / set_current_token_kind) over an ABSTRACT doc lexer:

    doc_pump_tiles — for every comment group whose tokens are non-empty and tile [G0,G1), every sequence of pump
    primitives and marker operations, and every stream of doc-lexer results: if the results respected the Reader
    discipline ([d_lex_ok]: each token has length >= 1, stays inside the comment token being re-lexed, and its kind
    is not None/TkEof), the client respected the discipline ([d_disc]: re_calc_* only right after a token was lexed
    from a live reader, retagging only a pending token to a valid kind, bump_to_end only on a pending token), and
    the run ended with current = TkEof (the only way parse_docs leaves its loop), then the tokens the doc parser
    pushed tile [G0,G1) in order. *)
Theorem doc_pump_tiles : forall (G1 G0 : N) (toks : list leaf) (answers : list (tkind * N)) (ops : list pop) (st : dst),
  nonempty_toks toks -> tiles toks G0 G1 ->
  doc_run toks answers ops = Some st ->
  d_disc st = true -> d_lex_ok st = true -> d_cur st = TK_TkEof ->
  tiles (deats (d_out st)) G0 G1.
Proof. exact DocPumpProofs.doc_pump_tiles. Qed.

(** hence the obligation [p_doc_ok] of pump_emits_all / C01_main (each doc-parser run re-emits a tiling of the range it
    was handed) is met by every run of the modelled doc pump: the conjunct that [parse_comments] accumulates is true.
    What remains checked on traces only: that the real doc parser's run IS such a run (replay), and the three
    hypotheses above for the real doc lexer and the real doc grammar. *)
Theorem doc_obligation_from_pump : forall (group prefix trailing : list leaf) (answers : list (tkind * N)) (ops : list pop) (st : dst) (a0 a1 : N),
  split_trailing group = (prefix, trailing) -> prefix <> [] -> tiles group a0 a1 -> nonempty_toks prefix ->
  doc_run prefix answers ops = Some st -> d_disc st = true -> d_lex_ok st = true -> d_cur st = TK_TkEof ->
  tilesb (deats (d_out st)) (fst (doc_range group prefix)) (snd (doc_range group prefix)) = true.
Proof.
  intros group prefix trailing answers ops st a0 a1 Hs Hne Ht Hn Hr Hd Hk Hc.
  assert (Hg : group <> []) by (rewrite (split_trailing_app _ _ _ Hs); destruct prefix; [congruence|discriminate]).
  destruct (doc_range_tiles _ _ _ _ _ Hs Hg Ht) as (mid & Hp & _ & Hrange).
  apply Hrange. eapply DocPumpProofs.doc_pump_tiles; eauto.
Qed.

(** C01_main — the composition: any contract-respecting lexer step, any disciplined client that stops at Eof with
    the doc obligation met, any run of the builder that does not panic: the leaves of the tree tile the input and,
    if every token's text slice exists, the tree's text is the input. *)
Theorem C01_main :
  forall (S : Type) (step : S -> reader -> tkind * S * reader) (Inv : S -> reader -> Prop),
    step_contract S step Inv (fun k => dead_kind k = false) ->
    forall (t : text) (normal : bool) (st0 : S),
      (forall r cs, moved (reader_new t) r cs -> is_eof r = false -> Inv st0 r) ->
      let toks := fst (fst (tokenize S step normal st0 t)) in
      forall (doc : bool) (ops : list op) (st : pst) (tr : tree),
        exec_ops false (pst_new toks doc) ops = Some st ->
        p_disc st = true -> p_doc_ok st = true -> p_inited st = true -> p_current st = TK_TkEof ->
        run (fst (p_m st)) = Some tr ->
        tiles (leaves tr) 0 (bytes t) /\
        (forall x, tree_text t tr = Some x -> x = t).
Proof. exact MainProofs.C01_main. Qed.

(** C01_lua — C01_main with the transcribed Lua lexer plugged in: no hypothesis on the lexer is left *)
Theorem C01_lua : forall (feats : list N) (uni_alpha uni_alnum : cp -> bool) (t : text)
                         (doc : bool) (ops : list op) (st : pst) (tr : tree),
  exec_ops false (pst_new (lua_tokenize feats uni_alpha uni_alnum t) doc) ops = Some st ->
  p_disc st = true -> p_doc_ok st = true -> p_inited st = true -> p_current st = TK_TkEof ->
  run (fst (p_m st)) = Some tr ->
  tiles (leaves tr) 0 (bytes t) /\ (forall x, tree_text t tr = Some x -> x = t).
Proof.
  intros feats ua un t doc ops st tr.
  apply (MainProofs.C01_main lstate (lua_step feats ua un) lua_inv (LuaLexerProofs.lua_lexer_contract feats ua un) t true LNormal).
  intros; reflexivity.
Qed.

(** non-vacuity of the lexer theorems: a NUL in the middle of the text is an ordinary (unknown) character and the
    tokens after it are still produced; ["--[=[x"] is an unterminated long comment that runs to the end *)
Example lexer_example :
  lua_tokenize (level_features L_Lua54) (fun _ => false) (fun _ => false) [97; 0; 98; 10; 45; 45; 91; 61; 91; 120]
  = [(TK_TkName, (0, 1)); (TK_TkUnknown, (1, 1)); (TK_TkName, (2, 1)); (TK_TkEndOfLine, (3, 1)); (TK_TkLongComment, (4, 6))].
Proof. vm_compute. reflexivity. Qed.

(** non-vacuity of the doc pump theorem: the run of the doc parser on ["---@type string"] (one comment token 0..15):
    init bump, then the bumps of parse_tag_type with the real lexer answers; re_calc_detail on a second run *)
Example doc_pump_example :
  match doc_run [(TK_TkShortComment, (0, 15))]
                [(TK_TkDocStart, 4); (TK_TkTagType, 4); (TK_TkWhitespace, 1); (TK_TkName, 6)]
                [PMarker (DMark SK_Comment); PBump 3; PMarker (DMark SK_DocTagType); PBump 0; PBump 0] with
  | Some st => d_disc st = true /\ d_lex_ok st = true /\ d_cur st = TK_TkEof /\
               deats (d_out st) = [(TK_TkDocStart, (0, 4)); (TK_TkTagType, (4, 4)); (TK_TkWhitespace, (8, 1)); (TK_TkName, (9, 6))]
  | None => False
  end
  /\ match doc_run [(TK_TkShortComment, (0, 9))]
                  [(TK_TkNormalStart, 3); (TK_TkName, 2); (TK_TkDocDetail, 6)]
                  [PBump 3; PRecalcDetail; PBump 3; PBump 3] with
     | Some st => d_disc st = true /\ d_lex_ok st = true /\ d_cur st = TK_TkEof /\
                  deats (d_out st) = [(TK_TkNormalStart, (0, 3)); (TK_TkDocDetail, (3, 6))]
     | None => False
     end.
Proof. vm_compute. repeat split. Qed.

(** non-vacuity of the pump theorems: the operation sequence of [parse_chunk] on the tokens of ["a -- c\nb"]
    (doc off): init, mark, bumps; the hypotheses hold and the events hold exactly these tokens, which tile [0,8). *)
Example pump_example :
  let toks := [(TK_TkName, (0, 1)); (TK_TkWhitespace, (1, 1)); (TK_TkShortComment, (2, 4)); (TK_TkEndOfLine, (6, 1)); (TK_TkName, (7, 1))] in
  match exec_ops false (pst_new toks false) [OMark SK_Block; OInit []; OMark SK_NameExpr; OBump []; OComplete 1%nat; OBump []; OComplete 0%nat] with
  | Some st => p_disc st = true /\ p_doc_ok st = true /\ p_current st = TK_TkEof /\ snd (p_m st) = 0%Z /\
               tokens_of (fst (p_m st)) = toks /\ prefix_ok (fst (p_m st)) 0 = true
  | None => False
  end.
Proof. vm_compute. repeat split. Qed.

(** non-vacuity: an unbalanced event list (the Chunk is closed early, two tokens follow) builds a tree with
    all three tokens; a balanced one with a [precede] link builds the expected nesting. *)
Example builder_example :
  run orig_witness = Some (Node SK_Chunk [Node SK_Block [Tok TK_TkLeftBrace 0 1]; Tok TK_TkComma 1 1; Tok TK_TkThen 2 4])
  /\ run [NodeStart SK_Block 0; NodeStart SK_NameExpr 4; EatToken TK_TkName 0 1; NodeEnd; NodeStart SK_CallExpr 0; Trivia;
          EatToken TK_TkLeftParen 1 1; NodeEnd; NodeEnd]
     = Some (Node SK_Chunk [Node SK_Block [Node SK_CallExpr [Node SK_NameExpr [Tok TK_TkName 0 1]; Tok TK_TkLeftParen 1 1]]]).
Proof. split; vm_compute; reflexivity. Qed.
