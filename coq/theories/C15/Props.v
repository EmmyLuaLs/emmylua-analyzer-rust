(** C15/Props.v — property theorems only.  Each is closed by [exact] of a lemma of Proofs.v.

    Fragment F (see Model.v): programs [mkprog decls body] whose body is loop-free ([loop_free_b]): locals declared
    up-front with literal initialisers, literal reassignments, [if/elseif/else], conditions built from
    [type(x) == "T"], [x == nil], [x ~= nil] (and the flipped forms ["T" == type(x)], [nil == x], [nil ~= x]), [x], [not],
    [and], [or] and opaque conditions (undefined globals, nondeterministic booleans supplied by the oracle [o]),
    [assert(c)], and the early exits [if c then .. return end] / [if c then .. error(..) end]; a failed assert, an error and
    a return end the chunk ([OStop true]): the trace is what was executed up to there.
    [run o fuel p] is the semantics (A): its trace lists, for every probe executed, the probe id, the variable, the runtime
    value (type tag; booleans keep their truth value) and whether the probe is inside a loop.
    [infer_var p x] is the analyzer's inference (B) for variable [x]: probe id, inside a loop?, inferred type. *)
From Coq Require Import List NArith Bool Arith.
From EV Require Import C15.Model C15.Shape C15.Proofs.
Import ListNotations.

(** Whenever execution reaches a probe of [x] with value [v], the type inferred there admits [v]; in particular it contains
    the Lua type of [v]: narrowing never excludes a possible runtime type.  ("The type inferred there" is the entry of
    [infer_var p x] with the probe's id: probe ids are meant to be distinct.) *)
Theorem narrowing_sound : forall p o fuel oc env' pos' tr,
  loop_free_b (body p) = true ->
  run o fuel p = (oc, env', pos', tr) ->
  forall id x v fl, In (id, x, v, fl) tr ->
    exists t, In (id, false, t) (infer_var p x) /\ has v t = true /\ has_tag (tag_of v) t = true.
Proof. exact Proofs.narrowing_sound_lf. Qed.

(** Code the analyzer considers unreachable (the inferred type at the probe admits no value: [never]) is never executed. *)
Theorem unreachable_never_runs : forall p o fuel oc env' pos' tr id x,
  loop_free_b (body p) = true ->
  run o fuel p = (oc, env', pos', tr) ->
  (forall t, In (id, false, t) (infer_var p x) -> forall v, has v t = false) ->
  forall v fl, ~ In (id, x, v, fl) tr.
Proof. exact Proofs.unreachable_never_runs_lf. Qed.

(** Enumerating the 2^k valuations of the k opaque conditions covers every execution (this is what the search's exact
    reachable set relies on). *)
Theorem reach_complete : forall p o fuel,
  loop_free_b (body p) = true ->
  exists l, In l (all_lists (opq_b (body p))) /\ run (oracle_of l) fuel p = run o fuel p.
Proof. exact Proofs.reach_complete_lf. Qed.

(** non-vacuity: [local x0 = 1; if c0 then x0 = 's0' elseif c1 then x0 = nil end;
    if type(x0) == "string" then probe(x0) elseif x0 then probe(x0) else probe(x0) end; probe(x0)]:
    the four probes are inferred string / integer / nil / (string|integer|nil) (first table: which of nil, number, string
    each inferred type admits); each is reached under some oracle (second table: the probes reached and the values seen,
    one row per oracle list), and every value seen at a probe is one its row of the first table admits. *)
Example narrowing_example :
  let p := Proofs.example_prog in
  loop_free_b (body p) = true /\
  map (fun '(id, _, t) => (id, map (fun v => has v t) [ANil; ANum; AStr])) (infer_var p 0) =
    [(0%N, [false; false; true]); (1%N, [false; true; false]); (2%N, [true; false; false]); (3%N, [true; true; true])] /\
  map (fun l => map (fun '(id, _, v, _) => (id, v)) (snd (run (oracle_of l) 0 p))) (all_lists 2) =
    [[(1%N, ANum); (3%N, ANum)]; [(0%N, AStr); (3%N, AStr)]; [(2%N, ANil); (3%N, ANil)]; [(0%N, AStr); (3%N, AStr)]].
Proof. exact Proofs.narrowing_example. Qed.
