(** C15/TypeFacts.v — which runtime values the results of the type operations admit. *)
From Coq Require Import List NArith Bool Arith.
From EV Require Import C15.Model.
Import ListNotations.
Local Open Scope N_scope.

Lemma bty_eqb_eq : forall a b, bty_eqb a b = true <-> a = b.
Proof.
  intros a b. split; intro H.
  - destruct a, b; cbn [bty_eqb] in H; try discriminate; try reflexivity;
      try (apply N.eqb_eq in H; subst; reflexivity).
    apply Bool.eqb_prop in H. subst. reflexivity.
  - subst. destruct b; cbn [bty_eqb]; try reflexivity; try apply N.eqb_refl.
    apply Bool.eqb_reflx.
Qed.

Lemma bty_eqb_refl : forall a, bty_eqb a a = true.
Proof. intro a. apply bty_eqb_eq. reflexivity. Qed.

Lemma list_eqb_eq : forall l1 l2, list_eqb l1 l2 = true -> l1 = l2.
Proof.
  induction l1 as [|a r IH]; destruct l2 as [|b r2]; cbn; intro E; try discriminate; [reflexivity|].
  apply andb_true_iff in E. destruct E as [E1 E2]. apply bty_eqb_eq in E1. subst. f_equal. apply IH. exact E2.
Qed.

Lemma mem_In : forall b l, mem b l = true <-> In b l.
Proof.
  intros b l. unfold mem. rewrite existsb_exists. split.
  - intros [x [Hin He]]. apply bty_eqb_eq in He. subst. exact Hin.
  - intro Hin. exists b. split; [exact Hin | apply bty_eqb_refl].
Qed.

Lemma has_members : forall v t, has v t = true <-> exists m, In m (members t) /\ has_b v m = true.
Proof. intros v t. unfold has. apply existsb_exists. Qed.

Lemma has_B : forall v b, has v (B b) = has_b v b.
Proof. intros. unfold has. cbn. apply orb_false_r. Qed.

Lemma has_unknown_members : forall t, has_unknown t = true <-> In Unknown (members t).
Proof. intro t. unfold has_unknown. apply mem_In. Qed.

Lemma has_unknown_B : forall b, has_unknown (B b) = bty_eqb Unknown b.
Proof. intro b. unfold has_unknown, mem. cbn. apply orb_false_r. Qed.

Lemma has_b_unknown : forall v, has_b v Unknown = false.
Proof. destruct v; reflexivity. Qed.

Lemma has_b_never : forall v, has_b v Never = false.
Proof. destruct v; reflexivity. Qed.

Lemma non_never_has : forall v m, has_b v m = true -> non_never m = true.
Proof. intros v m H. destruct m; try reflexivity. rewrite has_b_never in H. discriminate. Qed.

Definition unk_free (t : ty) : Prop := has_unknown t = false.

Lemma unk_free_members : forall t, unk_free t <-> ~ In Unknown (members t).
Proof. intro t. unfold unk_free. rewrite <- has_unknown_members. destruct (has_unknown t); intuition congruence. Qed.

Lemma unk_free_B : forall b, unk_free (B b) <-> b <> Unknown.
Proof. intro b. rewrite unk_free_members. cbn. intuition congruence. Qed.

Lemma dedupe_In : forall l acc m, In m (dedupe l acc) <-> In m l \/ In m acc.
Proof.
  induction l as [|a r IH]; intros acc m; cbn [dedupe].
  - cbn. tauto.
  - destruct (mem a acc) eqn:E.
    + rewrite IH. apply mem_In in E. cbn. split; [tauto|]. intros [[->|H]|H]; tauto.
    + rewrite IH. rewrite in_app_iff. cbn. tauto.
Qed.

Lemma mk_union_members : forall ms m, In m (members (mk_union ms)) <-> In m ms.
Proof.
  intros ms m. unfold mk_union.
  destruct (forallb is_basic ms) eqn:E.
  - cbn [members]. rewrite filter_In. rewrite mem_In. split; [tauto|].
    intro H. split; [|exact H].
    rewrite forallb_forall in E. specialize (E _ H). unfold is_basic in E. apply mem_In in E. exact E.
  - destruct ms as [|a [|b [|c r]]]; cbn [members]; try tauto.
    destruct (bty_eqb a Nil) eqn:Ea.
    + apply bty_eqb_eq in Ea. subst. cbn. tauto.
    + destruct (bty_eqb b Nil) eqn:Eb.
      * apply bty_eqb_eq in Eb. subst. cbn. tauto.
      * cbn. tauto.
Qed.

Lemma from_vec_members : forall l m, l <> [] -> (In m (members (from_vec l)) <-> In m l).
Proof.
  intros l m Hne. unfold from_vec.
  destruct l as [|a [|b r]]; [contradiction | cbn; tauto |].
  pose proof (dedupe_In (a :: b :: r) [] m) as HD.
  destruct (dedupe (a :: b :: r) []) as [|x [|y r2]] eqn:E.
  - exfalso. pose proof (dedupe_In (a :: b :: r) [] a) as H. rewrite E in H. cbn in H. tauto.
  - cbn [members]. rewrite HD. cbn. tauto.
  - rewrite mk_union_members. rewrite HD. cbn. tauto.
Qed.

Lemma from_vec_has_intro : forall l v m, In m l -> has_b v m = true -> has v (from_vec l) = true.
Proof.
  intros l v m Hin Hh. apply has_members. exists m. split; [|exact Hh].
  apply from_vec_members; [intro E; subst; inversion Hin | exact Hin].
Qed.

Lemma from_vec_unknown : forall l, has_unknown (from_vec l) = true -> In Unknown l.
Proof.
  intros l H. apply has_unknown_members in H.
  destruct l as [|a r].
  - cbn in H. destruct H as [H|[]]. discriminate.
  - apply (from_vec_members (a :: r) Unknown); [discriminate | exact H].
Qed.

Lemma filter_map_In : forall {A C} (f : A -> option C) l c, In c (filter_map f l) <-> exists a, In a l /\ f a = Some c.
Proof.
  intros A C f l c. induction l as [|a r IH]; cbn.
  - split; [tauto | intros [? [[] _]]].
  - destruct (f a) eqn:E; cbn; rewrite IH; split.
    + intros [->|[a' [Hin Hf]]]; [exists a; tauto | exists a'; tauto].
    + intros [a' [[->|Hin] Hf]]; [left; congruence | right; exists a'; tauto].
    + intros [a' [Hin Hf]]. exists a'. tauto.
    + intros [a' [[->|Hin] Hf]]; [congruence | exists a'; tauto].
Qed.

(** the two ways an operation on members is lifted to unions *)
Lemma from_vec_filter_map_has : forall (f : bty -> option bty) l v m m',
  In m l -> f m = Some m' -> has_b v m' = true -> has v (from_vec (filter_map f l)) = true.
Proof.
  intros f l v m m' Hin Hf Hh. apply from_vec_has_intro with (m := m'); [|exact Hh].
  apply filter_map_In. exists m. split; assumption.
Qed.

Lemma from_vec_map_has : forall (g : bty -> bty) l v m,
  In m l -> has_b v (g m) = true -> has v (from_vec (filter non_never (map g l))) = true.
Proof.
  intros g l v m Hin Hh. apply from_vec_has_intro with (m := g m); [|exact Hh].
  apply filter_In. split; [apply in_map; exact Hin | apply non_never_has with (v := v); exact Hh].
Qed.

Definition tag_matches (v : atom) (g : tag) : bool := tag_eqb (tag_of v) g.

(** a member that admits [v] survives the operation of the branch [v] takes
    (case analysis on the value first: it leaves few members to look at) *)
Lemma nd_base_guard_keep : forall g m v,
  tag_matches v g = true -> has_b v m = true -> nd_base m (guard_ty g) = Some m.
Proof.
  intros g m v Ht Hh.
  destruct v, m as [| | | |[]| | | | | | | | | |]; try discriminate Hh; destruct g; try discriminate Ht; reflexivity.
Qed.

Lemma rtg_base_keep : forall g m v,
  tag_matches v g = false -> has_b v m = true -> rtg_base m (guard_ty g) = m.
Proof.
  intros g m v Ht Hh.
  destruct v, m as [| | | |[]| | | | | | | | | |]; try discriminate Hh; destruct g; try discriminate Ht; reflexivity.
Qed.

Lemma rfn_member_keep : forall m v,
  truthy v = true -> has_b v m = true -> exists m', rfn_member m = Some m' /\ has_b v m' = true.
Proof.
  intros m v Ht Hh.
  destruct v, m as [| | | |[]| | | | | | | | | |]; try discriminate; eexists; split; reflexivity.
Qed.

Lemma nfn_base_keep : forall m v,
  truthy v = false -> has_b v m = true -> has_b v (nfn_base m) = true.
Proof.
  intros m v Ht Hh.
  destruct v, m as [| | | |[]| | | | | | | | | |]; try discriminate; reflexivity.
Qed.

Lemma has_b_nil : forall m, has_b ANil m = true -> m = Nil.
Proof. destruct m as [| | | |[]| | | | | | | | | |]; cbn; intro H; try discriminate; reflexivity. Qed.

Lemma rm_base_nil_keep : forall m v, v <> ANil -> has_b v m = true -> rm_base m Nil = Some m.
Proof.
  intros m v Hv Hh.
  destruct v, m as [| | | |[]| | | | | | | | | |]; try discriminate; try reflexivity; contradiction.
Qed.

(** does the value take the branch the narrow describes *)
Definition takes (v : atom) (nw : narrow) : Prop :=
  match nw with
  | NTruthy f => truthy v = f
  | NGuard g f => exists t, g = guard_ty t /\ tag_matches v t = f
  | NEqNil f => atom_eqb v ANil = f
  end.

Lemma narrow_truthy_sound : forall v t, has v t = true -> has v (apply_narrow (NTruthy (truthy v)) t) = true.
Proof.
  intros v t Hh. destruct (truthy v) eqn:Ht; cbn [apply_narrow];
    (destruct t as [s|l]; [rewrite has_B in Hh | apply has_members in Hh; destruct Hh as [m [Hin Hm]]]).
  - destruct (rfn_member_keep s v Ht Hh) as [m' [Hk Hm']]. cbn [remove_false_or_nil]. rewrite Hk, has_B. exact Hm'.
  - destruct (rfn_member_keep m v Ht Hm) as [m' [Hk Hm']]. eapply from_vec_filter_map_has; eassumption.
  - cbn [narrow_false_or_nil]. rewrite has_B. apply nfn_base_keep; assumption.
  - eapply from_vec_map_has; [exact Hin | apply nfn_base_keep; assumption].
Qed.

Lemma narrow_guard_sound : forall g v t,
  has v t = true -> has v (apply_narrow (NGuard (guard_ty g) (tag_matches v g)) t) = true.
Proof.
  intros g v t Hh. destruct (tag_matches v g) eqn:Hg; cbn [apply_narrow]; unfold narrow_type_guard;
    (destruct t as [s|l]; [rewrite has_B in Hh | apply has_members in Hh; destruct Hh as [m [Hin Hm]]]).
  - cbn [narrow_down]. rewrite (nd_base_guard_keep g s v Hg Hh). cbn [option_map]. rewrite has_B. exact Hh.
  - pose proof (nd_base_guard_keep g m v Hg Hm) as Hk. cbn [narrow_down].
    destruct (filter_map (fun m0 => nd_base m0 (guard_ty g)) l) as [|y r] eqn:E.
    + exfalso. apply (in_nil (a := m)). rewrite <- E. apply filter_map_In. exists m. split; assumption.
    + rewrite <- E. eapply from_vec_filter_map_has; eassumption.
  - cbn [remove_type_guard]. rewrite (rtg_base_keep g s v Hg Hh), has_B. exact Hh.
  - eapply from_vec_map_has; [exact Hin | rewrite (rtg_base_keep g m v Hg Hm); exact Hm].
Qed.

Lemma narrow_eqnil_sound : forall v t, has v t = true -> has v (apply_narrow (NEqNil (atom_eqb v ANil)) t) = true.
Proof.
  intros v t Hh. destruct (atom_eqb v ANil) eqn:Hv; cbn [apply_narrow]; unfold narrow_eq_nil.
  - destruct (is_never (op_intersect t Nil)) eqn:E; [exact Hh|].
    destruct v; try discriminate Hv.
    destruct t as [s|l]; [rewrite has_B in Hh | apply has_members in Hh; destruct Hh as [m [Hin Hm]]].
    + apply has_b_nil in Hh. subst s. reflexivity.
    + apply has_b_nil in Hm. subst m. cbn [op_intersect] in *.
      pose proof (from_vec_map_has (fun m => int_base m Nil) l ANil Nil Hin eq_refl) as G.
      destruct (filter non_never (map (fun m => int_base m Nil) l)); [discriminate E | exact G].
  - assert (v <> ANil) as Hne by (intros ->; discriminate Hv).
    destruct t as [s|l]; [rewrite has_B in Hh | apply has_members in Hh; destruct Hh as [m [Hin Hm]]].
    + cbn [op_remove]. rewrite (rm_base_nil_keep s v Hne Hh), has_B. exact Hh.
    + eapply from_vec_filter_map_has; [exact Hin | apply (rm_base_nil_keep m v Hne Hm) | exact Hm].
Qed.

Lemma guard_ty_inj : forall a b, bty_eqb (guard_ty a) (guard_ty b) = true -> a = b.
Proof. destruct a, b; cbn; intro H; try discriminate; reflexivity. Qed.

Lemma apply_narrow_sound : forall nw v t, takes v nw -> has v t = true -> has v (apply_narrow nw t) = true.
Proof.
  intros nw v t Hs Hh. destruct nw as [f|g f|f]; cbn [takes] in Hs.
  - subst f. apply narrow_truthy_sound. exact Hh.
  - destruct Hs as [tg [-> <-]]. apply narrow_guard_sound. exact Hh.
  - subst f. apply narrow_eqnil_sound. exact Hh.
Qed.

Lemma has_b_sig : forall v n k, has_b v (Sig n) = has_b v (Sig k).
Proof. destruct v; reflexivity. Qed.

Lemma dls_keeps : forall l seen m, In m l -> is_sig m = false -> In m (drop_later_sigs l seen).
Proof.
  induction l as [|a r IH]; intros seen m Hin Hs; [inversion Hin|].
  destruct Hin as [->|Hin].
  - destruct m; try discriminate Hs; left; reflexivity.
  - destruct a; cbn [drop_later_sigs]; try (right; apply IH; assumption).
    destruct seen; [|right]; apply IH; assumption.
Qed.

Lemma dls_first_sig : forall l n, In (Sig n) l -> exists k, In (Sig k) (drop_later_sigs l false).
Proof.
  induction l as [|a r IH]; intros n Hin; [inversion Hin|].
  destruct a; try (destruct Hin as [E|Hin]; [discriminate E|]; destruct (IH n Hin) as [k Hk]; exists k; right; exact Hk).
  exists n0. left. reflexivity.
Qed.

Lemma dls_subset : forall l seen m, In m (drop_later_sigs l seen) -> In m l.
Proof.
  induction l as [|a r IH]; intros seen m H; [inversion H|].
  destruct a; cbn [drop_later_sigs] in H;
    try (destruct H as [->|H]; [left; reflexivity | right; eapply IH; exact H]).
  destruct seen.
  - right. eapply IH. exact H.
  - destruct H as [->|H]; [left; reflexivity | right; eapply IH; exact H].
Qed.

Lemma canon_has : forall v t, has v t = true -> has v (canon_callable t) = true.
Proof.
  intros v t H. destruct t as [s|l]; [exact H|]. cbn [canon_callable].
  apply has_members in H. destruct H as [m [Hin Hm]]. destruct (is_sig m) eqn:Es.
  - destruct m; try discriminate Es. destruct (dls_first_sig l n Hin) as [k Hk].
    apply from_vec_has_intro with (m := Sig k); [exact Hk | rewrite (has_b_sig v k n); exact Hm].
  - apply from_vec_has_intro with (m := m); [apply dls_keeps; assumption | exact Hm].
Qed.

Lemma canon_unknown : forall t, has_unknown (canon_callable t) = true -> has_unknown t = true.
Proof.
  intros t H. destruct t as [s|l]; [exact H|]. cbn [canon_callable] in H.
  apply from_vec_unknown in H. apply dls_subset in H. apply has_unknown_members. exact H.
Qed.

(** [union_bb] by cases, in both orders at once; the value and the member admitting it first, which leaves fifteen pairs *)
Lemma union_bb_has_one : forall v a b, has_b v a = true -> has v (union_bb a b) = true /\ has v (union_bb b a) = true.
Proof.
  intros v a b H.
  destruct v, a as [| | | |[]| | | | | | | | | |]; try discriminate H; destruct b as [| | | |[]| | | | | | | | | |]; cbn;
    repeat match goal with |- context [N.eqb ?x ?y] => destruct (N.eqb x y) end; split; reflexivity.
Qed.

Lemma union_bb_has : forall v a b, has_b v a = true \/ has_b v b = true -> has v (union_bb a b) = true.
Proof. intros v a b [H|H]; [apply (union_bb_has_one v a b H) | apply (union_bb_has_one v b a H)]. Qed.

(** every arm of [union_bb] is one of the operands, a basic type other than [unknown], or the vector of the two *)
Lemma union_bb_unknown : forall a b, has_unknown (union_bb a b) = true -> a = Unknown \/ b = Unknown.
Proof.
  intros a b. unfold union_bb.
  repeat match goal with |- context [if ?c then _ else _] => destruct c end; intro H;
    try discriminate H; try (rewrite has_unknown_B in H; apply bty_eqb_eq in H; auto).
  apply from_vec_unknown in H. destruct H as [H|[H|[]]]; auto.
Qed.

(** the arm of [union2] for a union and a non-union, in either order *)
Definition union_ub (l : list bty) (b : bty) : ty :=
  match b with Never => U l | _ => if mem b l then U l else mk_union (l ++ [b]) end.

Lemma union_ub_members : forall l b m, In m (members (union_ub l b)) <-> In m l \/ (b <> Never /\ m = b).
Proof.
  intros l b m.
  assert (In m (members (if mem b l then U l else mk_union (l ++ [b]))) <-> In m l \/ m = b) as G.
  { destruct (mem b l) eqn:E.
    - apply mem_In in E. cbn [members]. split; [tauto | intros [H| ->]; assumption].
    - rewrite mk_union_members, in_app_iff. cbn. intuition congruence. }
  assert (b <> Never /\ union_ub l b = (if mem b l then U l else mk_union (l ++ [b])) \/ b = Never /\ union_ub l b = U l)
    as [[Hb ->]|[-> ->]] by (destruct b; (left; split; [discriminate | reflexivity]) || (right; split; reflexivity)).
  - rewrite G. tauto.
  - cbn [members]. intuition congruence.
Qed.

Lemma union2_has : forall v a b, has v a = true \/ has v b = true -> has v (union2 a b) = true.
Proof.
  assert (forall v l b, has v (U l) = true \/ has_b v b = true -> has v (union_ub l b) = true) as UB.
  { intros v l b H. apply has_members.
    destruct H as [H|H]; [apply has_members in H; destruct H as [m [Hin Hm]]; exists m | exists b];
      (split; [apply union_ub_members | assumption]); [left; exact Hin | right].
    split; [intros ->; rewrite has_b_never in H; discriminate | reflexivity]. }
  intros v a b H. destruct a as [x|l1], b as [y|l2].
  - apply union_bb_has. rewrite !has_B in H. exact H.
  - change (has v (union_ub l2 x) = true). apply UB. rewrite has_B in H. tauto.
  - change (has v (union_ub l1 y) = true). apply UB. rewrite has_B in H. exact H.
  - cbn [union2]. destruct (list_eqb l1 l2) eqn:E.
    + apply list_eqb_eq in E. subst. destruct H; assumption.
    + destruct H as [H|H]; apply has_members in H; destruct H as [m [Hin Hm]];
        apply from_vec_has_intro with (m := m); try exact Hm; apply in_app_iff; [left|right]; exact Hin.
Qed.

Lemma union_has : forall v a b, has v a = true \/ has v b = true -> has v (union a b) = true.
Proof. intros. unfold union. apply canon_has. apply union2_has. assumption. Qed.

Lemma union2_unknown : forall a b, has_unknown (union2 a b) = true -> has_unknown a = true \/ has_unknown b = true.
Proof.
  assert (forall l b, has_unknown (union_ub l b) = true -> has_unknown (U l) = true \/ has_unknown (B b) = true) as UB.
  { intros l b H. apply has_unknown_members, union_ub_members in H.
    destruct H as [H|[_ <-]]; [left; apply has_unknown_members; exact H | right; reflexivity]. }
  intros a b H. destruct a as [x|l1], b as [y|l2].
  - apply union_bb_unknown in H. rewrite !has_unknown_B. destruct H as [->| ->]; [left|right]; reflexivity.
  - change (has_unknown (union_ub l2 x) = true) in H. apply UB in H. tauto.
  - change (has_unknown (union_ub l1 y) = true) in H. apply UB in H. exact H.
  - cbn [union2] in H. destruct (list_eqb l1 l2); [left; exact H|].
    apply from_vec_unknown in H. apply in_app_iff in H.
    destruct H as [H|H]; [left|right]; apply has_unknown_members; exact H.
Qed.

Lemma union_unk_free : forall a b, unk_free a -> unk_free b -> unk_free (union a b).
Proof.
  unfold unk_free. intros a b Ha Hb.
  destruct (has_unknown (union a b)) eqn:E; [|reflexivity].
  unfold union in E. apply canon_unknown in E. apply union2_unknown in E. destruct E; congruence.
Qed.

Lemma fold_union_has : forall {A} (g : A -> ty) v l init,
  has v init = true \/ Exists (fun s => has v (g s) = true) l ->
  has v (fold_left (fun acc s => union acc (g s)) l init) = true.
Proof.
  intros A g v. induction l as [|a r IH]; intros init H; cbn [fold_left].
  - destruct H as [H|H]; [exact H | inversion H].
  - apply IH. rewrite Exists_cons in H. destruct H as [H|[H|H]].
    + left. apply union_has. left. exact H.
    + left. apply union_has. right. exact H.
    + right. exact H.
Qed.

Lemma fold_union_unk_free : forall {A} (g : A -> ty) l init,
  unk_free init -> Forall (fun s => unk_free (g s)) l ->
  unk_free (fold_left (fun acc s => union acc (g s)) l init).
Proof.
  intros A g. induction l as [|a r IH]; intros init Hi Hl; cbn [fold_left]; [exact Hi|].
  inversion Hl; subst. apply IH; [apply union_unk_free|]; assumption.
Qed.

Lemma lit_has : forall l, has_b (lit_atom l) (lit_ty l) = true.
Proof. destruct l; try destruct b; reflexivity. Qed.

(** from [unknown] the value of the literal can be lost: [nd_base Unknown (BoolC false)] is [BoolC true]
    (the [BooleanConst] arm of [narrow_down_type] ignores the constant); a table literal is kept from any source *)
Lemma nd_base_lit : forall s l n, nd_base s (lit_ty l) = Some n ->
  n <> Unknown /\ (s <> Unknown \/ is_tablec (lit_ty l) = true -> has_b (lit_atom l) n = true).
Proof.
  intros s l n H. unfold nd_base in H.
  destruct (bty_eqb s (lit_ty l)) eqn:E.
  - apply bty_eqb_eq in E. inversion H. subst. split; [destruct l; discriminate | intros _; apply lit_has].
  - clear E. destruct l as [|[]| | | | |], s as [| | | |[]| | | | | | | | | |]; cbn in H; try discriminate H;
      inversion H; subst; (split; [discriminate | intros [Hs|Hs]; try reflexivity; contradiction || discriminate Hs]).
Qed.

Lemma narrow_down_members : forall a g n, narrow_down a g = Some n ->
  members n <> [] /\ forall m, In m (members n) -> exists s, In s (members a) /\ nd_base s g = Some m.
Proof.
  intros a g n H. unfold narrow_down in H. destruct a as [s|ms].
  - destruct (nd_base s g) as [m|] eqn:E; inversion H; subst. split; [discriminate|].
    intros m' [<-|[]]. exists s. split; [left; reflexivity | exact E].
  - destruct (filter_map (fun m => nd_base m g) ms) as [|y r] eqn:E; [discriminate H|].
    assert (n = from_vec (y :: r)) as -> by congruence. rewrite <- E.
    assert (filter_map (fun m => nd_base m g) ms <> []) as Hne by (rewrite E; discriminate).
    split.
    + intro En. destruct (from_vec_members _ y Hne) as [_ Hy]. rewrite En in Hy. apply Hy. rewrite E. left. reflexivity.
    + intros m Hm. apply (from_vec_members _ m Hne), filter_map_In in Hm. exact Hm.
Qed.

Lemma narrow_down_has : forall a g n v, narrow_down a g = Some n ->
  (forall s m, In s (members a) -> nd_base s g = Some m -> has_b v m = true) -> has v n = true.
Proof.
  intros a g n v H Hall. destruct (narrow_down_members a g n H) as [Hne Hm].
  destruct (members n) as [|m r] eqn:E; [contradiction|].
  apply has_members. exists m. rewrite E. split; [left; reflexivity|].
  destruct (Hm m (or_introl eq_refl)) as [s [Hin Hs]]. eapply Hall; eassumption.
Qed.

Lemma narrow_down_lit_has : forall a l n,
  narrow_down a (lit_ty l) = Some n -> unk_free a \/ is_tablec (lit_ty l) = true -> has (lit_atom l) n = true.
Proof.
  intros a l n H Hu. apply (narrow_down_has _ _ _ _ H). intros s m Hin Hs. apply (nd_base_lit _ _ _ Hs).
  destruct Hu as [Hu|Ht]; [left | right; exact Ht]. intros ->. apply unk_free_members in Hu. contradiction.
Qed.

Lemma narrow_tablec_lit_has : forall a l n, is_tablec (lit_ty l) = true -> narrow_down a (lit_ty l) = Some n -> has (lit_atom l) n = true.
Proof. intros a l n Ht H. apply (narrow_down_lit_has a l n H). right. exact Ht. Qed.

Lemma narrow_down_lit_unk_free : forall a l n, narrow_down a (lit_ty l) = Some n -> unk_free n.
Proof.
  intros a l n H. apply unk_free_members. intro Hin.
  destruct (proj2 (narrow_down_members a _ n H) _ Hin) as [s [_ Hs]]. apply nd_base_lit in Hs. destruct Hs. contradiction.
Qed.

Lemma lit_has_B : forall l, has (lit_atom l) (B (lit_ty l)) = true.
Proof. intro l. rewrite has_B. apply lit_has. Qed.

Lemma lit_unk_free : forall l, unk_free (B (lit_ty l)).
Proof. intro l. apply unk_free_B. destruct l; discriminate. Qed.

Lemma ty_eqb_B : forall n e, ty_eqb n (B e) = true -> n = B e.
Proof. intros n e H. destruct n as [x|l]; cbn in H; [|discriminate]. apply bty_eqb_eq in H. subst. reflexivity. Qed.

Lemma finish_assignment_cases : forall (P : ty -> Prop) src e reuse decl,
  P (B e) ->
  (forall n, narrow_down src e = Some n -> P n) ->
  (forall n, is_tablec e = true -> narrow_down (remove_false_or_nil decl) e = Some n -> P n) ->
  P (finish_assignment_result src e reuse decl).
Proof.
  intros P src e reuse decl Hlit Hsrc Hdecl.
  assert (P (if reuse || preserves e
             then match (if is_nil_ty src then None else narrow_down src e) with Some n => n | None => B e end
             else B e)) as G.
  { destruct (reuse || preserves e); [|exact Hlit]. destruct (is_nil_ty src); [exact Hlit|].
    destruct (narrow_down src e) eqn:E; [apply Hsrc; reflexivity | exact Hlit]. }
  unfold finish_assignment_result. cbv zeta. destruct e; try exact G.
  destruct (is_nil_ty src); [|exact G]. destruct (is_unknown_ty (remove_false_or_nil decl)); [exact G|].
  destruct (narrow_down (remove_false_or_nil decl) (TableC n)) eqn:E; [apply Hdecl; reflexivity | exact G].
Qed.

(** the antecedent [a] may be wrong; only the IgnoreConditions antecedent [ai] must have no [unknown] member *)
Lemma asg_from_has : forall a ai l d,
  unk_free ai -> has (lit_atom l) (asg_from a ai (lit_ty l) d) = true.
Proof.
  intros a ai l d Hu. unfold asg_from. destruct (can_reuse a (lit_ty l)) eqn:E;
    apply finish_assignment_cases; try apply lit_has_B; try apply narrow_tablec_lit_has.
  - intros n Hn. unfold can_reuse in E. destruct (is_tablec (lit_ty l)) eqn:Et; [eapply narrow_tablec_lit_has; eassumption|].
    destruct (lit_ty l) eqn:El; try discriminate Et; cbn [is_exact] in E; try discriminate E;
      rewrite Hn in E; apply ty_eqb_B in E; subst n; rewrite <- El; apply lit_has_B.
  - intros n Hn. apply (narrow_down_lit_has ai l n Hn). left. exact Hu.
Qed.

Lemma asg_from_unk_free : forall a ai l d, unk_free (asg_from a ai (lit_ty l) d).
Proof.
  intros. unfold asg_from.
  destruct (can_reuse a (lit_ty l)); apply finish_assignment_cases;
    try apply lit_unk_free; intros; eapply narrow_down_lit_unk_free; eassumption.
Qed.
