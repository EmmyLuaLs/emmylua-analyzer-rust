(** C15/Sound.v — the simulation between the semantics (A) and the inference (B), per variable. *)
From Coq Require Import List NArith Bool Arith Lia.
From EV Require Import C15.Model C15.Shape C15.TypeFacts.
Import ListNotations.

(** a flow node answers soundly for value [v]: all three modes admit [v] (and the node is reachable) *)
Definition okv (v : atom) (s : st) : Prop :=
  has v (sN s) = true /\ (exists m, sM s = Some m /\ has v m = true) /\ has v (sI s) = true.
(** only the IgnoreConditions answer has to be free of [unknown]: it is what an assignment falls back on ([asg_from]), and
    narrowing [unknown] to a literal can lose the literal ([TypeFacts.nd_base_lit]) *)
Definition wf_st (s : st) : Prop := unk_free (sI s).
Definition wf (f : flow) : Prop := Forall wf_st f.
(** some node of the flow value describes the path the execution took *)
Definition Inv (v : atom) (f : flow) : Prop := Exists (okv v) f.
Definition reach_ok (f : flow) : Prop := Exists (fun s => sM s <> None) f.
(** strict mode ([vin = None]): the flow covers the value.  Relaxed mode ([vin = Some v0]): or the value is still the
    one the variable had when the enclosing loop body was entered *)
Definition R (vin : option atom) (v : atom) (f : flow) : Prop := Inv v f \/ (vin = Some v /\ reach_ok f).

Lemma R_reach : forall vin v f, R vin v f -> reach_ok f.
Proof.
  intros vin v f [H|[_ H]]; [|exact H]. eapply Exists_impl; [|exact H].
  intros s [_ [[m [E _]] _]]. congruence.
Qed.

Lemma R_fin : forall vin v f d, R vin v f -> fin f d = f.
Proof. intros vin v f d H. apply R_reach in H. destruct H; reflexivity. Qed.

Lemma R_app : forall vin v f g, R vin v f \/ R vin v g -> R vin v (f ++ g).
Proof. intros vin v f g. unfold R, Inv, reach_ok. rewrite !Exists_app. tauto. Qed.

Lemma R_single : forall vin v s, okv v s \/ (vin = Some v /\ sM s <> None) -> R vin v [s].
Proof. intros vin v s [H|[E H]]; [left | right; split; [exact E|]]; apply Exists_cons_hd; exact H. Qed.

Lemma wf_fin : forall f g, wf f -> wf g -> wf (fin f g).
Proof. intros f g Hf Hg. destruct f; assumption. Qed.
Lemma wf_single : forall s, wf_st s -> wf [s].
Proof. intros s H. apply Forall_cons; [exact H | apply Forall_nil]. Qed.
Lemma wf_app : forall f g, wf f -> wf g -> wf (f ++ g).
Proof. intros f g Hf Hg. apply Forall_app. split; assumption. Qed.

Lemma okv_intro : forall v n m i, has v n = true -> has v m = true -> has v i = true -> okv v {| sN := n; sM := Some m; sI := i |}.
Proof. intros v n m i Hn Hm Hi. split; [exact Hn|]. split; [exists m; split; [reflexivity | exact Hm] | exact Hi]. Qed.

Lemma merge_okv : forall v l, Inv v l -> okv v (st_merge l).
Proof.
  intros v l H.
  assert (has v (fold_left (fun acc s => union acc (m_type (sM s))) l (B Never)) = true) as G.
  { apply fold_union_has. right. eapply Exists_impl; [|exact H]. intros s [_ [[m [E Hm]] _]]. rewrite E. exact Hm. }
  apply okv_intro; [exact G | exact G |].
  apply fold_union_has. right. eapply Exists_impl; [|exact H]. intros s Hs. apply Hs.
Qed.

Lemma force_okv : forall v f, Inv v f -> okv v (force f).
Proof.
  intros v f H. destruct f as [|s1 [|s2 r]]; [inversion H | | apply merge_okv; exact H].
  inversion H as [? ? H1|? ? H1]; [exact H1 | inversion H1].
Qed.

Lemma force_wf : forall f, wf f -> wf_st (force f).
Proof.
  intros f H. destruct f as [|s1 [|s2 r]]; [reflexivity | inversion H; assumption |].
  cbn [force]. unfold wf_st, st_merge. cbn [sI]. apply fold_union_unk_free; [reflexivity | exact H].
Qed.

Lemma force_reach : forall f, reach_ok f -> sM (force f) <> None.
Proof.
  intros f H. destruct f as [|s1 [|s2 r]]; [inversion H | | discriminate].
  inversion H as [? ? H1|? ? H1]; [exact H1 | inversion H1].
Qed.

Lemma R_force : forall vin v f, R vin v f -> R vin v [force f].
Proof.
  intros vin v f [H|[E H]]; apply R_single;
    [left; apply force_okv; exact H | right; split; [exact E | apply force_reach; exact H]].
Qed.

Lemma st_narrow_okv : forall v nw s, okv v s -> takes v nw -> okv v (st_narrow nw s).
Proof.
  intros v nw s [HN [[m [HM Hm]] HI]] Hs. unfold okv, st_narrow. cbn [sN sM sI]. rewrite HM.
  split; [apply apply_narrow_sound; assumption|]. split; [|exact HI].
  pose proof (apply_narrow_sound nw v m Hs Hm) as G.
  assert (is_never (apply_narrow nw m) = false) as Hn.
  { destruct (apply_narrow nw m) as [b|l]; [|reflexivity]. destruct b; try reflexivity.
    rewrite has_B, has_b_never in G. discriminate. }
  rewrite Hn. rewrite andb_false_r. eexists. split; [reflexivity | exact G].
Qed.

Lemma st_narrow_reach_other : forall nw s, wf_st s -> wf_st (st_narrow nw s).
Proof. intros nw s H. exact H. Qed.

Lemma st_assign_okv : forall l d s, sM s <> None -> wf_st s -> okv (lit_atom l) (st_assign (lit_ty l) d s).
Proof.
  intros l d s HM Hw. unfold st_assign. destruct (sM s) as [m|]; [|contradiction].
  destruct (preserves (lit_ty l)); apply okv_intro; try apply lit_has_B; apply asg_from_has; exact Hw.
Qed.

Lemma st_assign_wf : forall l d s, wf_st (st_assign (lit_ty l) d s).
Proof.
  intros l d s. unfold st_assign, wf_st.
  destruct (preserves (lit_ty l)); cbn [sI]; [apply asg_from_unk_free | apply lit_unk_free].
Qed.

Definition untested (vin : option atom) (tests : bool) : Prop := vin <> None -> tests = false.

Lemma untested_orb : forall vin a b, untested vin (a || b) -> untested vin a /\ untested vin b.
Proof. intros vin a b H. split; intro Hv; destruct (orb_false_elim _ _ (H Hv)); assumption. Qed.

Lemma untested_true : forall vin, untested vin true -> vin = None.
Proof. intros [v|] H; [discriminate (H ltac:(discriminate)) | reflexivity]. Qed.

(** the contributions of an atomic condition on [y] with narrows [mk] (the local definition in [bindc]) *)
Definition atomic (x y : nat) (mk : bool -> narrow) (cur : flow) : flow * flow :=
  let s := force cur in
  if Nat.eqb x y then ([st_narrow (mk true) s], [st_narrow (mk false) s]) else ([s], [s]).

Definition atom_of (c : cond) : option (nat * (bool -> narrow)) :=
  match c with
  | CType y t | CTypeF y t => Some (y, NGuard (guard_ty t))
  | CEqNil y | CEqNilF y => Some (y, NEqNil)
  | CNeNil y | CNeNilF y => Some (y, fun f => NEqNil (negb f))
  | CVar y => Some (y, NTruthy)
  | _ => None
  end.

Lemma atom_of_spec : forall c y mk, atom_of c = Some (y, mk) ->
  (forall x cur, bindc x c cur = atomic x y mk cur) /\ (forall x, ctests x c = Nat.eqb x y) /\
  (forall o env pos, takes (getv env y) (mk (fst (eval o c env pos)))).
Proof.
  intros c y mk E.
  destruct c; inversion E; subst; (split; [|split]); try reflexivity; intros o env pos; cbn [eval fst takes];
    rewrite ?negb_involutive; try reflexivity.
  all: eexists; split; reflexivity.
Qed.

Lemma bindc_atom_wf : forall x c y mk cur, atom_of c = Some (y, mk) ->
  wf cur -> wf (fst (bindc x c cur)) /\ wf (snd (bindc x c cur)).
Proof.
  intros x c y mk cur E H. rewrite (proj1 (atom_of_spec c y mk E)). apply force_wf in H. unfold atomic.
  destruct (Nat.eqb x y); split; apply wf_single; try apply st_narrow_reach_other; exact H.
Qed.

Lemma bindc_wf : forall x c cur, wf cur -> wf (fst (bindc x c cur)) /\ wf (snd (bindc x c cur)).
Proof.
  intros x. induction c as [y tg|y|y|y|k|a IHa|a IHa b IHb|a IHa b IHb|y tg|y|y]; intros cur Hw.
  1-4, 9-11: (eapply bindc_atom_wf; [reflexivity | exact Hw]).
  - apply force_wf, wf_single in Hw. split; exact Hw.
  - cbn [bindc]. destruct (IHa cur Hw) as [Ht Hf]. destruct (bindc x a cur). split; assumption.
  - cbn [bindc]. destruct (IHa cur Hw) as [Hta Hfa]. destruct (bindc x a cur) as [ta fa]. cbn [fst snd] in *.
    destruct (IHb (fin ta cur) (wf_fin _ _ Hta Hw)) as [Htb Hfb]. destruct (bindc x b (fin ta cur)).
    split; [exact Htb | apply wf_app; assumption].
  - cbn [bindc]. destruct (IHa cur Hw) as [Hta Hfa]. destruct (bindc x a cur) as [ta fa]. cbn [fst snd] in *.
    destruct (IHb (fin fa cur) (wf_fin _ _ Hfa Hw)) as [Htb Hfb]. destruct (bindc x b (fin fa cur)).
    split; [apply wf_app; assumption | exact Hfb].
Qed.

Lemma bindc_atom_sound : forall o x env vin c y mk cur pos, atom_of c = Some (y, mk) ->
  untested vin (ctests x c) -> R vin (getv env x) cur ->
  R vin (getv env x) (if fst (eval o c env pos) then fst (bindc x c cur) else snd (bindc x c cur)).
Proof.
  intros o x env vin c y mk cur pos E Ht HR. destruct (atom_of_spec c y mk E) as [Eb [Et Es]].
  rewrite Eb. rewrite Et in Ht. specialize (Es o env pos). unfold atomic. destruct (Nat.eqb x y) eqn:Exy.
  - apply Nat.eqb_eq in Exy. subst y. apply untested_true in Ht. subst vin. destruct HR as [HI|[Hv _]]; [|discriminate Hv].
    destruct (fst (eval o c env pos)); apply R_single; left; (apply st_narrow_okv; [apply force_okv; exact HI | exact Es]).
  - destruct (fst (eval o c env pos)); apply R_force; exact HR.
Qed.

Lemma bindc_sound : forall o x env vin c cur pos,
  untested vin (ctests x c) -> R vin (getv env x) cur ->
  R vin (getv env x) (if fst (eval o c env pos) then fst (bindc x c cur) else snd (bindc x c cur)).
Proof.
  intros o x env vin.
  induction c as [y tg|y|y|y|k|a IHa|a IHa b IHb|a IHa b IHb|y tg|y|y]; intros cur pos Ht HR.
  1-4, 9-11: (eapply bindc_atom_sound; [reflexivity | exact Ht | exact HR]).
  - cbn. destruct (o pos); apply R_force; exact HR.
  - specialize (IHa cur pos Ht HR). cbn [eval bindc].
    destruct (eval o a env pos) as [[] p], (bindc x a cur) as [t f]; exact IHa.
  - apply untested_orb in Ht. destruct Ht as [Hta Htb]. specialize (IHa cur pos Hta HR). cbn [eval bindc].
    destruct (eval o a env pos) as [[] p], (bindc x a cur) as [ta fa]; cbn [fst snd] in IHa.
    + rewrite (R_fin _ _ _ cur IHa). specialize (IHb ta p Htb IHa).
      destruct (eval o b env p) as [[] p'], (bindc x b ta) as [tb fb]; [exact IHb | apply R_app; right; exact IHb].
    + destruct (bindc x b (fin ta cur)). apply R_app. left. exact IHa.
  - apply untested_orb in Ht. destruct Ht as [Hta Htb]. specialize (IHa cur pos Hta HR). cbn [eval bindc].
    destruct (eval o a env pos) as [[] p], (bindc x a cur) as [ta fa]; cbn [fst snd] in IHa.
    + destruct (bindc x b (fin fa cur)). apply R_app. left. exact IHa.
    + rewrite (R_fin _ _ _ cur IHa). specialize (IHb fa p Htb IHa).
      destruct (eval o b env p) as [[] p'], (bindc x b fa) as [tb fb]; [apply R_app; right; exact IHb | exact IHb].
Qed.

Definition oc_of (r : res) : outcome := fst (fst (fst r)).
Definition env_of (r : res) : env_t := snd (fst (fst r)).

(** the four loop schemes are instances of one: [pre] decides whether an iteration starts, [pst] whether the loop
    ends after a completed body, [exh] is the outcome when the iterations run out.  The instances are convertible
    to the schemes of the model ([loop_while cnd bdy] is [gloop (OStop false) cnd cfalse bdy], and so on) *)
Definition ctrue (_ : env_t) (p : nat) : bool * nat := (true, p).
Definition cfalse (_ : env_t) (p : nat) : bool * nat := (false, p).

Section GLoop.
  Variable exh : outcome.
  Variables pre pst : env_t -> nat -> bool * nat.
  Variable bdy : env_t -> nat -> res.

  Fixpoint gloop (n : nat) (env : env_t) (pos : nat) : res :=
    match n with
    | O => (exh, env, pos, [])
    | S n' =>
        let '(v, p) := pre env pos in
        if v then after_body (bdy env p)
                   (fun env2 pos2 tr =>
                      let '(w, p2) := pst env2 pos2 in
                      if w then (ONormal, env2, p2, tr) else with_trace tr (gloop n' env2 p2))
        else (ONormal, env, p, [])
    end.

  Lemma gloop_trace : forall F : event -> Prop,
    (forall env pos, Forall F (snd (bdy env pos))) -> forall n env pos, Forall F (snd (gloop n env pos)).
  Proof.
    intros F Hb. induction n as [|n IH]; intros env pos; cbn [gloop]; [apply Forall_nil|].
    destruct (pre env pos) as [[] p]; [|apply Forall_nil].
    specialize (Hb env p). unfold after_body. destruct (bdy env p) as [[[[] e1] p1] tr1]; try exact Hb.
    destruct (pst e1 p1) as [[] p2]; [exact Hb|].
    specialize (IH e1 p2). destruct (gloop n e1 p2) as [[[oc2 e2] q2] tr2]. apply Forall_app. split; assumption.
  Qed.

  Lemma gloop_no_break : exh <> OBreak -> forall n env pos, oc_of (gloop n env pos) <> OBreak.
  Proof.
    intros Hx. induction n as [|n IH]; intros env pos; cbn [gloop]; [exact Hx|].
    destruct (pre env pos) as [[] p]; [|discriminate].
    unfold after_body. destruct (bdy env p) as [[[[] e1] p1] tr1]; try discriminate.
    destruct (pst e1 p1) as [[] p2]; [discriminate|].
    specialize (IH e1 p2). destruct (gloop n e1 p2) as [[[oc2 e2] q2] tr2]. exact IH.
  Qed.

  Lemma gloop_inv : forall P : env_t -> Prop,
    (forall env pos, P env -> P (env_of (bdy env pos))) -> forall n env pos, P env -> P (env_of (gloop n env pos)).
  Proof.
    intros P Hb. induction n as [|n IH]; intros env pos HP; cbn [gloop]; [exact HP|].
    destruct (pre env pos) as [[] p]; [|exact HP].
    specialize (Hb env p HP). unfold after_body. destruct (bdy env p) as [[[[] e1] p1] tr1]; try exact Hb.
    destruct (pst e1 p1) as [[] p2]; [exact Hb|].
    specialize (IH e1 p2 Hb). destruct (gloop n e1 p2) as [[[oc2 e2] q2] tr2]. exact IH.
  Qed.

  (** [Pin] at the start of every iteration, [P1] at the start of a later one: a normal exit establishes [Q], or the
      iterations ran out *)
  Variables Pin P1 Q : env_t -> Prop.
  Hypothesis P1_in : forall env, P1 env -> Pin env.
  Hypothesis step : forall env pos oc env' pos' tr, bdy env pos = (oc, env', pos', tr) -> Pin env ->
    (oc = ONormal -> P1 env') /\ (oc = OBreak -> Q env').
  Hypothesis exit_pre : forall env pos p, Pin env -> pre env pos = (false, p) -> Q env.
  Hypothesis exit_pst : forall env pos p, P1 env -> pst env pos = (true, p) -> Q env.

  Lemma gloop_sound : forall n env pos env' pos' tr,
    gloop n env pos = (ONormal, env', pos', tr) -> Pin env ->
    Q env' \/ (exh = ONormal /\ ((n = O /\ env' = env) \/ P1 env')).
  Proof.
    induction n as [|n IH]; intros env pos env' pos' tr H HP; cbn [gloop] in H.
    - inversion H; subst. right. split; [reflexivity | left; split; reflexivity].
    - destruct (pre env pos) as [[] p] eqn:Ep; [|inversion H; subst; left; eapply exit_pre; eassumption].
      unfold after_body in H. destruct (bdy env p) as [[[oc1 e1] p1] tr1] eqn:E1.
      destruct (step _ _ _ _ _ _ E1 HP) as [Hn Hb]. destruct oc1; [|inversion H; subst; left; apply Hb; reflexivity | discriminate H].
      specialize (Hn eq_refl). destruct (pst e1 p1) as [[] p2] eqn:Eq; [inversion H; subst; left; eapply exit_pst; eassumption|].
      destruct (gloop n e1 p2) as [[[oc2 e2] q2] tr2] eqn:E2. inversion H; subst.
      destruct (IH _ _ _ _ _ E2 (P1_in _ Hn)) as [G|[G1 [[_ ->]|G]]];
        [left; exact G | right; split; [exact G1 | right; exact Hn] | right; split; [exact G1 | right; exact G]].
  Qed.
End GLoop.

Scheme stmt_ind3 := Induction for stmt Sort Prop
  with rest_ind3 := Induction for rest Sort Prop
  with block_ind3 := Induction for block Sort Prop.
Combined Scheme syntax_ind from stmt_ind3, rest_ind3, block_ind3.

Lemma getv_setv_other : forall env x y v, Nat.eqb x y = false -> getv (setv env y v) x = getv env x.
Proof. intros env x y v H. unfold getv, setv. rewrite H. reflexivity. Qed.
Lemma getv_setv_same : forall env x v, getv (setv env x v) x = v.
Proof. intros env x v. unfold getv, setv. rewrite Nat.eqb_refl. reflexivity. Qed.

Section Equations.
  Variable o : nat -> bool.
  Variable fuel : nat.
  Lemma exec_while : forall inl c b env pos, exec_stmt o fuel inl (SWhile c b) env pos =
    gloop (OStop false) (eval o c) cfalse (exec_block o fuel true b) fuel env pos.
  Proof. reflexivity. Qed.
  Lemma exec_whiletrue : forall inl b env pos, exec_stmt o fuel inl (SWhileTrue b) env pos =
    gloop (OStop false) ctrue cfalse (exec_block o fuel true b) fuel env pos.
  Proof. reflexivity. Qed.
  Lemma exec_repeat : forall inl b c env pos, exec_stmt o fuel inl (SRepeat b c) env pos =
    gloop (OStop false) ctrue (eval o c) (exec_block o fuel true b) fuel env pos.
  Proof. reflexivity. Qed.
  Lemma exec_for : forall inl a z b env pos, exec_stmt o fuel inl (SFor a z b) env pos =
    gloop ONormal ctrue cfalse (exec_block o fuel true b) (N.to_nat (z + 1 - a)) env pos.
  Proof. reflexivity. Qed.
End Equations.

(** one step of [bstmt] or [bblock]: [simpl] unfolds and refolds [exec_stmt], [exec_rest], [exec_block] and [brest],
    but not these two *)
Ltac step_b x d := cbn [bstmt bblock]; fold (bstmt x d) (brest x d) (bblock x d).

Lemma andb_true_or_split : forall (a b : bool) (P : Prop), a && b = true \/ P -> (a = true \/ P) /\ (b = true \/ P).
Proof. intros a b P. rewrite andb_true_iff. tauto. Qed.

Section ExecFacts.
  Variable o : nat -> bool.
  Variable fuel : nat.

  Lemma gloop_preserves : forall x b exh pre pst,
    (forall inl env pos, getv (env_of (exec_block o fuel inl b env pos)) x = getv env x) ->
    forall n env pos, getv (env_of (gloop exh pre pst (exec_block o fuel true b) n env pos)) x = getv env x.
  Proof.
    intros x b exh pre pst Hb n env pos.
    apply (gloop_inv exh pre pst _ (fun e => getv e x = getv env x)); [|reflexivity].
    intros e p He. rewrite <- He. apply Hb.
  Qed.

  Lemma exec_preserves : forall x,
    (forall s, assigns_s x s = false -> forall inl env pos, getv (env_of (exec_stmt o fuel inl s env pos)) x = getv env x) /\
    (forall r, assigns_r x r = false -> forall inl env pos, getv (env_of (exec_rest o fuel inl r env pos)) x = getv env x) /\
    (forall b, assigns_b x b = false -> forall inl env pos, getv (env_of (exec_block o fuel inl b env pos)) x = getv env x).
  Proof.
    intro x.
    apply syntax_ind.
    - (* SAssign *) intros y l Ha inl env pos. apply getv_setv_other. exact Ha.
    - (* SProbe *) reflexivity.
    - (* SIf *) intros c t IHt r IHr Ha inl env pos. apply orb_false_elim in Ha. simpl exec_stmt.
      destruct (eval o c env pos) as [[] p]; [apply IHt | apply IHr]; apply Ha.
    - (* SWhile *) intros c b IHb Ha inl env pos. rewrite exec_while. apply gloop_preserves, IHb, Ha.
    - (* SWhileTrue *) intros b IHb Ha inl env pos. rewrite exec_whiletrue. apply gloop_preserves, IHb, Ha.
    - (* SRepeat *) intros b IHb c Ha inl env pos. rewrite exec_repeat. apply gloop_preserves, IHb, Ha.
    - (* SFor *) intros a z b IHb Ha inl env pos. rewrite exec_for. apply gloop_preserves, IHb, Ha.
    - (* SBreakIf *) intros c b IHb Ha inl env pos. simpl exec_stmt. destruct (eval o c env pos) as [[] p]; [|reflexivity].
      specialize (IHb Ha inl env p). destruct (exec_block o fuel inl b env p) as [[[[] e1] p1] tr1]; exact IHb.
    - (* SAssert *) intros c _ inl env pos. simpl exec_stmt. destruct (eval o c env pos) as [[] p]; reflexivity.
    - (* SReturnIf *) intros e c b IHb Ha inl env pos. simpl exec_stmt. destruct (eval o c env pos) as [[] p]; [|reflexivity].
      specialize (IHb Ha inl env p). destruct (exec_block o fuel inl b env p) as [[[[] e1] p1] tr1]; exact IHb.
    - (* RNone *) reflexivity.
    - (* RElse *) intros b IHb Ha inl env pos. apply IHb, Ha.
    - (* RElif *) intros c t IHt r IHr Ha inl env pos. apply orb_false_elim in Ha. simpl exec_rest.
      destruct (eval o c env pos) as [[] p]; [apply IHt | apply IHr]; apply Ha.
    - (* BNil *) reflexivity.
    - (* BCons *) intros s IHs b IHb Ha inl env pos. apply orb_false_elim in Ha. simpl exec_block.
      specialize (IHs (proj1 Ha) inl env pos). destruct (exec_stmt o fuel inl s env pos) as [[[[] e1] p1] tr1]; try exact IHs.
      specialize (IHb (proj2 Ha) inl e1 p1). destruct (exec_block o fuel inl b e1 p1) as [[[oc2 e2] p2] tr2].
      cbn [env_of fst snd with_trace] in *. congruence.
  Qed.

  Definition exec_preserves_b x := proj2 (proj2 (exec_preserves x)).

  Lemma exec_flags :
    (forall s inl env pos, loop_free_s s = true \/ inl = true ->
       Forall (fun e : event => snd e = inl) (snd (exec_stmt o fuel inl s env pos))) /\
    (forall r inl env pos, loop_free_r r = true \/ inl = true ->
       Forall (fun e : event => snd e = inl) (snd (exec_rest o fuel inl r env pos))) /\
    (forall b inl env pos, loop_free_b b = true \/ inl = true ->
       Forall (fun e : event => snd e = inl) (snd (exec_block o fuel inl b env pos))).
  Proof.
    apply syntax_ind.
    - (* SAssign *) intros y l inl env pos _. apply Forall_nil.
    - (* SProbe *) intros id y inl env pos _. apply Forall_cons; [reflexivity | apply Forall_nil].
    - (* SIf *) intros c t IHt r IHr inl env pos H. apply andb_true_or_split in H. simpl exec_stmt.
      destruct (eval o c env pos) as [[] p]; [apply IHt | apply IHr]; apply H.
    - (* SWhile *) intros c b IHb inl env pos [H| ->]; [discriminate H|]. rewrite exec_while.
      apply gloop_trace. intros. apply IHb. right. reflexivity.
    - (* SWhileTrue *) intros b IHb inl env pos [H| ->]; [discriminate H|]. rewrite exec_whiletrue.
      apply gloop_trace. intros. apply IHb. right. reflexivity.
    - (* SRepeat *) intros b IHb c inl env pos [H| ->]; [discriminate H|]. rewrite exec_repeat.
      apply gloop_trace. intros. apply IHb. right. reflexivity.
    - (* SFor *) intros a z b IHb inl env pos [H| ->]; [discriminate H|]. rewrite exec_for.
      apply gloop_trace. intros. apply IHb. right. reflexivity.
    - (* SBreakIf *) intros c b IHb inl env pos [H| ->]; [discriminate H|]. simpl exec_stmt.
      destruct (eval o c env pos) as [[] p]; [|apply Forall_nil].
      specialize (IHb true env p (or_intror eq_refl)). destruct (exec_block o fuel true b env p) as [[[[] e1] p1] tr1]; exact IHb.
    - (* SAssert *) intros c inl env pos _. simpl exec_stmt. destruct (eval o c env pos) as [[] p]; apply Forall_nil.
    - (* SReturnIf *) intros e c b IHb inl env pos H. simpl exec_stmt.
      destruct (eval o c env pos) as [[] p]; [|apply Forall_nil].
      specialize (IHb inl env p H). destruct (exec_block o fuel inl b env p) as [[[[] e1] p1] tr1]; exact IHb.
    - (* RNone *) intros inl env pos _. apply Forall_nil.
    - (* RElse *) intros b IHb inl env pos H. simpl exec_rest. apply IHb. exact H.
    - (* RElif *) intros c t IHt r IHr inl env pos H. apply andb_true_or_split in H. simpl exec_rest.
      destruct (eval o c env pos) as [[] p]; [apply IHt | apply IHr]; apply H.
    - (* BNil *) intros inl env pos _. apply Forall_nil.
    - (* BCons *) intros s IHs b IHb inl env pos H. apply andb_true_or_split in H. simpl exec_block.
      specialize (IHs inl env pos (proj1 H)). destruct (exec_stmt o fuel inl s env pos) as [[[[] e1] p1] tr1]; try exact IHs.
      specialize (IHb inl e1 p1 (proj2 H)). destruct (exec_block o fuel inl b e1 p1) as [[[oc2 e2] p2] tr2].
      apply Forall_app. split; assumption.
  Qed.

  Definition exec_flags_b := proj2 (proj2 exec_flags).
End ExecFacts.

Definition wf_res (a : bres) : Prop := let '(c, b, _) := a in wf c /\ wf b.

Section BFacts.
  Variable x : nat.
  Variable d : ty.

  Lemma guard_wf : forall c b inl from cur, (forall inl cur, wf cur -> wf_res (bblock x d inl b cur)) -> wf from -> wf cur ->
    wf (snd (bindc x c from)) /\ wf_res (bblock x d inl b (fin (fst (bindc x c from)) cur)).
  Proof.
    intros c b inl from cur IHb Hf Hw. destruct (bindc_wf x c from Hf) as [Htl Hfl].
    split; [exact Hfl | apply IHb, wf_fin; assumption].
  Qed.

  Lemma if_wf : forall c t r inl from cur,
    (forall inl cur, wf cur -> wf_res (bblock x d inl t cur)) ->
    (forall inl el cur, wf el -> wf cur -> wf_res (brest x d inl r el cur)) -> wf from -> wf cur ->
    wf_res (let '(tl, fl) := bindc x c from in
            let '(e, br, pr) := bblock x d inl t (fin tl cur) in
            let '(e2, br2, pr2) := brest x d inl r fl cur in (e ++ e2, br ++ br2, pr ++ pr2)).
  Proof.
    intros c t r inl from cur IHt IHr Hf Hw. destruct (guard_wf c t inl from cur IHt Hf Hw) as [Hfl Ht].
    destruct (bindc x c from) as [tl fl]. cbn [fst snd] in *. specialize (IHr inl fl cur Hfl Hw).
    destruct (bblock x d inl t (fin tl cur)) as [[e br] pr], (brest x d inl r fl cur) as [[e2 br2] pr2].
    split; apply wf_app; (apply Ht || apply IHr).
  Qed.

  Lemma bstmt_wf :
    (forall s inl cur, wf cur -> wf_res (bstmt x d inl s cur)) /\
    (forall r inl el cur, wf el -> wf cur -> wf_res (brest x d inl r el cur)) /\
    (forall b inl cur, wf cur -> wf_res (bblock x d inl b cur)).
  Proof.
    apply syntax_ind.
    - (* SAssign *) intros y l inl cur Hw. cbn [bstmt].
      destruct (Nat.eqb x y); (split; [apply wf_single | apply Forall_nil]); [apply st_assign_wf | apply force_wf; exact Hw].
    - (* SProbe *) intros id y inl cur Hw. cbn [bstmt].
      destruct (Nat.eqb x y); (split; [apply wf_single, force_wf; exact Hw | apply Forall_nil]).
    - (* SIf *) intros c t IHt r IHr inl cur Hw. step_b x d. apply if_wf; assumption.
    - (* SWhile *) intros c b IHb inl cur Hw. step_b x d.
      destruct (bindc x c cur) as [tl fl], (bblock x d true b (fin tl cur)) as [[e br] pr]. split; [exact Hw | apply Forall_nil].
    - (* SWhileTrue *) intros b IHb inl cur Hw. step_b x d. destruct (is_bnil b); [split; [exact Hw | apply Forall_nil]|].
      specialize (IHb true cur Hw). destruct (bblock x d true b cur) as [[e br] pr].
      split; [apply wf_app; apply IHb | apply Forall_nil].
    - (* SRepeat *) intros b IHb c inl cur Hw. step_b x d.
      specialize (IHb true cur Hw). destruct (bblock x d true b cur) as [[e br] pr]. destruct IHb as [He Hbr].
      destruct (bindc_wf x c e He) as [Htl _]. destruct (bindc x c e) as [tl fl].
      split; [apply wf_fin; [apply wf_app|]; assumption | apply Forall_nil].
    - (* SFor *) intros a z b IHb inl cur Hw. step_b x d. destruct (is_bnil b); [split; [exact Hw | apply Forall_nil]|].
      specialize (IHb true [force cur] (wf_single _ (force_wf _ Hw))). destruct (bblock x d true b [force cur]) as [[e br] pr].
      destruct (N.leb a z); (split; [|apply Forall_nil]); [apply wf_app; apply IHb | exact Hw].
    - (* SBreakIf *) intros c b IHb inl cur Hw. step_b x d. destruct (guard_wf c b inl cur cur IHb Hw Hw) as [Hfl Hb].
      destruct (bindc x c cur) as [tl fl]. cbn [fst snd] in *. destruct (bblock x d inl b (fin tl cur)) as [[e br] pr].
      split; [exact Hfl | apply wf_app; [apply Hb | apply wf_single, force_wf, Hb]].
    - (* SAssert *) intros c inl cur Hw. step_b x d. destruct (bindc_wf x c cur Hw) as [Htl _]. destruct (bindc x c cur) as [tl fl].
      split; [apply wf_fin; assumption | apply Forall_nil].
    - (* SReturnIf *) intros e c b IHb inl cur Hw. step_b x d. destruct (guard_wf c b inl cur cur IHb Hw Hw) as [Hfl Hb].
      destruct (bindc x c cur) as [tl fl]. cbn [fst snd] in *. destruct (bblock x d inl b (fin tl cur)) as [[e0 br] pr].
      split; [exact Hfl | apply Hb].
    - (* RNone *) intros inl el cur Hel Hw. split; [exact Hel | apply Forall_nil].
    - (* RElse *) intros b IHb inl el cur Hel Hw. simpl brest. apply IHb. exact Hel.
    - (* RElif *) intros c t IHt r IHr inl el cur Hel Hw. simpl brest. apply if_wf; try assumption. apply wf_fin; assumption.
    - (* BNil *) intros inl cur Hw. split; [exact Hw | apply Forall_nil].
    - (* BCons *) intros s IHs b IHb inl cur Hw. step_b x d.
      specialize (IHs inl cur Hw). destruct (bstmt x d inl s cur) as [[c1 br1] pr1]. destruct IHs as [H1 H2].
      specialize (IHb inl c1 H1). destruct (bblock x d inl b c1) as [[c2 br2] pr2].
      split; [apply IHb | apply wf_app; [exact H2 | apply IHb]].
  Qed.

  Lemma bstmt_no_break :
    (forall s inl cur cur' brks prs, own_break_s s = false -> bstmt x d inl s cur = (cur', brks, prs) -> brks = []) /\
    (forall r inl el cur cur' brks prs, own_break_r r = false -> brest x d inl r el cur = (cur', brks, prs) -> brks = []) /\
    (forall b inl cur cur' brks prs, own_break_b b = false -> bblock x d inl b cur = (cur', brks, prs) -> brks = []).
  Proof.
    apply syntax_ind.
    - (* SAssign *) intros y l inl cur cur' brks prs _ H. cbn in H. destruct (Nat.eqb x y); inversion H; reflexivity.
    - (* SProbe *) intros id y inl cur cur' brks prs _ H. cbn in H. destruct (Nat.eqb x y); inversion H; reflexivity.
    - (* SIf *) intros c t IHt r IHr inl cur cur' brks prs Hb H. apply orb_false_elim in Hb. destruct Hb as [Hb1 Hb2].
      revert H. step_b x d. intro H. destruct (bindc x c cur) as [tl fl].
      destruct (bblock x d inl t (fin tl cur)) as [[e br] pr] eqn:Et.
      destruct (brest x d inl r fl cur) as [[e2 br2] pr2] eqn:Er. inversion H; subst.
      rewrite (IHt _ _ _ _ _ Hb1 Et). rewrite (IHr _ _ _ _ _ _ Hb2 Er). reflexivity.
    - (* SWhile *) intros c b _ inl cur cur' brks prs _. step_b x d. intro H.
      destruct (bindc x c cur) as [tl fl]. destruct (bblock x d true b (fin tl cur)) as [[e br] pr]. inversion H; reflexivity.
    - (* SWhileTrue *) intros b _ inl cur cur' brks prs _. step_b x d. intro H.
      destruct (is_bnil b); [inversion H; reflexivity|]. destruct (bblock x d true b cur) as [[e br] pr]. inversion H; reflexivity.
    - (* SRepeat *) intros b _ c inl cur cur' brks prs _. step_b x d. intro H.
      destruct (bblock x d true b cur) as [[e br] pr]. destruct (bindc x c e) as [tl fl]. inversion H; reflexivity.
    - (* SFor *) intros a z b _ inl cur cur' brks prs _. step_b x d. intro H.
      destruct (is_bnil b); [inversion H; reflexivity|]. destruct (bblock x d true b [force cur]) as [[e br] pr].
      destruct (N.leb a z); inversion H; reflexivity.
    - (* SBreakIf *) intros c b _ inl cur cur' brks prs Hb H. discriminate Hb.
    - (* SAssert *) intros c inl cur cur' brks prs _. step_b x d. intro H. destruct (bindc x c cur) as [tl fl]. inversion H; reflexivity.
    - (* SReturnIf *) intros e c b IHb inl cur cur' brks prs Hb. step_b x d. intro H.
      destruct (bindc x c cur) as [tl fl]. destruct (bblock x d inl b (fin tl cur)) as [[e0 br] pr] eqn:Eb.
      inversion H; subst. eapply IHb; eassumption.
    - (* RNone *) intros inl el cur cur' brks prs _ H. inversion H; reflexivity.
    - (* RElse *) intros b IHb inl el cur cur' brks prs Hb H. simpl brest in H. eapply IHb; eassumption.
    - (* RElif *) intros c t IHt r IHr inl el cur cur' brks prs Hb H. apply orb_false_elim in Hb. destruct Hb as [Hb1 Hb2].
      simpl brest in H. destruct (bindc x c (fin el cur)) as [tl fl].
      destruct (bblock x d inl t (fin tl cur)) as [[e br] pr] eqn:Et.
      destruct (brest x d inl r fl cur) as [[e2 br2] pr2] eqn:Er. inversion H; subst.
      rewrite (IHt _ _ _ _ _ Hb1 Et). rewrite (IHr _ _ _ _ _ _ Hb2 Er). reflexivity.
    - (* BNil *) intros inl cur cur' brks prs _ H. inversion H; reflexivity.
    - (* BCons *) intros s IHs b IHb inl cur cur' brks prs Hb H. apply orb_false_elim in Hb. destruct Hb as [Hb1 Hb2].
      revert H. step_b x d. intro H. destruct (bstmt x d inl s cur) as [[c1 br1] pr1] eqn:Es.
      destruct (bblock x d inl b c1) as [[c2 br2] pr2] eqn:Eb. inversion H; subst.
      rewrite (IHs _ _ _ _ _ Hb1 Es). rewrite (IHb _ _ _ _ _ Hb2 Eb). reflexivity.
  Qed.
End BFacts.

Section Main.
  Variable o : nat -> bool.
  Variable fuel : nat.
  Variable x : nat.
  Variable d : ty.

  Definition tr_ok (vin : option atom) (tr : list event) (prs : list pinfo) : Prop :=
    vin = None -> forall id v, In (id, x, v, false) tr -> exists t, In (id, false, t) prs /\ has v t = true.

  Definition post (vin : option atom) (r : res) (a : bres) : Prop :=
    let '(oc, env', _, tr) := r in
    let '(cur', brks, prs) := a in
    (oc = ONormal -> R vin (getv env' x) cur') /\ (oc = OBreak -> R vin (getv env' x) brks) /\ tr_ok vin tr prs.

  Definition Sound_s (s : stmt) : Prop := forall inl vin env pos cur,
    ok_loops_s x s = true -> untested vin (tests_s x s) -> R vin (getv env x) cur -> wf cur ->
    post vin (exec_stmt o fuel inl s env pos) (bstmt x d inl s cur).

  Definition Sound_r (r : rest) : Prop := forall inl vin env pos el cur,
    ok_loops_r x r = true -> untested vin (tests_r x r) -> R vin (getv env x) el -> wf el -> wf cur ->
    post vin (exec_rest o fuel inl r env pos) (brest x d inl r el cur).

  Definition Sound_b (b : block) : Prop := forall inl vin env pos cur,
    ok_loops_b x b = true -> untested vin (tests_b x b) -> R vin (getv env x) cur -> wf cur ->
    post vin (exec_block o fuel inl b env pos) (bblock x d inl b cur).

  Lemma tr_ok_incl : forall vin tr p q, incl p q -> tr_ok vin tr p -> tr_ok vin tr q.
  Proof.
    intros vin tr p q Hi H Hv id v Hin. destruct (H Hv id v Hin) as [t [Ht Hh]].
    exists t. split; [apply Hi; exact Ht | exact Hh].
  Qed.

  Lemma tr_ok_app : forall vin tr1 tr2 p1 p2,
    tr_ok vin tr1 p1 -> tr_ok vin tr2 p2 -> tr_ok vin (tr1 ++ tr2) (p1 ++ p2).
  Proof.
    intros vin tr1 tr2 p1 p2 H1 H2 Hv id v Hin. apply in_app_iff in Hin. destruct Hin as [Hin|Hin].
    - apply (tr_ok_incl _ _ _ _ (incl_appl p2 (incl_refl p1)) H1 Hv id v Hin).
    - apply (tr_ok_incl _ _ _ _ (incl_appr p1 (incl_refl p2)) H2 Hv id v Hin).
  Qed.

  Lemma post_app : forall vin r e br pr e2 br2 pr2,
    post vin r (e, br, pr) \/ post vin r (e2, br2, pr2) -> post vin r (e ++ e2, br ++ br2, pr ++ pr2).
  Proof.
    intros vin [[[oc env'] pos'] tr] e br pr e2 br2 pr2 H. split; [|split].
    - intro Hoc. apply R_app. destruct H as [[Hn _]|[Hn _]]; [left | right]; apply Hn; exact Hoc.
    - intro Hoc. apply R_app. destruct H as [[_ [Hb _]]|[_ [Hb _]]]; [left | right]; apply Hb; exact Hoc.
    - destruct H as [[_ [_ Ht]]|[_ [_ Ht]]]; revert Ht; apply tr_ok_incl; [apply incl_appl | apply incl_appr]; apply incl_refl.
  Qed.

  Lemma post_nil : forall vin oc env p cur' brks prs,
    oc <> OBreak -> (oc = ONormal -> R vin (getv env x) cur') -> post vin (oc, env, p, []) (cur', brks, prs).
  Proof. intros vin oc env p cur' brks prs Hb Hn. split; [exact Hn | split; [intro H; contradiction | intros _ id v []]]. Qed.

  (** a loop: its events are flagged, it does not end in [OBreak] *)
  Lemma post_loop : forall vin exh pre pst b n env pos out pr, exh <> OBreak ->
    (forall env' pos' tr, gloop exh pre pst (exec_block o fuel true b) n env pos = (ONormal, env', pos', tr) ->
       R vin (getv env' x) out) ->
    post vin (gloop exh pre pst (exec_block o fuel true b) n env pos) (out, [], pr).
  Proof.
    intros vin exh pre pst b n env pos out pr Hx Hn.
    pose proof (gloop_no_break exh pre pst (exec_block o fuel true b) Hx n env pos) as Hnb.
    pose proof (gloop_trace exh pre pst (exec_block o fuel true b) _
                  (fun e p => exec_flags_b o fuel b true e p (or_intror eq_refl)) n env pos) as Htr.
    destruct (gloop exh pre pst (exec_block o fuel true b) n env pos) as [[[oc env'] pos'] tr].
    split; [intros ->; eapply Hn; reflexivity | split; [intro H; contradiction|]].
    intros _ id v Hin. rewrite Forall_forall in Htr. specialize (Htr _ Hin). discriminate Htr.
  Qed.

  Lemma loop_unassigned_sound : forall vin exh pre pst b n env pos cur pr,
    exh <> OBreak -> assigns_b x b = false -> R vin (getv env x) cur ->
    post vin (gloop exh pre pst (exec_block o fuel true b) n env pos) (cur, [], pr).
  Proof.
    intros vin exh pre pst b n env pos cur pr Hx Ha HR. apply post_loop; [exact Hx|]. intros env' pos' tr HE.
    pose proof (gloop_preserves o fuel x b exh pre pst (exec_preserves_b o fuel x b Ha) n env pos) as Hp.
    rewrite HE in Hp. cbn [env_of fst snd] in Hp. rewrite Hp. exact HR.
  Qed.

  Lemma guard_sound : forall c b, Sound_b b -> forall inl vin env pos from cur,
    ok_loops_b x b = true -> untested vin (ctests x c) -> untested vin (tests_b x b) ->
    R vin (getv env x) from -> wf from ->
    let '(v, p) := eval o c env pos in
    let '(tl, fl) := bindc x c from in
    wf fl /\ if v then post vin (exec_block o fuel inl b env p) (bblock x d inl b (fin tl cur))
             else R vin (getv env x) fl.
  Proof.
    intros c b IHb inl vin env pos from cur Hok Htc Htb HR Hw.
    pose proof (bindc_sound o x env vin c from pos Htc HR) as HS. destruct (bindc_wf x c from Hw) as [Htl Hfl].
    destruct (eval o c env pos) as [[] p], (bindc x c from) as [tl fl]; cbn [fst snd] in *; (split; [exact Hfl|]); [|exact HS].
    rewrite (R_fin _ _ _ cur HS). apply IHb; assumption.
  Qed.

  Lemma if_sound : forall c t r, Sound_b t -> Sound_r r -> forall inl vin env pos from cur,
    ok_loops_b x t && ok_loops_r x r = true -> untested vin (ctests x c || tests_b x t || tests_r x r) ->
    R vin (getv env x) from -> wf from -> wf cur ->
    post vin
      (let '(v, p) := eval o c env pos in if v then exec_block o fuel inl t env p else exec_rest o fuel inl r env p)
      (let '(tl, fl) := bindc x c from in
       let '(e, br, pr) := bblock x d inl t (fin tl cur) in
       let '(e2, br2, pr2) := brest x d inl r fl cur in (e ++ e2, br ++ br2, pr ++ pr2)).
  Proof.
    intros c t r IHt IHr inl vin env pos from cur Hok Ht HR Hwf Hw.
    apply andb_true_iff in Hok. destruct Hok as [Hokt Hokr].
    apply untested_orb in Ht. destruct Ht as [Ht Htr]. apply untested_orb in Ht. destruct Ht as [Htc Htt].
    pose proof (guard_sound c t IHt inl vin env pos from cur Hokt Htc Htt HR Hwf) as G.
    destruct (eval o c env pos) as [[] p], (bindc x c from) as [tl fl]; destruct G as [Hfl G].
    - destruct (bblock x d inl t (fin tl cur)) as [[e br] pr], (brest x d inl r fl cur) as [[e2 br2] pr2].
      apply post_app. left. exact G.
    - specialize (IHr inl vin env p fl cur Hokr Htr G Hfl Hw).
      destruct (bblock x d inl t (fin tl cur)) as [[e br] pr], (brest x d inl r fl cur) as [[e2 br2] pr2].
      apply post_app. right. exact IHr.
  Qed.

  (** invariants at the start of a later, and of any, iteration of a loop whose body [b] is analysed once from [cur] with
      end [eflow] *)
  Definition later_iter (vin : option atom) (b : block) (cur eflow : flow) (e : env_t) : Prop :=
    R vin (getv e x) eflow /\ (assigns_b x b = false -> R vin (getv e x) cur) /\ reach_ok cur.
  Definition any_iter (vin : option atom) (b : block) (cur eflow : flow) (e : env_t) : Prop :=
    R vin (getv e x) cur \/ later_iter vin b cur eflow e.

  (** one run of the body against its one analysis from [cur].  A break leaves with a value that [br] covers, or, in a later
      iteration of a body that assigns [x], with a value that only [eflow] is known to cover *)
  Lemma body_step : forall b vin cur eflow br pr,
    Sound_b b ->
    bblock x d true b cur = (eflow, br, pr) ->
    ok_loops_b x b = true -> untested vin (tests_b x b) ->
    negb (assigns_b x b) || negb (tests_b x b) = true -> wf cur ->
    forall env pos oc env' pos' tr, exec_block o fuel true b env pos = (oc, env', pos', tr) -> any_iter vin b cur eflow env ->
      (oc = ONormal -> later_iter vin b cur eflow env') /\
      (oc = OBreak -> reach_ok br /\ (R vin (getv env' x) br \/ (assigns_b x b = true /\ R vin (getv env' x) eflow))).
  Proof.
    intros b vin cur eflow br pr IHb HB Hok Ht Hcls Hw env pos oc env' pos' tr HE HP.
    assert (forall vin', untested vin' (tests_b x b) -> R vin' (getv env x) cur ->
              (oc = ONormal -> R vin' (getv env' x) eflow) /\ (oc = OBreak -> R vin' (getv env' x) br)) as Run.
    { intros vin' Ht' HR'. pose proof (IHb true vin' env pos cur Hok Ht' HR' Hw) as G. rewrite HE, HB in G.
      destruct G as [Hn [Hb _]]. split; assumption. }
    assert (R vin (getv env x) cur ->
            (oc = ONormal -> later_iter vin b cur eflow env') /\
            (oc = OBreak -> reach_ok br /\ (R vin (getv env' x) br \/ (assigns_b x b = true /\ R vin (getv env' x) eflow)))) as Common.
    { intro HRc. destruct (Run vin Ht HRc) as [Hn Hb]. split.
      - intro Hoc. split; [apply Hn; exact Hoc|]. split; [|eapply R_reach; exact HRc].
        intro Ha. pose proof (exec_preserves_b o fuel x b Ha true env pos) as Hp. rewrite HE in Hp. cbn [env_of fst snd] in Hp.
        rewrite Hp. exact HRc.
      - intro Hoc. split; [eapply R_reach | left]; apply Hb; exact Hoc. }
    destruct HP as [HRc|[HRe [Hna Hrc]]]; [apply Common; exact HRc|].
    destruct (assigns_b x b) eqn:Ea; [|apply Common; apply Hna; reflexivity].
    (* a later iteration of a body that assigns [x], hence ([Hcls]) does not test it: [cur] does not describe the value at
       entry, so the body is run in relaxed mode with that value as [vin].  It needs only [reach_ok cur], and at the
       end either an assignment has made the flow right again or the value is still the entry value, which [eflow] covers *)
    assert (R (Some (getv env x)) (getv env x) cur) as HRr by (right; split; [reflexivity | exact Hrc]).
    apply negb_true_iff in Hcls.
    destruct (Run (Some (getv env x)) (fun _ => Hcls) HRr) as [Hn Hb]. split.
    - intro Hoc. split; [|split; [intro Hc; rewrite Ea in Hc; discriminate Hc | exact Hrc]].
      destruct (Hn Hoc) as [Hi|[Heq _]]; [left; exact Hi|]. replace (getv env' x) with (getv env x) by congruence. exact HRe.
    - intro Hoc. split; [eapply R_reach; apply Hb; exact Hoc|]. destruct (Hb Hoc) as [Hi|[Heq _]]; [left; left; exact Hi|].
      right. split; [reflexivity|]. replace (getv env' x) with (getv env x) by congruence. exact HRe.
  Qed.

  (** a loop that is entered.  The flow [out] after the loop has to take in: the breaks; the end of the body, where a later
      iteration can break out with a newly assigned value; what the exit condition makes of the end of the body; and the
      end of the body when the loop ends by running out of iterations *)
  Lemma entered_loop : forall b vin cur exh pst n env pos,
    Sound_b b -> ok_loops_b x b = true -> untested vin (tests_b x b) ->
    negb (assigns_b x b) || negb (tests_b x b) = true -> wf cur -> R vin (getv env x) cur -> exh <> OBreak ->
    let '(e, br, pr) := bblock x d true b cur in
    forall out,
    (forall v, R vin v br -> R vin v out) ->
    (forall v, assigns_b x b = true -> own_break_b b = true -> R vin v e -> R vin v out) ->
    (forall en p p', R vin (getv en x) e -> pst en p = (true, p') -> R vin (getv en x) out) ->
    (exh = ONormal -> n <> O /\ forall v, R vin v e -> R vin v out) ->
    post vin (gloop exh ctrue pst (exec_block o fuel true b) n env pos) (out, [], pr).
  Proof.
    intros b vin cur exh pst n env pos IHb Hok Ht Hcls Hw HR Hx.
    destruct (bblock x d true b cur) as [[e br] pr] eqn:EB. intros out Hbr Hbrk Hpst Hexh.
    apply post_loop; [exact Hx|]. intros env' pos' tr HE.
    destruct (gloop_sound exh ctrue pst (exec_block o fuel true b) (any_iter vin b cur e) (later_iter vin b cur e)
                (fun en => R vin (getv en x) out)) with (5 := HE) as [G|[G1 [[G _]|[G _]]]].
    - (* P1_in *) intros en HP. right. exact HP.
    - (* step *) intros en p oc1 en1 p1 tr1 Hbd HPi.
      destruct (body_step b vin cur e br pr IHb EB Hok Ht Hcls Hw _ _ _ _ _ _ Hbd HPi) as [S1 S2]. split; [exact S1|].
      intro Hoc. destruct (S2 Hoc) as [Hrb [Hl|[Ha Hr]]]; [apply Hbr; exact Hl|].
      destruct (own_break_b b) eqn:Eo; [apply Hbrk; trivial|].
      rewrite (proj2 (proj2 (bstmt_no_break x d)) b true cur e br pr Eo EB) in Hrb. inversion Hrb.
    - (* exit_pre: [ctrue] never refuses *) discriminate.
    - (* exit_pst *) intros en p p' [HRe _] Hev. eapply Hpst; eassumption.
    - (* Pin env *) left. exact HR.
    - (* left by break or exit condition *) exact G.
    - (* iterations ran out before the first *) destruct (Hexh G1) as [Hn _]. contradiction.
    - (* iterations ran out after a completed body *) apply Hexh; assumption.
  Qed.

  Theorem sound_all : (forall s, Sound_s s) /\ (forall r, Sound_r r) /\ (forall b, Sound_b b).
  Proof.
    apply syntax_ind.
    - (* SAssign *) intros y l inl vin env pos cur _ _ HR Hw. cbn [exec_stmt bstmt].
      destruct (Nat.eqb x y) eqn:Exy; (apply post_nil; [discriminate | intros _]).
      + apply Nat.eqb_eq in Exy. subst y. rewrite getv_setv_same. apply R_single. left.
        apply st_assign_okv; [apply force_reach; eapply R_reach; exact HR | apply force_wf; exact Hw].
      + rewrite getv_setv_other by exact Exy. apply R_force. exact HR.
    - (* SProbe *) intros id y inl vin env pos cur _ _ HR Hw. cbn [exec_stmt bstmt].
      destruct (Nat.eqb x y) eqn:Exy; (split; [intros _; apply R_force; exact HR | split; [discriminate|]]);
        intros Hv id' v [Heq|[]]; inversion Heq; subst.
      + exists (sN (force cur)). split; [left; reflexivity|].
        destruct HR as [HI|[Hc _]]; [|discriminate Hc]. apply force_okv in HI. apply HI.
      + rewrite Nat.eqb_refl in Exy. discriminate.
    - (* SIf *) intros c t IHt r IHr inl vin env pos cur Hok Ht HR Hw. simpl exec_stmt. step_b x d. apply if_sound; assumption.
    - (* SWhile: the flow after the loop is the flow before it *)
      intros c b IHb inl vin env pos cur Hok Ht HR Hw. rewrite exec_while. step_b x d.
      cbn [ok_loops_s] in Hok. apply andb_true_iff in Hok. destruct Hok as [Hna _]. apply negb_true_iff in Hna.
      destruct (bindc x c cur) as [tl fl], (bblock x d true b (fin tl cur)) as [[e br] pr].
      apply loop_unassigned_sound; [discriminate | exact Hna | exact HR].
    - (* SWhileTrue: for an empty body both answers of [bstmt] coincide *)
      intros b IHb inl vin env pos cur Hok Ht HR Hw. rewrite exec_whiletrue. step_b x d.
      assert (post vin (gloop (OStop false) ctrue cfalse (exec_block o fuel true b) fuel env pos)
                (let '(e, br, pr) := bblock x d true b cur in (br ++ e, [], pr))) as G; [|destruct b; exact G].
      cbn [ok_loops_s] in Hok. apply andb_true_iff in Hok. destruct Hok as [Hcl Hokb].
      pose proof (entered_loop b vin cur (OStop false) cfalse fuel env pos IHb Hokb Ht) as L.
      destruct (bblock x d true b cur) as [[e br] pr].
      apply L; [exact Hcl | exact Hw | exact HR | discriminate | | | discriminate | discriminate].
      + intros v H. apply R_app. left. exact H.
      + intros v _ _ H. apply R_app. right. exact H.
    - (* SRepeat *) intros b IHb c inl vin env pos cur Hok Ht HR Hw. rewrite exec_repeat. step_b x d.
      cbn [ok_loops_s] in Hok. apply andb_true_iff in Hok. destruct Hok as [Hcl Hokb]. apply untested_orb in Ht. destruct Ht as [Htb Htc].
      pose proof (entered_loop b vin cur (OStop false) (eval o c) fuel env pos IHb Hokb Htb) as L.
      destruct (bblock x d true b cur) as [[e br] pr]. destruct (bindc x c e) as [tl fl] eqn:Ec.
      assert (forall v, R vin v (br ++ tl) -> R vin v (fin (br ++ tl) e)) as Hfin by (intros v H; rewrite (R_fin _ _ _ e H); exact H).
      apply L; [destruct (assigns_b x b), (tests_b x b); (reflexivity || exact Hcl) | exact Hw | exact HR | discriminate | | | | discriminate].
      + intros v H. apply Hfin, R_app. left. exact H.
      + intros v Ha Ho. rewrite Ha, Ho, andb_false_r in Hcl. discriminate Hcl.
      + intros en p p' HRe Hev. pose proof (bindc_sound o x en vin c e p Htc HRe) as HS. rewrite Hev, Ec in HS.
        apply Hfin, R_app. right. exact HS.
    - (* SFor *) intros a z b IHb inl vin env pos cur Hok Ht HR Hw. rewrite exec_for. step_b x d.
      destruct (is_bnil b) eqn:Eb.
      { destruct b; [|discriminate Eb]. apply loop_unassigned_sound; [discriminate | reflexivity | exact HR]. }
      pose proof (entered_loop b vin [force cur] ONormal cfalse (N.to_nat (z + 1 - a)) env pos IHb) as L.
      destruct (bblock x d true b [force cur]) as [[e br] pr]. cbn [ok_loops_s] in Hok.
      destruct (N.leb a z) eqn:Eaz.
      + apply N.leb_le in Eaz. rewrite (proj2 (N.ltb_ge z a) Eaz) in Hok.
        apply andb_true_iff in Hok. destruct Hok as [Hcl Hokb].
        apply L; [exact Hokb | exact Ht | exact Hcl | apply wf_single, force_wf, Hw | apply R_force, HR | discriminate | | | discriminate | ].
        * intros v H. apply R_app. left. exact H.
        * intros v _ _ H. apply R_app. right. exact H.
        * intros _. split; [lia | intros v H; apply R_app; right; exact H].
      + apply N.leb_gt in Eaz. replace (N.to_nat (z + 1 - a)) with O by lia.
        apply post_nil; [discriminate | intros _; exact HR].
    - (* SBreakIf *) intros c b IHb inl vin env pos cur Hok Ht HR Hw. simpl exec_stmt. step_b x d.
      apply untested_orb in Ht. destruct Ht as [Htc Htb].
      pose proof (guard_sound c b IHb inl vin env pos cur cur Hok Htc Htb HR Hw) as G.
      destruct (eval o c env pos) as [[] p], (bindc x c cur) as [tl fl]; destruct G as [_ G];
        destruct (bblock x d inl b (fin tl cur)) as [[e br] pr]; [|apply post_nil; [discriminate | intros _; exact G]].
      destruct (exec_block o fuel inl b env p) as [[[[] e1] p1] tr1]; destruct G as [Hn [Hb Htr]];
        (split; [discriminate | split; [|exact Htr]]); try discriminate; intros _; apply R_app.
      + right. apply R_force. apply Hn. reflexivity.
      + left. apply Hb. reflexivity.
    - (* SAssert *) intros c inl vin env pos cur _ Ht HR Hw. simpl exec_stmt. step_b x d.
      pose proof (bindc_sound o x env vin c cur pos Ht HR) as HS.
      destruct (eval o c env pos) as [[] p], (bindc x c cur) as [tl fl]; cbn [fst snd] in HS; apply post_nil; try discriminate.
      intros _. rewrite (R_fin _ _ _ cur HS). exact HS.
    - (* SReturnIf *) intros e c b IHb inl vin env pos cur Hok Ht HR Hw. simpl exec_stmt. step_b x d.
      apply untested_orb in Ht. destruct Ht as [Htc Htb].
      pose proof (guard_sound c b IHb inl vin env pos cur cur Hok Htc Htb HR Hw) as G.
      destruct (eval o c env pos) as [[] p], (bindc x c cur) as [tl fl]; destruct G as [_ G];
        destruct (bblock x d inl b (fin tl cur)) as [[e0 br] pr]; [|apply post_nil; [discriminate | intros _; exact G]].
      destruct (exec_block o fuel inl b env p) as [[[[] e1] p1] tr1]; destruct G as [Hn [Hb Htr]];
        (split; [discriminate | split; [|exact Htr]]); try discriminate. exact Hb.
    - (* RNone *) intros inl vin env pos el cur _ _ HR _ _. apply post_nil; [discriminate | intros _; exact HR].
    - (* RElse *) intros b IHb inl vin env pos el cur Hok Ht HR Hel Hw. simpl exec_rest; simpl brest. apply IHb; assumption.
    - (* RElif *) intros c t IHt r IHr inl vin env pos el cur Hok Ht HR Hel Hw.
      simpl exec_rest; simpl brest. rewrite (R_fin _ _ _ cur HR). apply if_sound; assumption.
    - (* BNil *) intros inl vin env pos cur _ _ HR _. apply post_nil; [discriminate | intros _; exact HR].
    - (* BCons *) intros s IHs b IHb inl vin env pos cur Hok Ht HR Hw. simpl exec_block. step_b x d.
      cbn [ok_loops_b] in Hok. apply andb_true_iff in Hok. destruct Hok as [Hoks Hokb]. apply untested_orb in Ht. destruct Ht as [Hts Htb].
      specialize (IHs inl vin env pos cur Hoks Hts HR Hw). pose proof (proj1 (bstmt_wf x d) s inl cur Hw) as Hw1.
      destruct (exec_stmt o fuel inl s env pos) as [[[oc1 e1] p1] tr1], (bstmt x d inl s cur) as [[c1 br1] pr1].
      destruct IHs as [Hn [Hb Htr]]. destruct Hw1 as [Hw1 _].
      destruct oc1;
        [|destruct (bblock x d inl b c1) as [[c2 br2] pr2];
          (split; [discriminate | split; [intro Hoc; apply R_app; left; apply Hb; exact Hoc|]]);
          apply (tr_ok_incl _ _ _ _ (incl_appl pr2 (incl_refl pr1)) Htr)..].
      specialize (IHb inl vin e1 p1 c1 Hokb Htb (Hn eq_refl) Hw1).
      destruct (exec_block o fuel inl b e1 p1) as [[[oc2 e2] p2] tr2], (bblock x d inl b c1) as [[c2 br2] pr2].
      destruct IHb as [Hn2 [Hb2 Htr2]].
      split; [exact Hn2 | split; [intro Hoc; apply R_app; right; apply Hb2; exact Hoc | apply tr_ok_app; assumption]].
  Qed.
End Main.
