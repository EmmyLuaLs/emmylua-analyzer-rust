(** C15/Proofs.v — program-level consequences of the simulation (C15/Sound.v). *)
From Coq Require Import List NArith Bool Arith Lia.
From EV Require Import C15.Model C15.Shape C15.TypeFacts C15.Sound.
Import ListNotations.

Lemma widen_has : forall l, has_b (lit_atom l) (widen (lit_ty l)) = true.
Proof. destruct l; try destruct b; reflexivity. Qed.

Lemma decl_ty_init : forall p x, has (init_env p x) (decl_ty p x) = true /\ unk_free (decl_ty p x).
Proof.
  intros p x. unfold decl_ty, init_env. rewrite has_B, unk_free_B.
  destruct (assigns_b x (body p)); (split; [apply widen_has || apply lit_has | destruct (nth x (decls p) LNil); discriminate]).
Qed.

Lemma has_has_tag : forall v t, has v t = true -> has_tag (tag_of v) t = true.
Proof.
  intros v t Hh. unfold has_tag. apply existsb_exists. exists v. split.
  - destruct v; cbn; tauto.
  - rewrite Hh. destruct v; reflexivity.
Qed.

(** the simulation, started at the declarations *)
Theorem run_sound : forall p x o fuel oc env' pos' tr,
  ok_loops_b x (body p) = true ->
  run o fuel p = (oc, env', pos', tr) ->
  forall id v, In (id, x, v, false) tr ->
    exists t, In (id, false, t) (infer_var p x) /\ has v t = true /\ has_tag (tag_of v) t = true.
Proof.
  intros p x o fuel oc env' pos' tr Hok Hrun id v Hin.
  destruct (decl_ty_init p x) as [Hh Hu]. set (d := decl_ty p x) in *.
  unfold run in Hrun. unfold infer_var. fold d.
  assert (R None (getv (init_env p) x) [init_st d]) as HR by (apply R_single; left; apply okv_intro; exact Hh).
  pose proof (proj2 (proj2 (sound_all o fuel x d)) (body p) false None _ O _ Hok ltac:(intro H; contradiction) HR
                (wf_single (init_st d) Hu)) as G.
  rewrite Hrun in G. destruct (bblock x d false (body p) [init_st d]) as [[c2 br] pr]. destruct G as [_ [_ Htr]].
  destruct (Htr eq_refl id v Hin) as [t [Ht Hv]].
  exists t. split; [exact Ht|]. split; [exact Hv | apply has_has_tag; exact Hv].
Qed.

Lemma loop_free_ok :
  forall x,
  (forall s, loop_free_s s = true -> ok_loops_s x s = true) /\
  (forall r, loop_free_r r = true -> ok_loops_r x r = true) /\
  (forall b, loop_free_b b = true -> ok_loops_b x b = true).
Proof.
  intro x. apply syntax_ind; cbn; intros; try reflexivity; try discriminate;
    repeat match goal with H : _ && _ = true |- _ => apply andb_true_iff in H; destruct H end;
    try (apply andb_true_iff; split); auto.
Qed.

Theorem narrowing_sound_lf : forall p o fuel oc env' pos' tr,
  loop_free_b (body p) = true ->
  run o fuel p = (oc, env', pos', tr) ->
  forall id x v fl, In (id, x, v, fl) tr ->
    exists t, In (id, false, t) (infer_var p x) /\ has v t = true /\ has_tag (tag_of v) t = true.
Proof.
  intros p o fuel oc env' pos' tr Hlf Hrun id x v fl Hin.
  pose proof (exec_flags_b o fuel (body p) false (init_env p) O (or_introl Hlf)) as HF. fold (run o fuel p) in HF.
  rewrite Hrun, Forall_forall in HF. pose proof (HF _ Hin) as Hfl. cbn in Hfl. subst fl.
  exact (run_sound p x o fuel oc env' pos' tr (proj2 (proj2 (loop_free_ok x)) _ Hlf) Hrun id v Hin).
Qed.

Definition pos_of (r : res) : nat := snd (fst r).

(** two oracles that agree below [k] cannot be told apart by code that starts early enough to stay below [k] *)
Section OracleExt.
  Variables o1 o2 : nat -> bool.
  Variables k fuel : nat.
  Hypothesis agree : forall i, (i < k)%nat -> o1 i = o2 i.

  Lemma eval_ext : forall c env pos, (pos + copq c <= k)%nat ->
    eval o1 c env pos = eval o2 c env pos /\ (snd (eval o1 c env pos) <= pos + copq c)%nat.
  Proof.
    induction c as [y tg|y|y|y|j|a IHa|a IHa b IHb|a IHa b IHb|y tg|y|y]; intros env pos H; cbn [eval copq] in *;
      try (split; [reflexivity | cbn; lia]).
    - split; [rewrite agree by lia; reflexivity | cbn; lia].
    - destruct (IHa env pos H) as [E B]. rewrite <- E. destruct (eval o1 a env pos) as [v p]. split; [reflexivity | exact B].
    - destruct (IHa env pos) as [E B]; [lia|]. rewrite <- E. destruct (eval o1 a env pos) as [[] p]; cbn [snd] in B.
      + destruct (IHb env p) as [E2 B2]; [lia|]. rewrite <- E2. split; [reflexivity | lia].
      + split; [reflexivity | cbn; lia].
    - destruct (IHa env pos) as [E B]; [lia|]. rewrite <- E. destruct (eval o1 a env pos) as [[] p]; cbn [snd] in B.
      + split; [reflexivity | cbn; lia].
      + destruct (IHb env p) as [E2 B2]; [lia|]. rewrite <- E2. split; [reflexivity | lia].
  Qed.

  Lemma exec_ext :
    (forall s inl env pos, loop_free_s s = true -> (pos + opq_s s <= k)%nat ->
       exec_stmt o1 fuel inl s env pos = exec_stmt o2 fuel inl s env pos /\
       (pos_of (exec_stmt o1 fuel inl s env pos) <= pos + opq_s s)%nat) /\
    (forall r inl env pos, loop_free_r r = true -> (pos + opq_r r <= k)%nat ->
       exec_rest o1 fuel inl r env pos = exec_rest o2 fuel inl r env pos /\
       (pos_of (exec_rest o1 fuel inl r env pos) <= pos + opq_r r)%nat) /\
    (forall b inl env pos, loop_free_b b = true -> (pos + opq_b b <= k)%nat ->
       exec_block o1 fuel inl b env pos = exec_block o2 fuel inl b env pos /\
       (pos_of (exec_block o1 fuel inl b env pos) <= pos + opq_b b)%nat).
  Proof.
    apply syntax_ind; try discriminate. (* the loops and [SBreakIf] are not loop-free *)
    - (* SAssign *) intros y l inl env pos _ _. split; [reflexivity | cbn; lia].
    - (* SProbe *) intros id y inl env pos _ _. split; [reflexivity | cbn; lia].
    - (* SIf *) intros c t IHt r IHr inl env pos Hl H. apply andb_true_iff in Hl. destruct Hl as [Hl1 Hl2].
      cbn [opq_s] in *. simpl exec_stmt. destruct (eval_ext c env pos) as [E B]; [lia|]. rewrite <- E.
      destruct (eval o1 c env pos) as [[] p]; cbn [snd] in B.
      + destruct (IHt inl env p Hl1) as [E2 B2]; [lia|]. split; [exact E2 | lia].
      + destruct (IHr inl env p Hl2) as [E2 B2]; [lia|]. split; [exact E2 | lia].
    - (* SAssert *) intros c inl env pos _ H. cbn [opq_s] in *. simpl exec_stmt. destruct (eval_ext c env pos H) as [E B]. rewrite <- E.
      destruct (eval o1 c env pos) as [[] p]; (split; [reflexivity | exact B]).
    - (* SReturnIf *) intros e c b IHb inl env pos Hl H. cbn [opq_s] in *. simpl exec_stmt.
      destruct (eval_ext c env pos) as [E B]; [lia|]. rewrite <- E.
      destruct (eval o1 c env pos) as [[] p]; cbn [snd] in B; [|split; [reflexivity | cbn; lia]].
      destruct (IHb inl env p Hl) as [E2 B2]; [lia|]. rewrite <- E2.
      destruct (exec_block o1 fuel inl b env p) as [[[[] e1] p1] tr1]; (split; [reflexivity | cbn in *; lia]).
    - (* RNone *) intros inl env pos _ _. split; [reflexivity | cbn; lia].
    - (* RElse *) intros b IHb inl env pos Hl H. simpl exec_rest. apply IHb; assumption.
    - (* RElif *) intros c t IHt r IHr inl env pos Hl H. apply andb_true_iff in Hl. destruct Hl as [Hl1 Hl2].
      cbn [opq_r] in *. simpl exec_rest. destruct (eval_ext c env pos) as [E B]; [lia|]. rewrite <- E.
      destruct (eval o1 c env pos) as [[] p]; cbn [snd] in B.
      + destruct (IHt inl env p Hl1) as [E2 B2]; [lia|]. split; [exact E2 | lia].
      + destruct (IHr inl env p Hl2) as [E2 B2]; [lia|]. split; [exact E2 | lia].
    - (* BNil *) intros inl env pos _ _. split; [reflexivity | cbn; lia].
    - (* BCons *) intros s IHs b IHb inl env pos Hl H. apply andb_true_iff in Hl. destruct Hl as [Hl1 Hl2].
      cbn [opq_b] in *. simpl exec_block. destruct (IHs inl env pos Hl1) as [E B]; [lia|]. rewrite <- E.
      destruct (exec_stmt o1 fuel inl s env pos) as [[[[] e1] p1] tr1]; cbn [pos_of fst snd] in B;
        [|split; [reflexivity | cbn; lia]..].
      destruct (IHb inl e1 p1 Hl2) as [E2 B2]; [lia|]. rewrite <- E2.
      destruct (exec_block o1 fuel inl b e1 p1) as [[[oc2 e2] p2] tr2]. split; [reflexivity | cbn in *; lia].
  Qed.
End OracleExt.

Lemma all_lists_complete : forall k l, length l = k -> In l (all_lists k).
Proof.
  induction k as [|k IH]; intros l H.
  - destruct l; [left; reflexivity | discriminate].
  - destruct l as [|b r]; [discriminate|]. cbn in H. injection H as H'. cbn [all_lists]. apply in_flat_map. exists r. split; [apply IH; exact H'|].
    destruct b; cbn; tauto.
Qed.

Lemma oracle_of_prefix : forall (o : nat -> bool) k i, (i < k)%nat -> oracle_of (map o (seq 0 k)) i = o i.
Proof.
  intros o k i H. unfold oracle_of. rewrite nth_indep with (d' := o 0%nat) by (rewrite map_length, seq_length; exact H).
  rewrite map_nth. rewrite seq_nth by exact H. reflexivity.
Qed.

Theorem reach_complete_lf : forall p o fuel,
  loop_free_b (body p) = true ->
  exists l, In l (all_lists (opq_b (body p))) /\ run (oracle_of l) fuel p = run o fuel p.
Proof.
  intros p o fuel Hlf. exists (map o (seq 0 (opq_b (body p)))). split.
  - apply all_lists_complete. rewrite map_length, seq_length. reflexivity.
  - unfold run. apply (proj2 (proj2 (exec_ext _ o (opq_b (body p)) fuel (oracle_of_prefix o _)))); [exact Hlf | lia].
Qed.

Theorem unreachable_never_runs_lf : forall p o fuel oc env' pos' tr id x,
  loop_free_b (body p) = true ->
  run o fuel p = (oc, env', pos', tr) ->
  (forall t, In (id, false, t) (infer_var p x) -> forall v, has v t = false) ->
  forall v fl, ~ In (id, x, v, fl) tr.
Proof.
  intros p o fuel oc env' pos' tr id x Hlf Hrun Hnever v fl Hin.
  destruct (narrowing_sound_lf p o fuel oc env' pos' tr Hlf Hrun id x v fl Hin) as [t [Ht [Hh _]]].
  rewrite (Hnever t Ht v) in Hh. discriminate.
Qed.

Definition example_prog : prog :=
  {| decls := [LInt 1];
     body := BCons (SIf (COpq 0) (BCons (SAssign 0 (LStr 0)) BNil) (RElif (COpq 1) (BCons (SAssign 0 LNil) BNil) RNone))
            (BCons (SIf (CType 0 TgStr) (BCons (SProbe 0 0) BNil)
                        (RElif (CVar 0) (BCons (SProbe 1 0) BNil) (RElse (BCons (SProbe 2 0) BNil))))
            (BCons (SProbe 3 0) BNil)) |}.

Lemma narrowing_example :
  let p := example_prog in
  loop_free_b (body p) = true /\
  map (fun '(id, _, t) => (id, map (fun v => has v t) [ANil; ANum; AStr])) (infer_var p 0) =
    [(0%N, [false; false; true]); (1%N, [false; true; false]); (2%N, [true; false; false]); (3%N, [true; true; true])] /\
  map (fun l => map (fun '(id, _, v, _) => (id, v)) (snd (run (oracle_of l) 0 p))) (all_lists 2) =
    [[(1%N, ANum); (3%N, ANum)]; [(0%N, AStr); (3%N, AStr)]; [(2%N, ANil); (3%N, ANil)]; [(0%N, AStr); (3%N, AStr)]].
Proof. vm_compute. repeat split; reflexivity. Qed.
