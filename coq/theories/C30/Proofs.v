(** The invariant behind convergence: a file whose published diagnostics are stale has the running
    handler or an uncancelled task of that file to vouch for it ([stale_ok]). *)
From Coq Require Import List Arith Bool PeanoNat Lia.
From EV Require Import C30.Model.
Import ListNotations.

Section P.
  Variable ds : Type.
  Variable diag : text -> ds.
  Variable empty : ds.
  Notation st := (st ds).
  Notation step := (step ds diag empty true).
  Notation good := (good ds diag empty).

  Lemma upd_eq : forall A (f : uri -> A) u v, upd f u v u = v.
  Proof. intros. unfold upd. rewrite Nat.eqb_refl. reflexivity. Qed.

  Lemma upd_neq : forall A (f : uri -> A) u v x, x <> u -> upd f u v x = f x.
  Proof. intros A f u v x H. unfold upd. apply Nat.eqb_neq in H. rewrite H. reflexivity. Qed.

  Definition midu (s : st) (u : uri) : Prop := exists e, mid s = Some e /\ ev_uri e = u.

  (** an uncancelled task of [u] is still to run: it will publish the text the analysis holds then *)
  Definition live (s : st) (u : uri) : Prop :=
    exists k, In k (tasks s) /\ tk_uri k = u /\ tk_cancelled k = false.

  Definition stale_ok (s : st) (u : uri) : Prop :=
    match an s u with
    | Some t => pub s u = Some (diag t) \/ midu s u \/ live s u
    | None => pub s u = None \/ pub s u = Some empty \/ midu s u
    end.

  Definition mid_ok (s : st) : Prop :=
    match mid s with
    | Some (EEdit u t) => an s u = Some t
    | Some (ERemove u) => an s u = None
    | None => True
    end.

  (** ids are fresh, and a stored token names only tasks of its own file *)
  Definition ids_ok (s : st) : Prop :=
    (forall k, In k (tasks s) -> tk_id k < next s) /\
    (forall u i, tokens s u = Some i -> i < next s) /\
    (forall u i k, tokens s u = Some i -> In k (tasks s) -> tk_id k = i -> tk_uri k = u).

  Definition inv (s : st) : Prop := mid_ok s /\ ids_ok s /\ forall u, stale_ok s u.

  Lemma inv_start : forall s, start ds diag empty s -> inv s.
  Proof.
    intros s [Hm [Ht [Hk Hg]]]. split; [|split].
    - unfold mid_ok. rewrite Hm. exact I.
    - unfold ids_ok. rewrite Ht. split; [intros k []|]. split; intros u i; rewrite Hk; discriminate.
    - intros u. specialize (Hg u). unfold Model.good in Hg. unfold stale_ok. destruct (an s u).
      + left. assumption.
      + destruct Hg; [left | right; left]; assumption.
  Qed.

  Lemma stale_mid : forall s u, midu s u -> stale_ok s u.
  Proof. intros s u H. unfold stale_ok. destruct (an s u); auto. Qed.

  Lemma stale_pub : forall s u t, an s u = Some t -> pub s u = Some (diag t) -> stale_ok s u.
  Proof. intros s u t Ha Hp. unfold stale_ok. rewrite Ha. left. exact Hp. Qed.

  (** [u] stays accounted for while its texts stay and whoever vouched for it is still there *)
  Lemma stale_frame : forall s s' u,
    an s' u = an s u -> pub s' u = pub s u -> (midu s u -> midu s' u) ->
    (forall t, an s u = Some t -> live s u -> live s' u) ->
    stale_ok s u -> stale_ok s' u.
  Proof.
    intros s s' u Ha Hp Hm Hl H. unfold stale_ok in *. rewrite Ha, Hp. destruct (an s u) as [t|].
    - destruct H as [H|[H|H]]; [left; exact H|right; left; auto|right; right; eapply Hl; [reflexivity|exact H]].
    - destruct H as [H|[H|H]]; auto.
  Qed.

  Lemma in_cancel : forall i l k, In k (cancel_id i l) ->
    exists k0, In k0 l /\ tk_id k = tk_id k0 /\ tk_uri k = tk_uri k0.
  Proof.
    intros i l k H. destruct i as [i|]; cbn [cancel_id] in H; [|exists k; auto].
    apply in_map_iff in H. destruct H as [k0 [He Hin]]. exists k0. split; [assumption|].
    destruct (Nat.eqb (tk_id k0) i); subst k; split; reflexivity.
  Qed.

  Lemma cancel_keeps : forall i l k, In k l -> i <> Some (tk_id k) -> In k (cancel_id i l).
  Proof.
    intros i l k Hin Hne. destruct i as [i|]; cbn [cancel_id]; [|assumption].
    apply in_map_iff. exists k. split; [|assumption].
    destruct (Nat.eqb_spec (tk_id k) i) as [He | He]; [exfalso; apply Hne; congruence | reflexivity].
  Qed.

  Lemma in_mid_cases : forall (l1 l2 : list task) k x, In x (l1 ++ k :: l2) <-> x = k \/ In x (l1 ++ l2).
  Proof. intros. rewrite !in_app_iff. cbn [In]. intuition congruence. Qed.

  (** section 1 of a handler: the analysis text of the file changes, the handler vouches for it *)
  Lemma inv_sect1 : forall s e a q, inv s -> mid s = None ->
    match e with EEdit _ t => a = Some t | ERemove _ => a = None end ->
    inv (mkSt (upd (an s) (ev_uri e) a) (pub s) (tokens s) (tasks s) (next s) q (Some e)).
  Proof.
    intros s e a q [_ [Hid Hi]] Hmid Ha. split; [|split; [exact Hid|]].
    - unfold mid_ok. cbn [mid an]. destruct e; cbn [ev_uri]; rewrite upd_eq; exact Ha.
    - intros x. destruct (Nat.eq_dec x (ev_uri e)) as [-> | Hne].
      + apply stale_mid. exists e. split; reflexivity.
      + apply (stale_frame s); cbn [an pub]; [apply upd_neq; exact Hne|reflexivity| |auto|apply Hi].
        intros [e0 [He _]]. congruence.
  Qed.

  (** a task leaves: everybody it did not vouch for stays accounted for *)
  Lemma stale_task_leaves : forall (s s' : st) l1 k l2 x,
    tasks s = l1 ++ k :: l2 -> tasks s' = l1 ++ l2 -> an s' = an s -> mid s' = mid s -> pub s' x = pub s x ->
    (tk_uri k = x -> tk_cancelled k = false -> an s x = None) ->
    stale_ok s x -> stale_ok s' x.
  Proof.
    intros s s' l1 k l2 x Ht Ht' Ha Hm Hp Hk H.
    apply (stale_frame s); [rewrite Ha; reflexivity|exact Hp|unfold midu; rewrite Hm; auto| |exact H].
    intros t Hax [y [Hin [Hu Hc]]]. exists y. split; [|split; assumption].
    rewrite Ht in Hin. rewrite Ht'. apply in_mid_cases in Hin as [-> | Hin]; [|exact Hin].
    rewrite (Hk Hu Hc) in Hax. discriminate.
  Qed.

  (** tasks may change or leave as long as the ones that stay keep their id and their file *)
  Lemma ids_keep : forall (s s' : st),
    (forall x, In x (tasks s') -> exists y, In y (tasks s) /\ tk_id x = tk_id y /\ tk_uri x = tk_uri y) ->
    next s' = next s -> (forall u i, tokens s' u = Some i -> tokens s u = Some i) -> ids_ok s -> ids_ok s'.
  Proof.
    intros s s' Hsub Hn Htok [H1 [H2 H3]]. split; [|split]; rewrite ?Hn; [|eauto|].
    - intros x Hx. destruct (Hsub x Hx) as [y [Hy [-> _]]]. auto.
    - intros u i x Hi Hx He. destruct (Hsub x Hx) as [y [Hy [Hid ->]]]. eapply H3; [eauto|exact Hy|congruence].
  Qed.

  Lemma ids_remove : forall (s s' : st) l1 k l2,
    tasks s = l1 ++ k :: l2 -> tasks s' = l1 ++ l2 -> next s' = next s ->
    (forall u i, tokens s' u = Some i -> tokens s u = Some i) -> ids_ok s -> ids_ok s'.
  Proof.
    intros s s' l1 k l2 Ht Ht'. apply ids_keep. intros x Hx. exists x. rewrite Ht, in_mid_cases, <- Ht'. auto.
  Qed.

  Lemma tokens_cleared : forall (f : uri -> option tid) u x i, upd f u None x = Some i -> f x = Some i.
  Proof.
    intros f u x i H. destruct (Nat.eq_dec x u) as [-> | Hne]; [rewrite upd_eq in H; discriminate|].
    rewrite upd_neq in H by assumption. exact H.
  Qed.

  Lemma inv_step : forall s s', inv s -> step s s' -> inv s'.
  Proof.
    intros s s' Hinv Hst. pose proof Hinv as [Hm [Hid Hi]].
    destruct Hst as [s u t q Hq Hmid | s u q Hq Hmid | s u t Hmid | s u Hmid
                    | s l1 k l2 Ht Hf | s l1 k l2 Ht Hf Hc | s l1 k l2 t Ht Hf Ha | s l1 k l2 Ht Hf Hc | s u t Ha].
    - exact (inv_sect1 s (EEdit u t) (Some t) q Hinv Hmid eq_refl).
    - exact (inv_sect1 s (ERemove u) None q Hinv Hmid eq_refl).
    - (* edit, section 2: add_diagnostic_task *)
      unfold mid_ok in Hm. rewrite Hmid in Hm. destruct Hid as [H1 [H2 H3]]. split; [exact I|split].
      + split; [|split]; cbn [tasks next tokens].
        * intros x [<- | Hx]; [cbn; lia|]. apply in_cancel in Hx. destruct Hx as [k0 [Hin [Hid0 _]]].
          rewrite Hid0. specialize (H1 k0 Hin). lia.
        * intros x i Hx. destruct (Nat.eq_dec x u) as [-> | Hne].
          -- rewrite upd_eq in Hx. inversion Hx. lia.
          -- rewrite upd_neq in Hx by assumption. specialize (H2 x i Hx). lia.
        * intros x i y Hx [<- | Hy] He.
          -- cbn in *. destruct (Nat.eq_dec x u) as [-> | Hne]; [reflexivity|].
             rewrite upd_neq in Hx by assumption. specialize (H2 x i Hx). lia.
          -- apply in_cancel in Hy. destruct Hy as [k0 [Hin [Hid0 Hu0]]].
             destruct (Nat.eq_dec x u) as [-> | Hne].
             ++ rewrite upd_eq in Hx. inversion Hx. specialize (H1 k0 Hin). lia.
             ++ rewrite upd_neq in Hx by assumption. rewrite Hu0. eapply H3; [eassumption | eassumption | congruence].
      + intros x. destruct (Nat.eq_dec x u) as [-> | Hne].
        * unfold stale_ok. cbn [an]. rewrite Hm. right. right.
          exists (mkTask (next s) u false false). split; [left; reflexivity | split; reflexivity].
        * apply (stale_frame s); try reflexivity; [| |apply Hi].
          -- intros [e [He Hu]]. rewrite Hmid in He. inversion He; subst. contradiction.
          -- (* the cancelled token names only tasks of [u] *)
             intros _ _ [k [Hin [Hu Hc]]]. exists k. split; [|split; assumption]. right. apply cancel_keeps; [assumption|].
             intros Htok. apply Hne. rewrite <- Hu. eapply H3; [exact Htok | exact Hin | reflexivity].
    - (* remove, section 2: publish [] *)
      unfold mid_ok in Hm. rewrite Hmid in Hm.
      change (rm_step2 ds empty true s u) with (mkSt (an s) (upd (pub s) u (Some empty)) (tokens s) (tasks s) (next s) (queue s) None).
      split; [exact I|split; [exact Hid|]].
      intros x. destruct (Nat.eq_dec x u) as [-> | Hne].
      + unfold stale_ok. cbn [an pub]. rewrite Hm, upd_eq. auto.
      + apply (stale_frame s); cbn [an pub]; [reflexivity|apply upd_neq; exact Hne| |auto|apply Hi].
        intros [e [He Hu]]. rewrite Hmid in He. inversion He; subst. contradiction.
    - (* the timer fires *)
      split; [exact Hm | split].
      + apply (ids_keep s); auto. cbn [tasks]. intros x Hx. rewrite Ht.
        apply in_mid_cases in Hx as [-> | Hx]; [exists k|exists x]; rewrite in_mid_cases; auto.
      + intros x. apply (stale_frame s); try reflexivity; [auto| |apply Hi].
        intros _ _ [y [Hin [Hu Hc]]]. rewrite Ht in Hin. unfold live. cbn [tasks]. apply in_mid_cases in Hin as [-> | Hin].
        * exists (mkTask (tk_id k) (tk_uri k) (tk_cancelled k) true). rewrite in_mid_cases. auto.
        * exists y. rewrite in_mid_cases. auto.
    - (* a cancelled task leaves *)
      split; [exact Hm | split].
      + eapply (ids_remove s); try eassumption; try reflexivity. auto.
      + intros x. apply (stale_task_leaves s _ l1 k l2); try reflexivity; [exact Ht| |apply Hi].
        intros _ Hc'. congruence.
    - (* a task runs and publishes the text the analysis holds now *)
      split; [exact Hm | split].
      + eapply (ids_remove s); try eassumption; try reflexivity. apply tokens_cleared.
      + intros x. destruct (Nat.eq_dec x (tk_uri k)) as [-> | Hne].
        * apply (stale_pub _ _ t); [exact Ha|apply upd_eq].
        * apply (stale_task_leaves s _ l1 k l2); try reflexivity; [exact Ht|apply upd_neq; exact Hne| |apply Hi].
          intros E. congruence.
    - (* a task runs without publishing: cancelled, or the file is gone *)
      split; [exact Hm | split].
      + eapply (ids_remove s); try eassumption; try reflexivity. apply tokens_cleared.
      + intros x. apply (stale_task_leaves s _ l1 k l2); try reflexivity; [exact Ht| |apply Hi].
        intros E Hc'. destruct Hc as [Hc | Hc]; [congruence | rewrite <- E; exact Hc].
    - (* workspace diagnostics *)
      split; [exact Hm | split; [exact Hid|]].
      intros x. destruct (Nat.eq_dec x u) as [-> | Hne].
      + apply (stale_pub _ _ t); [exact Ha|apply upd_eq].
      + apply (stale_frame s); cbn [an pub]; [reflexivity|apply upd_neq; exact Hne|auto|auto|apply Hi].
  Qed.

  Lemma inv_reach : forall s0 s, start ds diag empty s0 -> reach ds diag empty true s0 s -> inv s.
  Proof.
    intros s0 s H0 Hr. induction Hr; [apply inv_start; assumption | eapply inv_step; eassumption].
  Qed.

  Theorem published_converge : forall s0 s, start ds diag empty s0 -> reach ds diag empty true s0 s ->
    quiescent ds s -> forall u, good s u.
  Proof.
    intros s0 s H0 Hr [Hq [Hmid Ht]] u. destruct (inv_reach _ _ H0 Hr) as [_ [_ Hi]].
    specialize (Hi u). unfold stale_ok in Hi. unfold Model.good. destruct (an s u).
    - destruct Hi as [Hi | [[e [He _]] | [k [Hin _]]]]; [assumption | congruence | rewrite Ht in Hin; destruct Hin].
    - destruct Hi as [Hi | [Hi | [e [He _]]]]; [left; assumption | right; assumption | congruence].
  Qed.
End P.

Lemma reach_front : forall ds diag empty cl (s0 s1 s : st ds),
  step ds diag empty cl s0 s1 -> reach ds diag empty cl s1 s -> reach ds diag empty cl s0 s.
Proof.
  intros ds diag empty cl s0 s1 s H Hr. induction Hr.
  - eapply reachS; [apply reach0 | assumption].
  - eapply reachS; eassumption.
Qed.

(** * the unconditional token removal: real in the model, harmless for convergence *)
Section Race.
  Notation stN := (st nat).
  Notation reachN := (reach nat (fun t => t) 0 true).

  Definition race_start : stN :=
    mkSt (fun _ => None) (fun _ => None) (fun _ => None) [] 0 [EEdit 0 1; EEdit 0 2] None.

  (** two edits of one file: the first task's timer fires, the second edit cancels it and starts a second
      task, then the first task runs and removes the token, which by now is the second task's *)
  Lemma race_prefix :
    exists s, reachN race_start s /\ an s 0 = Some 2 /\ tokens s 0 = None /\
              tasks s = [mkTask 1 0 false false] /\ queue s = [] /\ mid s = None.
  Proof.
    eexists. split.
    - eapply reach_front; [eapply e_a_edit; reflexivity|cbn].
      eapply reach_front; [eapply e_b_edit; reflexivity|cbn].
      eapply reach_front; [eapply (t_fire _ _ _ _ _ [] _ []); reflexivity|cbn].
      eapply reach_front; [eapply e_a_edit; reflexivity|cbn].
      eapply reach_front; [eapply e_b_edit; reflexivity|cbn].
      eapply reach_front.
      { eapply (t_run_skip _ _ _ _ _ [_] _ []); [vm_compute; reflexivity | reflexivity | left; reflexivity]. }
      apply reach0.
    - vm_compute. repeat split; reflexivity.
  Qed.

  (** the newer task is still alive and uncancelled, and a third edit would not cancel it *)
  Lemma token_removal_race_reachable :
    start nat (fun t => t) 0 race_start /\
    exists s, reachN race_start s /\ tokens s 0 = None /\
              exists k, In k (tasks s) /\ tk_uri k = 0 /\ tk_cancelled k = false /\ tk_fired k = false.
  Proof.
    split.
    - repeat split; try reflexivity. intros u. left. reflexivity.
    - destruct race_prefix as [s [Hr [_ [Htok [Ht _]]]]]. exists s. split; [exact Hr|]. split; [exact Htok|].
      exists (mkTask 1 0 false false). rewrite Ht. split; [left; reflexivity|repeat split].
  Qed.

  (** non-vacuity: the same history runs to quiescence and the last published set is the diagnosis of the last text *)
  Lemma converge_example :
    exists s, reachN race_start s /\ quiescent nat s /\ an s 0 = Some 2 /\ pub s 0 = Some 2.
  Proof.
    destruct race_prefix as [s [Hr [Ha [_ [Ht [Hq Hm]]]]]]. eexists. split.
    - eapply reachS; [eapply reachS; [exact Hr|]|].
      + eapply (t_fire _ _ _ _ s [] _ []); [exact Ht|reflexivity].
      + eapply (t_run_pub _ _ _ _ _ [] _ [] 2); [reflexivity|reflexivity|exact Ha].
    - repeat split; cbn [an pub queue mid tasks tk_uri app]; assumption || reflexivity.
  Qed.
End Race.

(** * if the empty publish came BEFORE the removal, a diagnosis still in flight would publish after it *)
Section ClearFirst.
  Notation reachF := (reach nat (fun t => t) 0 false).

  Definition clear_first_start : st nat :=
    mkSt (fun _ => None) (fun _ => None) (fun _ => None) [] 0 [EEdit 0 1; ERemove 0] None.

  Lemma clear_first_refuted :
    start nat (fun t => t) 0 clear_first_start /\
    exists s, reachF clear_first_start s /\ quiescent nat s /\ an s 0 = None /\ pub s 0 = Some 1.
  Proof.
    split.
    - repeat split; try reflexivity. intros u. left. reflexivity.
    - eexists. split.
      + eapply reach_front; [eapply e_a_edit; reflexivity|cbn].
        eapply reach_front; [eapply e_b_edit; reflexivity|cbn].
        eapply reach_front; [eapply (t_fire _ _ _ _ _ [] _ []); reflexivity|cbn].
        eapply reach_front; [eapply e_a_remove; reflexivity|cbn].
        eapply reach_front.
        { eapply (t_run_pub _ _ _ _ _ [] _ [] 1); [reflexivity | reflexivity | vm_compute; reflexivity]. }
        cbn.
        eapply reach_front; [eapply e_b_remove; reflexivity|cbn].
        apply reach0.
      + vm_compute. repeat split; reflexivity.
  Qed.
End ClearFirst.

(** * progress and termination: every fair execution reaches quiescence *)
Section Term.
  Variable ds : Type.
  Variable diag : text -> ds.
  Variable empty : ds.
  Notation st := (st ds).
  Notation step := (step ds diag empty true).

  Definition tw (k : task) : nat := if tk_fired k then 1 else 2.
  Definition tsum (l : list task) : nat := list_sum (map tw l).

  (** six per queued notification, three for a handler between its sections, two per sleeping task, one per fired task *)
  Definition mu (s : st) : nat :=
    6 * List.length (queue s) + (match mid s with Some _ => 3 | None => 0 end) + tsum (tasks s).

  Lemma tsum_app : forall l1 l2, tsum (l1 ++ l2) = tsum l1 + tsum l2.
  Proof. intros. unfold tsum. rewrite map_app. apply list_sum_app. Qed.

  Lemma tsum_cons : forall k l, tsum (k :: l) = tw k + tsum l.
  Proof. reflexivity. Qed.

  Lemma tsum_mid : forall l1 k l2, tsum (l1 ++ k :: l2) = tsum l1 + tw k + tsum l2.
  Proof. intros. rewrite tsum_app, tsum_cons. lia. Qed.

  Lemma tsum_cancel : forall i l, tsum (cancel_id i l) = tsum l.
  Proof.
    intros [i|] l; cbn [cancel_id]; [|reflexivity]. unfold tsum. rewrite map_map. f_equal.
    apply map_ext. intros k. destruct (Nat.eqb (tk_id k) i); reflexivity.
  Qed.

  Lemma step_decreases : forall s s', step s s' ->
    mu s' < mu s \/ (queue s' = queue s /\ mid s' = mid s /\ tasks s' = tasks s).
  Proof.
    intros s s' Hst.
    destruct Hst as [s u t q Hq Hmid | s u q Hq Hmid | s u t Hmid | s u Hmid
                    | s l1 k l2 Ht Hf | s l1 k l2 Ht Hf Hc | s l1 k l2 t Ht Hf Ha | s l1 k l2 Ht Hf Hc | s u t Ha];
      [left..|right; repeat split; reflexivity];
      unfold mu, rm_step1, rm_step2; cbn [queue mid tasks];
      rewrite ?Hq, ?Hmid, ?Ht, ?tsum_mid, ?tsum_app, ?tsum_cons, ?tsum_cancel; unfold tw; cbn [tk_fired List.length];
      rewrite ?Hf; lia.
  Qed.

  Lemma progress : forall s, ~ quiescent ds s -> exists s', step s s' /\ mu s' < mu s.
  Proof.
    intros s Hnq.
    assert (Hex : exists s', step s s' /\ ~ (queue s' = queue s /\ mid s' = mid s /\ tasks s' = tasks s)).
    { destruct (mid s) as [[u t | u]|] eqn:Hmid.
      - eexists. split; [eapply e_b_edit; eassumption|]. cbn [queue mid tasks]. intros [_ [H _]]. discriminate.
      - eexists. split; [eapply e_b_remove; eassumption|]. unfold rm_step2. cbn [queue mid tasks]. intros [_ [H _]]. discriminate.
      - destruct (queue s) as [|[u t | u] q] eqn:Hq.
        + destruct (tasks s) as [|k l2] eqn:Ht.
          * exfalso. apply Hnq. repeat split; assumption.
          * destruct (tk_fired k) eqn:Hf.
            -- destruct (an s (tk_uri k)) as [t|] eqn:Ha.
               ++ eexists. split; [eapply (t_run_pub _ _ _ _ s [] k l2 t); [exact Ht | exact Hf | exact Ha]|].
                  cbn [queue mid tasks app]. intros [_ [_ H]]. apply (f_equal (@List.length task)) in H. cbn in H. lia.
               ++ eexists. split; [eapply (t_run_skip _ _ _ _ s [] k l2); [exact Ht | exact Hf | right; exact Ha]|].
                  cbn [queue mid tasks app]. intros [_ [_ H]]. apply (f_equal (@List.length task)) in H. cbn in H. lia.
            -- eexists. split; [eapply (t_fire _ _ _ _ s [] k l2); [exact Ht | exact Hf]|].
               cbn [queue mid tasks app]. intros [_ [_ H]]. inversion H as [Hk]. apply (f_equal tk_fired) in Hk. cbn in Hk. congruence.
        + eexists. split; [eapply e_a_edit; [eassumption | assumption]|]. cbn [queue mid tasks]. intros [_ [H _]]. discriminate.
        + eexists. split; [eapply e_a_remove; [eassumption | assumption]|]. unfold rm_step1. cbn [queue mid tasks]. intros [_ [H _]]. discriminate. }
    destruct Hex as [s' [Hst Hne]]. exists s'. split; [assumption|].
    destruct (step_decreases s s' Hst) as [H | H]; [assumption | contradiction].
  Qed.
End Term.
