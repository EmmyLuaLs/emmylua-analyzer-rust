(** [files] are the main-workspace files, [D f] is [diagnose_file] of file [f], [msgs] is ANY
    order of arrival of the messages of the spawned tasks (each task sends exactly once). *)
From Coq Require Import Permutation.
From EV Require Import C36.Model C36.Proofs Gen.C36_send.
Local Open Scope N_scope.

(** Non-zero exit exactly when a diagnostic that passes the severity filter is an error, or a
    warning under --warnings-as-errors. *)
Theorem exit_iff_error : forall o files D msgs,
  Permutation msgs (sent files D) ->
  (exit_code (run o (N.of_nat (length files)) msgs) <> 0 <->
   exists f ds d, In f files /\ D f = Some ds /\ In d ds /\ passes o d = true /\ is_error o d = true).
Proof. exact Proofs.exit_iff_error. Qed.

(** Each report contains exactly the filtered diagnostics, each once, under its own file, for
    any arrival order: the JSON report has one block per file with diagnostics enabled (its
    filtered diagnostics, in order), the text report the non-empty ones of these blocks, the
    SARIF report one result per (file, filtered diagnostic); in every format the multiset of
    (file, diagnostic) pairs of the report is the expected one. *)
Theorem report_exact : forall o files D msgs,
  Permutation msgs (sent files D) ->
  match o_format o, st_writer (run o (N.of_nat (length files)) msgs) with
  | Json, WJson b => Permutation b (expected_blocks o files D)
  | Text, WText b => Permutation b (filter nonempty_block (expected_blocks o files D))
  | Sarif, WSarif r => Permutation r (expected_pairs o files D)
  | _, _ => False
  end
  /\ Permutation (report_pairs (st_writer (run o (N.of_nat (length files)) msgs))) (expected_pairs o files D).
Proof. exact Proofs.report_exact. Qed.

(** Every task sends exactly once => the count reaches the total exactly at the last message:
    the loop processes every message once and none is left. *)
Theorem loop_terminates : forall o files D msgs,
  Permutation msgs (sent files D) ->
  st_count (run o (N.of_nat (length files)) msgs) = N.of_nat (length files)
  /\ run o (N.of_nat (length files)) msgs = fold_left (step o) msgs (init o).
Proof. exact Proofs.loop_terminates. Qed.

(** Fewer messages than tasks (a task died, its sender is dropped): the loop ends when the
    channel is drained, having processed every message once. *)
Theorem loop_ends_on_closed_channel : forall o total msgs st,
  st_count st + N.of_nat (length msgs) < total ->
  loop o total st msgs = fold_left (step o) msgs st.
Proof. exact Proofs.loop_ends_on_closed_channel. Qed.

(** The counters of the text summary are the numbers of filtered diagnostics per severity. *)
Theorem counts_exact : forall o files D msgs,
  Permutation msgs (sent files D) ->
  let s := st_sum (run o (N.of_nat (length files)) msgs) in
  s_err s = expected_count 1 o files D /\ s_warn s = expected_count 2 o files D
  /\ s_info s = expected_count 3 o files D /\ s_hint s = expected_count 4 o files D.
Proof. exact Proofs.counts_exact. Qed.

(** "Every task sends exactly once" is not assumed: with workers that await their send on the
    bounded channel (what lib.rs does — regenerated into [Gen.C36_send] on every run), every
    interleaving of workers and report loop that ends with nothing buffered or waiting delivers
    each file's message exactly once ... *)
Theorem every_task_delivers : forall D files sched,
  Permutation (produced sched) files ->
  drained (chan_run Gen.C36_send.worker_send_awaited capacity D sched) ->
  Permutation (arrivals D sched) (sent files D).
Proof. exact Proofs.every_task_delivers. Qed.

(** ... and only then: with [try_send] / a send that is not awaited a full channel loses results. *)
Theorem delivery_complete_iff_awaited : forall awaited,
  (forall cap D files sched, Permutation (produced sched) files -> drained (chan_run awaited cap D sched) ->
     Permutation (ch_delivered (chan_run awaited cap D sched)) (sent files D)) <-> awaited = true.
Proof. exact Proofs.delivery_complete_iff_awaited. Qed.

(** End to end, for every schedule of workers, channel and loop: exit status, report content and
    completion count. *)
Theorem checker_end_to_end : forall o D files sched,
  Permutation (produced sched) files ->
  drained (chan_run Gen.C36_send.worker_send_awaited capacity D sched) ->
  let st := run o (N.of_nat (length files)) (arrivals D sched) in
  (exit_code st <> 0 <->
     exists f ds d, In f files /\ D f = Some ds /\ In d ds /\ passes o d = true /\ is_error o d = true)
  /\ Permutation (report_pairs (st_writer st)) (expected_pairs o files D)
  /\ st_count st = N.of_nat (length files).
Proof. exact Proofs.checker_end_to_end. Qed.

(** non-vacuity: a file with a warning and a hint, a file without diagnostics, a file with
    diagnostics disabled, a file with an error and a severity-less diagnostic; four option sets *)
Example check_example :
  exit_code (run (ex_opts None false Json) 4 (sent [1; 2; 3; 4] ex_D)) = 1
  /\ exit_code (run (ex_opts None false Text) 3 (sent [3; 1; 2] ex_D)) = 0
  /\ exit_code (run (ex_opts None true Sarif) 3 (sent [2; 1; 3] ex_D)) = 1
  /\ exit_code (run (ex_opts (Some 1) true Json) 3 (sent [2; 1; 3] ex_D)) = 0
  /\ st_writer (run (ex_opts (Some 2) false Json) 4 (sent [4; 3; 2; 1] ex_D))
     = WJson [(4, [ {| d_sev := Some 1; d_id := 12 |} ]); (2, []); (1, [ {| d_sev := Some 2; d_id := 10 |} ])]
  /\ st_writer (run (ex_opts (Some 2) false Text) 4 (sent [4; 3; 2; 1] ex_D))
     = WText [(4, [ {| d_sev := Some 1; d_id := 12 |} ]); (1, [ {| d_sev := Some 2; d_id := 10 |} ])].
Proof. exact Proofs.check_example. Qed.
