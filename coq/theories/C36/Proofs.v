(** C36/Proofs.v — lemmas about the result loop of emmylua_check: the loop consumes exactly the
    messages of the spawned tasks, the exit code is a disjunction over the filtered diagnostics,
    the writers accumulate exactly the filtered diagnostics, whatever the arrival order. *)
From Coq Require Import Permutation Lia.
From EV Require Import Base.Perm C36.Model Gen.C36_send.
Local Open Scope N_scope.

Lemma flat_map_map : forall A B C (h : A -> B) (g : B -> list C) l,
  flat_map g (map h l) = flat_map (fun x => g (h x)) l.
Proof. induction l as [|x r IH]; cbn [map flat_map]; [reflexivity|]. rewrite IH. reflexivity. Qed.

Lemma filter_map_snd_length : forall A B (p : B -> bool) (l : list (A * B)),
  length (filter p (map snd l)) = length (filter (fun x => p (snd x)) l).
Proof.
  induction l as [|x r IH]; cbn [map filter]; [reflexivity|].
  destruct (p (snd x)); cbn [length]; rewrite IH; reflexivity.
Qed.

Lemma existsb_filter : forall A (p q : A -> bool) l,
  existsb p (filter q l) = existsb (fun x => q x && p x) l.
Proof.
  induction l as [|x r IH]; cbn [filter existsb]; [reflexivity|].
  destruct (q x); cbn [existsb andb]; rewrite IH; reflexivity.
Qed.

Lemma step_count : forall o st m, st_count (step o st m) = st_count st + 1.
Proof. reflexivity. Qed.

(** while the count cannot pass [total] before the messages run out, the exit test never cuts the loop short *)
Lemma loop_fold_le : forall o total msgs st,
  st_count st + N.of_nat (length msgs) <= total ->
  loop o total st msgs = fold_left (step o) msgs st.
Proof.
  induction msgs as [|m r IH]; intros st H; cbn [loop fold_left]; [reflexivity|].
  cbn [length] in H.
  destruct (N.eqb_spec (st_count (step o st m)) total) as [E|E].
  - rewrite step_count in E. destruct r as [|m' r']; [reflexivity|]. cbn [length] in H. lia.
  - apply IH. rewrite step_count. lia.
Qed.

Lemma fold_count : forall o msgs st,
  st_count (fold_left (step o) msgs st) = st_count st + N.of_nat (length msgs).
Proof.
  induction msgs as [|m r IH]; intros st; cbn [fold_left length]; [lia|].
  rewrite IH, step_count. lia.
Qed.

Lemma fold_sum : forall o msgs st,
  st_sum (fold_left (step o) msgs st) = fold_left (sum_step o) msgs (st_sum st).
Proof. induction msgs as [|m r IH]; intros st; cbn [fold_left]; [reflexivity|]. rewrite IH. reflexivity. Qed.

Lemma sent_length : forall files D, length (sent files D) = length files.
Proof. intros. unfold sent. apply map_length. Qed.

Lemma run_fold : forall o files D msgs,
  Permutation msgs (sent files D) ->
  run o (N.of_nat (length files)) msgs = fold_left (step o) msgs (init o).
Proof.
  intros o files D msgs Hp. unfold run. apply loop_fold_le.
  cbn [init st_count]. rewrite (Permutation_length Hp), sent_length. lia.
Qed.

Lemma loop_terminates : forall o files D msgs,
  Permutation msgs (sent files D) ->
  st_count (run o (N.of_nat (length files)) msgs) = N.of_nat (length files)
  /\ run o (N.of_nat (length files)) msgs = fold_left (step o) msgs (init o).
Proof.
  intros o files D msgs Hp. split; [|eapply run_fold; exact Hp].
  rewrite (run_fold o files D msgs Hp), fold_count. cbn [init st_count].
  rewrite (Permutation_length Hp), sent_length. lia.
Qed.

(** a task that dies before sending closes its sender: the loop still ends, on the drained channel *)
Lemma loop_ends_on_closed_channel : forall o total msgs st,
  st_count st + N.of_nat (length msgs) < total ->
  loop o total st msgs = fold_left (step o) msgs st.
Proof.
  intros o total msgs st H. apply loop_fold_le. lia.
Qed.

Definition cnt (k : N) (ds : list diag) : N := N.of_nat (length (filter (sev_is k) ds)).

Lemma cnt_cons : forall k d r, cnt k (d :: r) = (if sev_is k d then 1 else 0) + cnt k r.
Proof. intros k d r. unfold cnt. cbn [filter]. destruct (sev_is k d); cbn [length]; lia. Qed.

(** one diagnostic: the cascade of tests adds one to the counter of its severity *)
Lemma count_diag_spec : forall wae s d, let s' := count_diag wae s d in
  s_has_error s' = s_has_error s || (sev_is 1 d || (wae && sev_is 2 d))
  /\ s_err s' = s_err s + (if sev_is 1 d then 1 else 0)
  /\ s_warn s' = s_warn s + (if sev_is 2 d then 1 else 0)
  /\ s_info s' = s_info s + (if sev_is 3 d then 1 else 0)
  /\ s_hint s' = s_hint s + (if sev_is 4 d then 1 else 0).
Proof.
  intros wae s d. unfold count_diag, sev_is. destruct (d_sev d) as [x|].
  - (* the severity is 1, 2, 3, 4 or none of them: in each case the tests of both sides evaluate *)
    destruct (N.eqb_spec x 1) as [->|_];
      [|destruct (N.eqb_spec x 2) as [->|_];
        [|destruct (N.eqb_spec x 3) as [->|_];
          [|destruct (N.eqb_spec x 4) as [->|_]]]];
      cbn; rewrite ?andb_false_r, ?andb_true_r, ?orb_false_r, ?orb_true_r, ?N.add_0_r; repeat split; reflexivity.
  - cbn. rewrite andb_false_r, orb_false_r, !N.add_0_r. repeat split; reflexivity.
Qed.

Lemma count_fold_spec : forall wae ds s,
  s_has_error (fold_left (count_diag wae) ds s)
    = s_has_error s || existsb (fun d => sev_is 1 d || (wae && sev_is 2 d)) ds
  /\ s_err (fold_left (count_diag wae) ds s) = s_err s + cnt 1 ds
  /\ s_warn (fold_left (count_diag wae) ds s) = s_warn s + cnt 2 ds
  /\ s_info (fold_left (count_diag wae) ds s) = s_info s + cnt 3 ds
  /\ s_hint (fold_left (count_diag wae) ds s) = s_hint s + cnt 4 ds.
Proof.
  intros wae. induction ds as [|d r IH]; intros s; cbn [fold_left existsb].
  - unfold cnt. cbn [filter length]. rewrite orb_false_r, !N.add_0_r. repeat split; reflexivity.
  - destruct (IH (count_diag wae s d)) as (H0 & H1 & H2 & H3 & H4).
    destruct (count_diag_spec wae s d) as (G0 & G1 & G2 & G3 & G4).
    rewrite H0, H1, H2, H3, H4, G0, G1, G2, G3, G4, !cnt_cons, !orb_assoc, !N.add_assoc. repeat split; reflexivity.
Qed.

(** the diagnostics that survive the filter, in arrival order *)
Definition msg_pairs (o : opts) (m : message) : list (N * diag) :=
  match snd m with Some ds => map (pair (fst m)) (retain o ds) | None => [] end.
Definition msg_blocks (o : opts) (m : message) : list (N * list diag) :=
  match snd m with Some ds => [(fst m, retain o ds)] | None => [] end.
Definition all_retained (o : opts) (msgs : list message) : list diag :=
  map snd (flat_map (msg_pairs o) msgs).

Lemma sum_step_fold : forall o msgs s,
  fold_left (sum_step o) msgs s = fold_left (count_diag (o_wae o)) (all_retained o msgs) s.
Proof.
  intros o. unfold all_retained. induction msgs as [|m r IH]; intros s; cbn [fold_left flat_map map]; [reflexivity|].
  rewrite map_app, fold_left_app, IH. f_equal.
  unfold sum_step, msg_pairs. destruct (snd m) as [ds|]; [|reflexivity].
  rewrite map_map. cbn [snd]. rewrite map_id. reflexivity.
Qed.

Lemma retain_In : forall o d ds, In d (retain o ds) <-> (In d ds /\ passes o d = true).
Proof.
  intros o d ds. unfold retain, passes. destruct (o_filter o) as [f|].
  - apply filter_In.
  - tauto.
Qed.

Lemma flat_map_sent : forall B (g : message -> list B) files D msgs, Permutation msgs (sent files D) ->
  Permutation (flat_map g msgs) (flat_map (fun f => g (f, D f)) files).
Proof.
  intros B g files D msgs Hp. eapply perm_trans; [apply Permutation_flat_map; exact Hp|].
  unfold sent. rewrite flat_map_map. apply Permutation_refl.
Qed.

Lemma pairs_perm : forall o files D msgs, Permutation msgs (sent files D) ->
  Permutation (flat_map (msg_pairs o) msgs) (expected_pairs o files D).
Proof. intros o files D. exact (flat_map_sent _ (msg_pairs o) files D). Qed.

Lemma expected_pairs_In : forall o files D f d,
  In (f, d) (expected_pairs o files D) <->
  exists ds, In f files /\ D f = Some ds /\ In d ds /\ passes o d = true.
Proof.
  intros o files D f d. unfold expected_pairs. rewrite in_flat_map. split.
  - intros (f0 & Hf & Hin). destruct (D f0) as [ds|] eqn:E; [|destruct Hin].
    apply in_map_iff in Hin. destruct Hin as (d0 & Hpair & Hin). inversion Hpair; subst.
    apply retain_In in Hin. exists ds. tauto.
  - intros (ds & Hf & HD & Hd). exists f. split; [exact Hf|]. rewrite HD. apply in_map, retain_In, Hd.
Qed.

Lemma exit_iff_error : forall o files D msgs,
  Permutation msgs (sent files D) ->
  (exit_code (run o (N.of_nat (length files)) msgs) <> 0 <->
   exists f ds d, In f files /\ D f = Some ds /\ In d ds /\ passes o d = true /\ is_error o d = true).
Proof.
  intros o files D msgs Hp.
  rewrite (run_fold o files D msgs Hp). unfold exit_code. rewrite fold_sum, sum_step_fold.
  rewrite (proj1 (count_fold_spec (o_wae o) (all_retained o msgs) (st_sum (init o)))).
  cbn [init st_sum s_has_error orb]. fold (is_error o).
  assert (Hb : forall b : bool, (if b then 1 else 0) <> 0 <-> b = true) by (intros []; split; congruence).
  rewrite Hb, existsb_exists. unfold all_retained. split.
  - intros (d & Hin & He). apply in_map_iff in Hin. destruct Hin as ((f & d') & Hd & Hin). cbn [snd] in Hd. subst d'.
    apply (Permutation_in _ (pairs_perm o files D msgs Hp)), expected_pairs_In in Hin.
    destruct Hin as (ds & Hin). exists f, ds, d. tauto.
  - intros (f & ds & d & Hf & HD & Hd & Hpass & He). exists d. split; [|exact He].
    apply in_map_iff. exists (f, d). split; [reflexivity|].
    apply (Permutation_in _ (Permutation_sym (pairs_perm o files D msgs Hp))), expected_pairs_In.
    exists ds. tauto.
Qed.

Lemma writer_fold : forall o msgs st,
  st_writer (fold_left (step o) msgs st) =
  match st_writer st with
  | WJson b => WJson (b ++ flat_map (msg_blocks o) msgs)
  | WText b => WText (b ++ filter nonempty_block (flat_map (msg_blocks o) msgs))
  | WSarif r => WSarif (r ++ flat_map (msg_pairs o) msgs)
  end.
Proof.
  intros o. induction msgs as [|m r IH]; intros st; cbn [fold_left flat_map].
  - cbn [filter]. destruct (st_writer st); rewrite app_nil_r; reflexivity.
  - rewrite IH. cbn [step st_writer]. unfold msg_blocks, msg_pairs.
    destruct (snd m) as [ds|].
    + destruct (st_writer st) as [b|b|rs]; cbn [write].
      * rewrite <- app_assoc. reflexivity.
      * (* WText: an empty block is not written *)
        destruct (retain o ds) as [|d ds'] eqn:E; cbn [is_nil app filter nonempty_block snd negb].
        -- reflexivity.
        -- rewrite <- app_assoc. reflexivity.
      * destruct (retain o ds) as [|d ds'] eqn:E; cbn [is_nil map app].
        -- reflexivity.
        -- rewrite <- app_assoc. reflexivity.
    + destruct (st_writer st); reflexivity.
Qed.

Lemma blocks_pairs : forall o files D,
  flat_map (fun b => map (pair (fst b)) (snd b)) (expected_blocks o files D) = expected_pairs o files D.
Proof.
  intros o files D. unfold expected_blocks, expected_pairs.
  induction files as [|f r IH]; cbn [flat_map]; [reflexivity|].
  rewrite flat_map_app, IH. f_equal. destruct (D f); cbn [flat_map fst snd]; [apply app_nil_r|reflexivity].
Qed.

Lemma nonempty_pairs : forall (bs : list (N * list diag)),
  flat_map (fun b => map (pair (fst b)) (snd b)) (filter nonempty_block bs)
  = flat_map (fun b => map (pair (fst b)) (snd b)) bs.
Proof.
  induction bs as [|b r IH]; cbn [filter flat_map]; [reflexivity|].
  unfold nonempty_block at 1. destruct (snd b) as [|d ds] eqn:E; cbn [is_nil negb flat_map].
  - rewrite IH. reflexivity.
  - rewrite IH, E. reflexivity.
Qed.

Lemma report_exact : forall o files D msgs,
  Permutation msgs (sent files D) ->
  match o_format o, st_writer (run o (N.of_nat (length files)) msgs) with
  | Json, WJson b => Permutation b (expected_blocks o files D)
  | Text, WText b => Permutation b (filter nonempty_block (expected_blocks o files D))
  | Sarif, WSarif r => Permutation r (expected_pairs o files D)
  | _, _ => False
  end
  /\ Permutation (report_pairs (st_writer (run o (N.of_nat (length files)) msgs))) (expected_pairs o files D).
Proof.
  intros o files D msgs Hp.
  rewrite (run_fold o files D msgs Hp), writer_fold. cbn [init st_writer].
  pose proof (flat_map_sent _ (msg_blocks o) files D msgs Hp : Permutation _ (expected_blocks o files D)) as Hb.
  pose proof (pairs_perm o files D msgs Hp) as Hq.
  destruct (o_format o); cbn [new_writer app report_pairs].
  - split; [exact Hb|]. rewrite <- blocks_pairs. apply Permutation_flat_map. exact Hb.
  - split; [apply perm_filter; exact Hb|]. rewrite nonempty_pairs, <- blocks_pairs. apply Permutation_flat_map. exact Hb.
  - split; exact Hq.
Qed.

Lemma counts_exact : forall o files D msgs,
  Permutation msgs (sent files D) ->
  let s := st_sum (run o (N.of_nat (length files)) msgs) in
  s_err s = expected_count 1 o files D /\ s_warn s = expected_count 2 o files D
  /\ s_info s = expected_count 3 o files D /\ s_hint s = expected_count 4 o files D.
Proof.
  intros o files D msgs Hp. cbn zeta.
  rewrite (run_fold o files D msgs Hp), fold_sum, sum_step_fold.
  destruct (count_fold_spec (o_wae o) (all_retained o msgs) (st_sum (init o))) as (_ & H1 & H2 & H3 & H4).
  rewrite H1, H2, H3, H4. cbn [init st_sum s_err s_warn s_info s_hint].
  assert (forall k, cnt k (all_retained o msgs) = expected_count k o files D) as Hc.
  { intros k. unfold cnt, all_retained, expected_count. rewrite filter_map_snd_length. f_equal.
    apply Permutation_length, perm_filter, pairs_perm, Hp. }
  rewrite !Hc. repeat split; lia.
Qed.

Definition all_of (c : chan) : list message := ch_delivered c ++ ch_queue c ++ ch_blocked c.
Definition msg_of (D : N -> option (list diag)) (e : event) : list message :=
  match e with Produce f => [(f, D f)] | Consume => [] end.

Lemma chan_step_awaited : forall cap D c e,
  Permutation (all_of (chan_step true cap D c e)) (all_of c ++ msg_of D e).
Proof.
  intros cap D c e. unfold all_of. destruct e as [f|]; cbn [chan_step msg_of].
  - destruct (has_room cap (ch_queue c)); cbn [ch_queue ch_blocked ch_delivered].
    + rewrite <- !app_assoc. apply Permutation_app_head. apply Permutation_app_head. apply Permutation_app_comm.
    + rewrite <- !app_assoc. apply Permutation_refl.
  - rewrite app_nil_r. destruct (ch_queue c) as [|m r] eqn:Eq; [rewrite Eq; apply Permutation_refl|].
    destruct (ch_blocked c) as [|p ps]; cbn [ch_queue ch_blocked ch_delivered];
      rewrite <- !app_assoc; cbn [app]; apply Permutation_refl.
Qed.

Lemma chan_fold_awaited : forall cap D sched c,
  Permutation (all_of (fold_left (chan_step true cap D) sched c)) (all_of c ++ flat_map (msg_of D) sched).
Proof.
  intros cap D. induction sched as [|e r IH]; intros c; cbn [fold_left flat_map].
  - rewrite app_nil_r. apply Permutation_refl.
  - eapply perm_trans; [apply IH|]. rewrite app_assoc. apply Permutation_app_tail. apply chan_step_awaited.
Qed.

Lemma msgs_of_produced : forall D sched, flat_map (msg_of D) sched = sent (produced sched) D.
Proof.
  intros D. unfold sent, produced. induction sched as [|e r IH]; cbn [flat_map map]; [reflexivity|].
  rewrite map_app, IH. destruct e; reflexivity.
Qed.

Lemma awaited_delivers_all : forall cap D files sched,
  Permutation (produced sched) files -> drained (chan_run true cap D sched) ->
  Permutation (ch_delivered (chan_run true cap D sched)) (sent files D).
Proof.
  intros cap D files sched Hp [Hq Hb].
  pose proof (chan_fold_awaited cap D sched chan0) as H. unfold all_of in H.
  fold (chan_run true cap D sched) in H. rewrite Hq, Hb in H. cbn [chan0 ch_delivered ch_queue ch_blocked app] in H.
  rewrite app_nil_r in H. eapply perm_trans; [exact H|].
  rewrite msgs_of_produced. unfold sent. apply Permutation_map. exact Hp.
Qed.

(** every task's message arrives exactly once — because the worker awaits its send *)
Lemma every_task_delivers : forall D files sched,
  Permutation (produced sched) files ->
  drained (chan_run worker_send_awaited capacity D sched) ->
  Permutation (arrivals D sched) (sent files D).
Proof. intros D files sched Hp Hd. unfold arrivals. apply awaited_delivers_all; assumption. Qed.

Lemma delivery_complete_iff_awaited : forall awaited,
  (forall cap D files sched, Permutation (produced sched) files -> drained (chan_run awaited cap D sched) ->
     Permutation (ch_delivered (chan_run awaited cap D sched)) (sent files D)) <-> awaited = true.
Proof.
  intros awaited. split.
  - intros H. destruct awaited; [reflexivity|]. exfalso.
    specialize (H (Some 1) (fun _ => None) [1; 2] [Produce 1; Produce 2; Consume; Consume] (Permutation_refl _)).
    assert (drained (chan_run false (Some 1) (fun _ => None) [Produce 1; Produce 2; Consume; Consume])) as Hd
      by (vm_compute; split; reflexivity).
    specialize (H Hd). apply Permutation_length in H. vm_compute in H. discriminate.
  - intros ->. apply awaited_delivers_all.
Qed.

Lemma checker_end_to_end : forall o D files sched,
  Permutation (produced sched) files ->
  drained (chan_run worker_send_awaited capacity D sched) ->
  let st := run o (N.of_nat (length files)) (arrivals D sched) in
  (exit_code st <> 0 <->
     exists f ds d, In f files /\ D f = Some ds /\ In d ds /\ passes o d = true /\ is_error o d = true)
  /\ Permutation (report_pairs (st_writer st)) (expected_pairs o files D)
  /\ st_count st = N.of_nat (length files).
Proof.
  intros o D files sched Hp Hd. cbn zeta.
  pose proof (every_task_delivers D files sched Hp Hd) as Hm.
  split; [apply exit_iff_error; exact Hm|]. split; [apply report_exact; exact Hm|].
  apply loop_terminates with (D := D). exact Hm.
Qed.

Definition ex_D (f : N) : option (list diag) :=
  if f =? 1 then Some [ {| d_sev := Some 2; d_id := 10 |}; {| d_sev := Some 4; d_id := 11 |} ]
  else if f =? 2 then Some []
  else if f =? 3 then None
  else Some [ {| d_sev := Some 1; d_id := 12 |}; {| d_sev := None; d_id := 13 |} ].

Definition ex_opts (filter : option N) (wae : bool) (f : format) : opts :=
  {| o_filter := filter; o_wae := wae; o_format := f |}.

Lemma check_example :
  exit_code (run (ex_opts None false Json) 4 (sent [1; 2; 3; 4] ex_D)) = 1
  /\ exit_code (run (ex_opts None false Text) 3 (sent [3; 1; 2] ex_D)) = 0
  /\ exit_code (run (ex_opts None true Sarif) 3 (sent [2; 1; 3] ex_D)) = 1
  /\ exit_code (run (ex_opts (Some 1) true Json) 3 (sent [2; 1; 3] ex_D)) = 0
  /\ st_writer (run (ex_opts (Some 2) false Json) 4 (sent [4; 3; 2; 1] ex_D))
     = WJson [(4, [ {| d_sev := Some 1; d_id := 12 |} ]); (2, []); (1, [ {| d_sev := Some 2; d_id := 10 |} ])]
  /\ st_writer (run (ex_opts (Some 2) false Text) 4 (sent [4; 3; 2; 1] ex_D))
     = WText [(4, [ {| d_sev := Some 1; d_id := 12 |} ]); (1, [ {| d_sev := Some 2; d_id := 10 |} ])].
Proof. vm_compute. repeat split. Qed.
