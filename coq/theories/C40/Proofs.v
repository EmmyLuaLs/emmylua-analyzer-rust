(** C40/Proofs.v — lemmas about the converter model of C40/Model.v. *)
From EV Require Import C40.Model C40.Spec Base.JsonFacts.
From Coq Require Import Lia Arith String Ascii.
From Coq Require Import List.
Import ListNotations.
Local Open Scope N_scope.
Local Arguments N.eqb : simpl nomatch.
Local Arguments N.ltb : simpl nomatch.
Local Arguments N.leb : simpl nomatch.

Lemma hex_digit_ge_48 : forall n, 48 <= hex_digit n.
Proof. intros n. unfold hex_digit. destruct (N.ltb_spec n 10); lia. Qed.

(** an escape sequence consists of '\\', letters and hex digits, all from '0' upwards; every other char
    stands for itself *)
Lemma esc_char_clean : forall c x, In x (esc_char c) -> x <> DQ /\ x <> NL /\ x <> CR /\ x <> 0.
Proof.
  intros c x. unfold esc_char, DQ, NL, CR, TAB, BSL.
  assert (G : forall y, 48 <= y -> y <> 34 /\ y <> 10 /\ y <> 13 /\ y <> 0).
  { intros y Hy. repeat split; intros ->; apply Hy; reflexivity. }
  destruct (N.eqb_spec c 92) as [->|N1]; [intros [<-|[<-|[]]]; apply G; discriminate|].
  destruct (N.eqb_spec c 34) as [->|N2]; [intros [<-|[<-|[<-|[<-|[]]]]]; apply G; discriminate|].
  destruct (N.eqb_spec c 10) as [->|N3]; [intros [<-|[<-|[]]]; apply G; discriminate|].
  destruct (N.eqb_spec c 13) as [->|N4]; [intros [<-|[<-|[]]]; apply G; discriminate|].
  destruct (N.eqb_spec c 9) as [->|N5]; [intros [<-|[<-|[]]]; apply G; discriminate|].
  destruct ((c <? 32) || (c =? 127)) eqn:E.
  - intros [<-|[<-|[<-|[<-|[]]]]]; apply G; try discriminate; apply hex_digit_ge_48.
  - intros [<-|[]]. apply orb_false_iff, proj1, N.ltb_ge in E.
    repeat split; try assumption. intros ->. apply E. reflexivity.
Qed.

Lemma esc_body_clean : forall s x, In x (esc_body s) -> x <> DQ /\ x <> NL /\ x <> CR /\ x <> 0.
Proof.
  intros s x H. apply in_flat_map in H. destruct H as [c [_ H]]. exact (esc_char_clean c x H).
Qed.

Lemma quote_clean : forall s, clean_text (quote_lua_string s).
Proof.
  intros s x [<-|H]; [repeat split; discriminate|].
  apply in_app_or in H. destruct H as [H|[<-|[]]]; [apply esc_body_clean in H; tauto|repeat split; discriminate].
Qed.

Lemma eat_until_quote_app : forall b f,
  (forall x, In x b -> x <> DQ) -> eat_until_quote (b ++ DQ :: f) = (b, DQ :: f).
Proof.
  induction b as [|c b IH]; intros f H; cbn [app eat_until_quote].
  - rewrite N.eqb_refl. reflexivity.
  - rewrite (proj2 (N.eqb_neq c DQ)) by (apply H; left; reflexivity).
    rewrite IH; [reflexivity|]. intros x Hx. apply H. right. exact Hx.
Qed.

(** the lexer reads the emitted literal as exactly one, closed, string token *)
Lemma quote_one_token : forall s f,
  lex_string (quote_lua_string s ++ f) = Some (quote_lua_string s, f, true).
Proof.
  intros s f. unfold quote_lua_string. cbn [app lex_string]. rewrite N.eqb_refl.
  rewrite <- app_assoc. cbn [app].
  rewrite eat_until_quote_app; [|intros x Hx; apply esc_body_clean in Hx; tauto].
  rewrite N.eqb_refl. reflexivity.
Qed.

Lemma hex_val_digit : forall n, n < 16 -> hex_val (hex_digit n) = Some n.
Proof.
  intros n H. unfold hex_digit, hex_val, ascii_digit.
  destruct (N.ltb_spec n 10).
  - rewrite (proj2 (N.leb_le 48 (48 + n))), (proj2 (N.leb_le (48 + n) 57)) by lia. cbn [andb]. f_equal. lia.
  - rewrite (proj2 (N.leb_gt (55 + n) 57)), andb_false_r by lia.
    rewrite (proj2 (N.leb_le 65 (55 + n))), (proj2 (N.leb_le (55 + n) 70)) by lia. cbn [andb]. f_equal. lia.
Qed.

Lemma unescape_esc_char : forall c fuel rest,
  unescape (S fuel) (esc_char c ++ rest) = option_map (cons c) (unescape fuel rest).
Proof.
  intros c fuel rest. unfold esc_char, DQ, NL, CR, TAB, BSL.
  destruct (N.eqb_spec c 92) as [->|N1]; [reflexivity|].
  destruct (N.eqb_spec c 34) as [->|N2]; [reflexivity|].
  destruct (N.eqb_spec c 10) as [->|N3]; [reflexivity|].
  destruct (N.eqb_spec c 13) as [->|N4]; [reflexivity|].
  destruct (N.eqb_spec c 9) as [->|N5]; [reflexivity|].
  destruct ((c <? 32) || (c =? 127)) eqn:E.
  - assert (Hc : c < 128).
    { apply orb_true_iff in E. destruct E as [E|E]; [apply N.ltb_lt in E|apply N.eqb_eq in E]; lia. }
    cbn [app unescape]. cbn.
    rewrite (hex_val_digit (c / 16)) by (apply N.div_lt_upper_bound; lia).
    rewrite (hex_val_digit (c mod 16)) by (apply N.mod_lt; lia).
    rewrite <- (N.div_mod' c 16). reflexivity.
  - cbn [app unescape]. unfold BSL. rewrite (proj2 (N.eqb_neq c 92) N1). reflexivity.
Qed.

Lemma unescape_esc_body : forall s fuel, (length s < fuel)%nat -> unescape fuel (esc_body s) = Some s.
Proof.
  induction s as [|c r IH]; intros [|fuel] Hf; cbn [length] in Hf; try lia; [reflexivity|].
  unfold esc_body. cbn [flat_map]. rewrite unescape_esc_char.
  fold (esc_body r). rewrite IH by lia. reflexivity.
Qed.

Lemma esc_body_length : forall s, (length s <= length (esc_body s))%nat.
Proof.
  induction s as [|c r IH]; [reflexivity|]. unfold esc_body in *. cbn [flat_map length]. rewrite app_length.
  enough (1 <= length (esc_char c))%nat by lia. unfold esc_char.
  repeat match goal with |- context [if ?b then _ else _] => destruct b end; cbn [length]; lia.
Qed.

(** the old rendering: a quote inside the value ends the token early *)
Lemma old_quote_refuted : exists s f,
  lex_string (old_quote s ++ f) <> Some (old_quote s, f, true) /\
  lex_string (old_quote s ++ f) = Some ([DQ; 97; DQ], [98; DQ] ++ f, true).
Proof. exists [97; DQ; 98], [93]. split; [discriminate|reflexivity]. Qed.

Fixpoint cleanb (l : text) : bool :=
  match l with [] => true | c :: r => negb (c =? NL) && negb (c =? CR) && negb (c =? 0) && cleanb r end.

Lemma clean_nil : clean_text [].
Proof. intros c []. Qed.

Lemma clean_cons : forall c l, c <> NL -> c <> CR -> c <> 0 -> clean_text l -> clean_text (c :: l).
Proof. intros c l H1 H2 H3 Hl x [Hx|Hx]; [subst x; tauto|apply Hl; exact Hx]. Qed.

Lemma clean_app : forall a b, clean_text a -> clean_text b -> clean_text (a ++ b).
Proof. intros a b Ha Hb c H. apply in_app_or in H. destruct H; [apply Ha|apply Hb]; assumption. Qed.

Lemma cleanb_clean : forall l, cleanb l = true -> clean_text l.
Proof.
  induction l as [|c r IH]; intros H; [apply clean_nil|].
  cbn [cleanb] in H. rewrite !andb_true_iff, !negb_true_iff, !N.eqb_neq in H.
  apply clean_cons; [tauto..|apply IH; tauto].
Qed.

(** Texts are put together from literals and clean parts with [++]: [auto with clean] takes them apart again;
    a closed text is clean by evaluation of [cleanb]. *)
Create HintDb clean.
#[local] Hint Resolve clean_nil clean_app quote_clean : clean.
#[local] Hint Extern 4 (clean_text _) => apply cleanb_clean; reflexivity : clean.

Lemma join_clean : forall sep l, clean_text sep -> Forall clean_text l -> clean_text (join sep l).
Proof.
  intros sep l Hs H. induction H as [|x r Hx Hr IH]; [apply clean_nil|].
  destruct r as [|y r']; [exact Hx|].
  change (join sep (x :: y :: r')) with (x ++ sep ++ join sep (y :: r')). auto with clean.
Qed.

Lemma clean_piece_clean : forall p, clean_text (clean_piece p).
Proof.
  intros p c H. apply in_map_iff in H. destruct H as [x [E _]].
  destruct (is_control x && negb (x =? TAB)) eqn:B; subst c; [repeat split; discriminate|].
  repeat split; intros ->; discriminate B.
Qed.

Lemma escape_start_clean : forall g s, clean_text s -> clean_text (escape_start g s).
Proof.
  induction s as [|c r IH]; intros H; [exact H|]. cbn [escape_start].
  destruct (is_blank c).
  - apply clean_cons; [apply H; left; reflexivity..|]. apply IH. intros y Hy. apply H. right. exact Hy.
  - destruct ((c =? AT) || (g && continues_tag (c :: r))); [|exact H].
    apply clean_cons; [discriminate..|exact H].
Qed.

Lemma escape_start_no_tag : forall g s, no_tag_start (escape_start g s) = true.
Proof.
  induction s as [|c r IH]; [reflexivity|]. cbn [escape_start]. unfold is_blank.
  destruct ((c =? SP) || (c =? TAB)) eqn:E1.
  - cbn [no_tag_start]. rewrite E1. exact IH.
  - destruct (c =? AT) eqn:E2; [reflexivity|]. cbn [orb].
    destruct (g && continues_tag (c :: r)); [reflexivity|].
    cbn [no_tag_start]. rewrite E1, E2. reflexivity.
Qed.

Lemma in_guard_lines : forall ps g l, In l (guard_lines g ps) -> exists g' p, In p ps /\ l = escape_start g' p.
Proof.
  induction ps as [|p r IH]; intros g l H; [destruct H|]. cbn [guard_lines] in H. destruct H as [H|H].
  - exists g, p. split; [left; reflexivity|symmetry; exact H].
  - destruct (IH _ _ H) as [g' [p' [Hp El]]]. exists g', p'. split; [right; exact Hp|exact El].
Qed.

Lemma doc_comment_lines_ok : forall a t l,
  In l (doc_comment_lines a t) -> clean_text l /\ no_tag_start l = true.
Proof.
  intros a t l H. apply in_guard_lines in H. destruct H as [g [p [Hp ->]]].
  apply in_map_iff in Hp. destruct Hp as [x [<- _]].
  split; [apply escape_start_clean, clean_piece_clean|apply escape_start_no_tag].
Qed.

Lemma escape_start_blank : forall g s, blank_line s = true -> escape_start g s = s.
Proof.
  induction s as [|c r IH]; intros H; [reflexivity|]. cbn [blank_line forallb] in H.
  apply andb_true_iff in H. destruct H as [Hc Hr]. cbn [escape_start]. rewrite Hc. f_equal. apply IH. exact Hr.
Qed.

Lemma escape_start_guarded : forall s,
  blank_line s = false ->
  blank_line (escape_start true s) = false /\ continues_tag (skip_blanks (escape_start true s)) = false.
Proof.
  induction s as [|c r IH]; intros H; [discriminate H|]. cbn [blank_line forallb] in H. cbn [escape_start].
  destruct (is_blank c) eqn:Ec.
  - cbn [blank_line forallb skip_blanks]. rewrite Ec. exact (IH H).
  - destruct ((c =? AT) || (true && continues_tag (c :: r))) eqn:E; [split; reflexivity|].
    cbn [blank_line forallb skip_blanks]. rewrite Ec. split; [reflexivity|].
    apply orb_false_iff in E. exact (proj2 E).
Qed.

(** after a tag line, the first non-blank line of the block cannot continue the tag *)
Lemma guard_lines_no_continuation : forall ps, no_continuation (guard_lines true ps) = true.
Proof.
  induction ps as [|p r IH]; [reflexivity|]. cbn [guard_lines no_continuation andb].
  destruct (blank_line p) eqn:E.
  - rewrite (escape_start_blank true p E), E. exact IH.
  - destruct (escape_start_guarded p E) as [H1 H2]. rewrite H1, H2. reflexivity.
Qed.

Lemma field_description_guarded : forall t, no_continuation (doc_comment_lines true t) = true.
Proof. intros t. apply guard_lines_no_continuation. Qed.

Lemma single_line_clean : forall t, clean_text (single_line t).
Proof.
  intros t. apply join_clean; [auto with clean|].
  apply Forall_forall. intros l H. apply (doc_comment_lines_ok false t l H).
Qed.

Section Names.
  Variables is_alpha is_alnum : cp -> bool.
  Hypothesis Hsub : forall c, is_alpha c = true -> is_alnum c = true.
  Hypothesis Hascii : forall c, c < 128 -> is_alnum c = ascii_alnum c.

  Notation nc := (is_name_continue is_alnum).
  Notation ns := (is_name_start is_alpha).

  Notation follow_ok := (Spec.follow_ok is_alnum).

  Lemma nc_usc : nc USC = true.
  Proof. unfold is_name_continue. rewrite N.eqb_refl. apply orb_true_r. Qed.

  Lemma sep_not_nc : forall c, is_sep c = true -> nc c = false.
  Proof.
    intros c H. unfold is_sep, DOT in H. rewrite !orb_true_iff, !N.eqb_eq in H.
    unfold is_name_continue, USC. destruct H as [[->| ->]| ->]; rewrite Hascii by lia; reflexivity.
  Qed.

  Lemma ns_nc : forall c, ns c = true -> nc c = true.
  Proof.
    intros c H. unfold is_name_start in H. unfold is_name_continue.
    apply orb_true_iff in H. destruct H as [H|H]; [rewrite (Hsub c H); reflexivity|rewrite H; apply orb_true_r].
  Qed.

  (** every char continues a name, or is a '.' followed by a char that does *)
  Fixpoint dotted (n : text) : bool :=
    match n with
    | [] => true
    | c :: r => if nc c then dotted r
                else (c =? DOT) && match r with x :: _ => nc x | [] => false end && dotted r
    end.
  Lemma read_dotted : forall n f,
    dotted n = true -> follow_ok f = true -> read_name_rest is_alnum (n ++ f) = (n, f).
  Proof.
    induction n as [|c r IH]; intros f Hn Hf.
    - cbn [app]. destruct f as [|x f']; [reflexivity|].
      cbn [follow_ok] in Hf. rewrite !andb_true_iff, !negb_true_iff in Hf. destruct Hf as [[H1 H2] H3].
      cbn [read_name_rest]. rewrite H1, H2, H3. reflexivity.
    - cbn [app read_name_rest]. cbn [dotted] in Hn. destruct (nc c) eqn:E.
      + rewrite (IH f Hn Hf). reflexivity.
      + rewrite !andb_true_iff, N.eqb_eq in Hn. destruct Hn as [[-> Hx] Hd].
        change (is_sep DOT) with true. destruct r as [|x r']; [discriminate Hx|]. cbn [app].
        assert (Hsx : is_sep x = false).
        { destruct (is_sep x) eqn:Es; [|reflexivity]. rewrite (sep_not_nc x Es) in Hx. discriminate Hx. }
        rewrite Hsx. change (x :: r' ++ f) with ((x :: r') ++ f). rewrite (IH f Hd Hf). reflexivity.
  Qed.

  Lemma dotted_unsnoc : forall p c,
    dotted (p ++ [c; USC]) = true -> (c =? DOT) = false -> dotted (p ++ [c]) = true.
  Proof.
    induction p as [|a p IH]; intros c H Hc; cbn [app dotted] in H |- *.
    - destruct (nc c); [reflexivity|]. rewrite Hc in H. discriminate H.
    - destruct (nc a); [apply IH; assumption|].
      rewrite !andb_true_iff in H |- *. destruct H as [[Ha Hx] Hd].
      split; [split; [exact Ha|destruct p; exact Hx]|apply IH; assumption].
  Qed.

  Lemma nc_dot : nc DOT = false.
  Proof. apply sep_not_nc. reflexivity. Qed.

  (** the loop after its first iteration *)
  Lemma go_shape : forall s after,
    dotted (sanitize_go is_alpha is_alnum s false after ++ [USC]) = true /\
    (after = false -> match sanitize_go is_alpha is_alnum s false after with x :: _ => nc x = true | [] => True end).
  Proof.
    induction s as [|c r IH]; intros after.
    { split; [cbn [sanitize_go app dotted]; rewrite nc_usc; reflexivity|intros _; exact I]. }
    cbn [sanitize_go]. destruct (is_alnum c || (c =? USC)) eqn:E.
    - cbn [andb app]. split; [|intros _; exact E].
      cbn [dotted]. unfold is_name_continue at 1. rewrite E. apply (IH true).
    - destruct ((c =? DOT) && after) eqn:E2.
      + apply andb_true_iff in E2. destruct E2 as [_ ->]. split; [|discriminate].
        cbn [app dotted]. rewrite nc_dot, N.eqb_refl. cbn [andb].
        destruct (IH false) as [I1 I2]. rewrite I1. specialize (I2 eq_refl).
        destruct (sanitize_go is_alpha is_alnum r false false); cbn [app]; [rewrite nc_usc|rewrite I2]; reflexivity.
      + split; [|intros _; apply nc_usc]. cbn [app dotted]. rewrite nc_usc. apply (IH true).
  Qed.

  Lemma ns_usc : ns USC = true.
  Proof. unfold is_name_start. rewrite N.eqb_refl. apply orb_true_r. Qed.

  (** the whole loop: a name-start character, then a text that is dotted but for a '.' at its end *)
  Lemma sanitize_go_first : forall s,
    sanitize_go is_alpha is_alnum s true false = [] \/
    exists h b, sanitize_go is_alpha is_alnum s true false = h :: b /\ ns h = true /\ dotted (b ++ [USC]) = true.
  Proof.
    intros [|c r]; [left; reflexivity|right]. cbn [sanitize_go].
    destruct (is_alnum c || (c =? USC)) eqn:E.
    - cbn [andb]. destruct (is_alpha c || (c =? USC)) eqn:E1; cbn [negb app].
      + exists c, (sanitize_go is_alpha is_alnum r false true). split; [reflexivity|]. split; [exact E1|]. apply (go_shape r true).
      + exists USC, (c :: sanitize_go is_alpha is_alnum r false true). split; [reflexivity|]. split; [apply ns_usc|].
        cbn [app dotted]. unfold is_name_continue at 1. rewrite E. apply (go_shape r true).
    - rewrite andb_false_r. exists USC, (sanitize_go is_alpha is_alnum r false true).
      split; [reflexivity|]. split; [apply ns_usc|]. apply (go_shape r true).
  Qed.

  Lemma lex_name_of_shape : forall h b f,
    ns h = true -> dotted b = true -> follow_ok f = true ->
    lex_name is_alpha is_alnum ((h :: b) ++ f) = Some (h :: b, f).
  Proof.
    intros h b f Hh Hb Hf. cbn [app lex_name]. rewrite Hh. rewrite (read_dotted b f Hb Hf). reflexivity.
  Qed.

  (** the doc lexer reads a sanitised type name as exactly one name token *)
  Lemma type_name_one_token : forall s f,
    follow_ok f = true ->
    lex_name is_alpha is_alnum (sanitize_type_name is_alpha is_alnum s ++ f) = Some (sanitize_type_name is_alpha is_alnum s, f).
  Proof.
    intros s f Hf. unfold sanitize_type_name.
    destruct (sanitize_go_first s) as [E|[h [b [E [Hh Hb]]]]]; rewrite E.
    - apply (lex_name_of_shape USC [] f ns_usc eq_refl Hf).
    - assert (Hhd : (h =? DOT) = false).
      { destruct (N.eqb_spec h DOT) as [X|X]; [|reflexivity]. subst h. pose proof (ns_nc DOT Hh) as Y.
        rewrite nc_dot in Y. discriminate Y. }
      unfold ends_with_dot. destruct b as [|c b' _] using rev_ind; cbn [rev].
      + cbn [app]. rewrite Hhd. apply lex_name_of_shape; [exact Hh|reflexivity|exact Hf].
      + rewrite rev_unit. cbn [app]. rewrite <- app_assoc in Hb. destruct (c =? DOT) eqn:Ec.
        * rewrite <- app_assoc. apply (lex_name_of_shape h (b' ++ [c; USC])); [exact Hh|exact Hb|exact Hf].
        * apply (lex_name_of_shape h (b' ++ [c])); [exact Hh|apply dotted_unsnoc; assumption|exact Hf].
  Qed.

End Names.

(** used instead of [injection], which would evaluate the string literals in the lines *)
Lemma some_inj : forall (A : Type) (a b : A), Some a = Some b -> a = b.
Proof. intros A a b H. congruence. Qed.

Lemma option_map_some : forall (A B : Type) (f : A -> B) o y,
  option_map f o = Some y -> exists x, o = Some x /\ y = f x.
Proof. intros A B f [x|] y H; cbn [option_map] in H; [apply some_inj in H as <-; eauto|discriminate H]. Qed.

Lemma option_map_total : forall (A B : Type) (f : A -> B) o, o <> None -> option_map f o <> None.
Proof. intros A B f [x|] H; [discriminate|contradiction]. Qed.

Lemma all_some_Forall : forall (A B : Type) (f : A -> option B) (P : B -> Prop) l ts,
  all_some (map f l) = Some ts -> (forall x t, f x = Some t -> P t) -> Forall P ts.
Proof.
  induction l as [|x r IH]; intros ts H HP; cbn [map all_some] in H.
  - apply some_inj in H as <-. constructor.
  - destruct (f x) as [y|] eqn:E; [|discriminate H].
    apply option_map_some in H. destruct H as [ys [Er ->]]. constructor.
    + exact (HP x y E).
    + exact (IH ys Er HP).
Qed.

Lemma all_some_total : forall (A B : Type) (f : A -> option B) l,
  (forall x, In x l -> f x <> None) -> all_some (map f l) <> None.
Proof.
  induction l as [|x r IH]; intros H; cbn [map all_some]; [discriminate|].
  destruct (f x) as [y|] eqn:E; [|exfalso; apply (H x); [left; reflexivity|exact E]].
  apply option_map_total, IH. intros x' Hin. apply H. right. exact Hin.
Qed.

Section Types.
  Variables is_alpha is_alnum : cp -> bool.
  Hypothesis Hsub : forall c, is_alpha c = true -> is_alnum c = true.
  Hypothesis Hascii : forall c, c < 128 -> is_alnum c = ascii_alnum c.

  Notation nc := (is_name_continue is_alnum).
  Notation name_tok := (Spec.name_tok is_alpha is_alnum).
  Notation ty_atom := (Spec.ty_atom is_alpha is_alnum).
  Notation ty_expr := (Spec.ty_expr is_alpha is_alnum).
  Notation sanitize := (sanitize_type_name is_alpha is_alnum).

  Lemma nc_clean : forall c, nc c = true -> c <> NL /\ c <> CR /\ c <> 0.
  Proof.
    intros c H. unfold NL, CR. repeat split; intros E; subst c; unfold is_name_continue in H;
      rewrite Hascii in H by lia; discriminate H.
  Qed.

  Lemma sanitize_go_clean : forall s first after, clean_text (sanitize_go is_alpha is_alnum s first after).
  Proof.
    induction s as [|c r IH]; intros first after; cbn [sanitize_go]; [apply clean_nil|].
    destruct (is_alnum c || (c =? USC)) eqn:E.
    - apply clean_app; [destruct (first && _); auto with clean|].
      intros x [<-|Hx]; [apply nc_clean, E|apply (IH _ _ x Hx)].
    - destruct ((c =? DOT) && after); apply clean_cons; try discriminate; apply IH.
  Qed.

  Lemma sanitize_clean : forall s, clean_text (sanitize s).
  Proof.
    intros s. unfold sanitize_type_name. pose proof (sanitize_go_clean s true false) as H.
    destruct (sanitize_go is_alpha is_alnum s true false); [|destruct (ends_with_dot _)]; auto with clean.
  Qed.

  Lemma sanitize_name_tok : forall s, name_tok (sanitize s).
  Proof. intros s f Hf. apply (type_name_one_token is_alpha is_alnum Hsub Hascii). exact Hf. Qed.

  (** invariant of a rendered type: in the grammar, atomic when it says so, on one line *)
  Definition good_ty (t : lua_type) : Prop :=
    ty_expr (ty_text t) /\ (ty_atomic t = true -> ty_atom (ty_text t)) /\ clean_text (ty_text t).

  Lemma good_atom : forall x, ty_atom x -> clean_text x -> good_ty (atom x).
  Proof. intros x H Hc. split; [apply E_atom; exact H|]. split; [intros _; exact H|exact Hc]. Qed.

  Lemma T_clean : forall s, cleanb (T s) = true -> clean_text (T s).
  Proof. intros s. apply cleanb_clean. Qed.

  Lemma in_prims : forall p, existsb (text_eqb p) prims = true -> In p prims.
  Proof.
    intros p H. apply existsb_exists in H. destruct H as (q & Hq & E).
    destruct (text_eqb_spec p q); [subst q; exact Hq|discriminate E].
  Qed.

  Lemma prim_atom : forall p, In p prims -> ty_atom p /\ clean_text p.
  Proof.
    intros p H. split; [apply A_prim; exact H|]. revert p H. apply Forall_forall.
    repeat apply Forall_cons; try apply Forall_nil; auto with clean.
  Qed.

  Lemma good_prim : forall p, In p prims -> good_ty (atom p).
  Proof. intros p H. apply good_atom; apply (prim_atom p H). Qed.

  Lemma good_any : good_ty ty_any.
  Proof. apply good_prim, in_prims. reflexivity. Qed.

  Lemma good_quote : forall s, good_ty (atom (quote_lua_string s)).
  Proof. intros s. apply good_atom; [apply A_str|apply quote_clean]. Qed.

  Lemma good_name : forall s, good_ty (atom (sanitize s)).
  Proof. intros s. apply good_atom; [apply A_name, sanitize_name_tok|apply sanitize_clean]. Qed.

  Lemma good_wrapped : forall t, good_ty t -> ty_atom (wrapped t) /\ clean_text (wrapped t).
  Proof.
    intros t [He [Ha Hc]]. unfold wrapped. destruct (ty_atomic t).
    - split; [apply Ha; reflexivity|exact Hc].
    - split; [apply A_paren; exact He|auto with clean].
  Qed.

  Lemma good_union : forall ms, Forall good_ty ms -> good_ty (ty_union ms).
  Proof.
    intros ms H. destruct ms as [|m1 [|m2 r]]; [apply good_any|exact (Forall_inv H)|].
    unfold ty_union. set (l := m1 :: m2 :: r) in *.
    assert (Hw : Forall (fun x => ty_atom x /\ clean_text x) (map wrapped l)).
    { apply Forall_map. revert H. apply Forall_impl. exact good_wrapped. }
    split; [|split]; cbn [ty_text ty_atomic]; [|discriminate|].
    - apply E_union; [cbn [l map length]; lia|]. revert Hw. apply Forall_impl. tauto.
    - apply join_clean; [auto with clean|]. revert Hw. apply Forall_impl. tauto.
  Qed.

  Lemma good_optional : forall t, good_ty t -> good_ty (ty_optional t).
  Proof.
    intros t H. unfold ty_optional. destruct (ty_nullable t); [exact H|].
    destruct (good_wrapped t H) as [Ha Hc]. split; [|split]; cbn [ty_text ty_atomic].
    - apply E_opt. exact Ha.
    - discriminate.
    - auto with clean.
  Qed.

  Lemma good_array : forall t, good_ty t -> good_ty (ty_array t).
  Proof.
    intros t H. destruct (good_wrapped t H) as [Ha Hc]. apply good_atom; [apply A_arr; exact Ha|auto with clean].
  Qed.

  Lemma good_map : forall v, good_ty v -> good_ty (atom (T "table<string, " ++ ty_text v ++ T ">")).
  Proof. intros v [He [_ Hc]]. apply good_atom; [apply A_map; exact He|auto with clean]. Qed.

  Lemma good_json_type : forall t, good_ty (atom (json_type_to_lua t)).
  Proof.
    intros t. unfold json_type_to_lua.
    repeat match goal with |- context [if ?b then _ else _] => destruct b end;
      try (apply good_prim, in_prims; reflexivity).
    exact (good_array ty_any good_any).
  Qed.

  Lemma good_quotes : forall vs, good_ty (ty_union (map (fun s => atom (quote_lua_string s)) vs)).
  Proof. intros vs. apply good_union, Forall_map, Forall_forall. intros s _. apply good_quote. Qed.

  Variable prefix : text.

  (** every type text the walker renders is in the grammar *)
  Lemma resolve_type_good : forall fuel schema t,
    resolve_type is_alpha is_alnum prefix fuel schema = Some t -> good_ty t.
  Proof.
    induction fuel as [|fuel IH]; intros schema t H; [discriminate H|].
    cbn [resolve_type] in H.
    destruct (get_str "$ref" schema) as [r|]; [apply some_inj in H as <-; apply good_name|].
    destruct (get_arr "anyOf" schema) as [l|].
    { destruct (all_some _) as [ts|] eqn:E in H; [apply some_inj in H as <-|discriminate H].
      assert (Hts : good_ty (ty_union ts)).
      { apply good_union. eapply all_some_Forall; [exact E|]. exact IH. }
      destruct (existsb is_null_item l); [apply good_optional|]; exact Hts. }
    destruct (get_arr "oneOf" schema) as [l|].
    { destruct (all_some _) as [ts|] eqn:E in H; [apply some_inj in H as <-|discriminate H].
      apply good_union. eapply all_some_Forall; [exact E|]. intros x y Hx. cbv beta in Hx.
      destruct (get_str "const" x) as [c|]; [apply some_inj in Hx as <-; apply good_quote|apply (IH x y Hx)]. }
    destruct (Model.get "type" schema) as [[| | | s | arr | m]|].
    1-3, 6-7: (* no "type", or one that is neither a string nor an array *)
      destruct (get_arr "enum" schema); [|destruct (get_str "const" schema)]; apply some_inj in H as <-;
      [apply good_quotes|apply good_quote|apply good_any].
    - (* "type": a string *)
      destruct (text_eqb s (T "array")).
      { destruct (Model.get "items" schema) as [items|]; [|apply some_inj in H as <-; apply good_array, good_any].
        apply option_map_some in H. destruct H as [it [E ->]]. apply good_array, (IH items it E). }
      destruct (text_eqb s (T "object")); [|apply some_inj in H as <-; apply good_json_type].
      destruct (Model.get "additionalProperties" schema) as [[| | | | |m]|].
      1-5, 7: apply some_inj in H as <-; apply good_prim, in_prims; reflexivity.
      apply option_map_some in H. destruct H as [v [E ->]]. apply good_map, (IH _ v E).
    - (* "type": an array of type names *)
      set (names := filter _ _) in H.
      assert (Hu : good_ty (ty_union (map (fun t0 => atom (json_type_to_lua t0)) names))).
      { apply good_union, Forall_map, Forall_forall. intros n _. apply good_json_type. }
      destruct names, (existsb _ arr); apply some_inj in H as <-; try exact Hu; try (apply good_optional; exact Hu).
      apply good_prim, in_prims. reflexivity.
  Qed.

  (** [?] is only ever appended to an atom: an optional union is rendered with the union in parentheses *)
  Lemma optional_binds_whole_union : forall ms,
    (2 <= length ms)%nat ->
    ty_text (ty_optional (ty_union ms)) = (T "(" ++ join (T " | ") (map wrapped ms) ++ T ")") ++ T "?".
  Proof.
    intros ms H. destruct ms as [|m1 [|m2 r]]; cbn [length] in H; try lia.
    reflexivity.
  Qed.
End Types.

Lemma bare_clean : forall n, needs_bracket_notation n = false -> clean_text n.
Proof.
  intros n H. unfold needs_bracket_notation in H. destruct n as [|first r]; [discriminate H|].
  destruct (text_mem (first :: r) modifiers); [discriminate H|].
  destruct (negb (ascii_alpha first) && negb (first =? USC)); [discriminate H|].
  apply negb_false_iff in H. rewrite forallb_forall in H. intros c Hc. specialize (H c Hc).
  unfold ascii_alnum, ascii_alpha, ascii_digit, USC in H.
  repeat split; intros ->; discriminate H.
Qed.

Lemma file_flag_clean : forall b, clean_text (file_flag b).
Proof. intros [|]; auto with clean. Qed.

#[local] Hint Resolve file_flag_clean single_line_clean bare_clean : clean.

Section Lines.
  Variables is_alpha is_alnum : cp -> bool.
  Hypothesis Hsub : forall c, is_alpha c = true -> is_alnum c = true.
  Hypothesis Hascii : forall c, c < 128 -> is_alnum c = ascii_alnum c.
  Variable prefix : text.
  Variable wf : bool.

  Notation name_tok := (Spec.name_tok is_alpha is_alnum).
  Notation ty_atom := (Spec.ty_atom is_alpha is_alnum).
  Notation ty_expr := (Spec.ty_expr is_alpha is_alnum).
  Notation line_ok := (Spec.line_ok is_alpha is_alnum).
  Notation good_line := (Spec.good_line is_alpha is_alnum).
  Notation good_ty := (good_ty is_alpha is_alnum).
  Notation declares := (Spec.declares wf).
  Notation tname := (type_name is_alpha is_alnum prefix).
  Notation rtype := (resolve_type is_alpha is_alnum prefix).

  Definition good_name_text (n : text) : Prop := name_tok n /\ clean_text n.

  Lemma tname_good : forall s, good_name_text (tname s).
  Proof.
    intros s. split; [apply (sanitize_name_tok is_alpha is_alnum Hsub Hascii)|apply (sanitize_clean is_alpha is_alnum Hascii)].
  Qed.

  Lemma rtype_good : forall fuel schema t, rtype fuel schema = Some t -> good_ty t.
  Proof. exact (resolve_type_good is_alpha is_alnum Hsub Hascii prefix). Qed.

  (** The writers put lines together with [++], [concat] and [flat_map]; [auto with good] reduces
      "every line is good" to the same about the parts. *)
  Lemma good_app : forall a b, Forall good_line a -> Forall good_line b -> Forall good_line (a ++ b).
  Proof. intros a b Ha Hb. apply Forall_app. split; assumption. Qed.

  Lemma good_one : forall l, line_ok l -> clean_text l -> Forall good_line [l].
  Proof. intros l H Hc. constructor; [split; assumption|constructor]. Qed.

  Lemma doc_lines_good : forall a t, Forall good_line (map (fun l => T "--- " ++ l) (doc_comment_lines a t)).
  Proof.
    intros a t. apply Forall_map, Forall_forall. intros x Hx.
    destruct (doc_comment_lines_ok a t x Hx) as [Hc Hn]. split; [apply L_doc; assumption|auto with clean].
  Qed.

  Lemma opt_doc_good : forall d, Forall good_line (opt_doc d).
  Proof. intros [t|]; [apply doc_lines_good|constructor]. Qed.

  Lemma desc_lines_good : forall schema, Forall good_line (desc_lines schema).
  Proof. intros schema. unfold desc_lines. destruct (get_str "description" schema); [apply doc_lines_good|constructor]. Qed.

  Lemma class_good : forall n, good_name_text n -> Forall good_line (write_class wf n).
  Proof. intros n [Hn Hc]. apply good_one; [apply L_class; exact Hn|auto with clean]. Qed.

  Lemma alias_header_good : forall n, good_name_text n -> Forall good_line (write_alias_header wf n).
  Proof. intros n [Hn Hc]. apply good_one; [apply L_alias; exact Hn|auto with clean]. Qed.

  Lemma field_key_good : forall name, key_ok (field_key name) /\ clean_text (field_key name).
  Proof.
    intros name. unfold field_key. destruct (needs_bracket_notation name) eqn:E.
    - split; [apply K_str|auto with clean].
    - split; [apply K_bare; exact E|auto with clean].
  Qed.

  Hint Resolve good_app opt_doc_good desc_lines_good class_good alias_header_good : good.

  (** [---@field] lines, for ALL names, (well-formed) types and descriptions *)
  Lemma field_good : forall name ty desc,
    ty_expr ty -> clean_text ty -> Forall good_line (write_field name ty desc).
  Proof.
    intros name ty desc Ht Hc. destruct (field_key_good name) as [Hk Hkc].
    apply good_app; [apply opt_doc_good|]. apply good_one; [apply L_field; assumption|auto with clean].
  Qed.

  Lemma index_field_good : forall ty desc,
    ty_expr ty -> clean_text ty -> Forall good_line (write_index_field (T "string") ty desc).
  Proof.
    intros ty desc Ht Hc. apply good_app; [apply opt_doc_good|]. apply good_one; [|auto with clean].
    apply L_index; [|exact Ht]. apply E_atom, A_prim, in_prims. reflexivity.
  Qed.

  Lemma variant_good : forall ty desc,
    ty_atom ty -> clean_text ty -> Forall good_line (write_alias_type_variant ty desc).
  Proof.
    intros ty desc Ht Hc. unfold write_alias_type_variant.
    set (d := match desc with Some t => single_line t | None => [] end).
    assert (Hd : clean_text d) by (subst d; destruct desc; auto with clean).
    destruct d; apply good_one; [apply L_variant; exact Ht| |apply L_variant_d; assumption|]; auto with clean.
  Qed.

  Lemma alias_variant_good : forall v desc, Forall good_line (write_alias_variant v desc).
  Proof. intros v desc. apply variant_good; [apply A_str|apply quote_clean]. Qed.

  Lemma any_variant_good : Forall good_line any_variant.
  Proof. apply variant_good; apply (prim_atom is_alpha is_alnum), in_prims; reflexivity. Qed.

  Lemma wrapped_variant_good : forall t desc, good_ty t -> Forall good_line (write_alias_type_variant (wrapped t) desc).
  Proof. intros t desc H. destruct (good_wrapped is_alpha is_alnum t H). apply variant_good; assumption. Qed.

  Hint Resolve alias_variant_good any_variant_good wrapped_variant_good : good.

  Definition emit_ok (name : text) (ls : list text) : Prop := Forall good_line ls /\ declares name ls.

  Lemma declares_app_r : forall name a b, declares name b -> declares name (a ++ b).
  Proof. intros name a b [H|H]; [left|right]; apply in_or_app; right; exact H. Qed.

  Lemma alias_ok : forall name body,
    good_name_text name -> Forall good_line body -> emit_ok name (write_alias_header wf name ++ body).
  Proof.
    intros name body Hn Hb. split; [auto with good|]. right. apply in_or_app. left. left. reflexivity.
  Qed.

  Lemma variants_or_any_good : forall vs : list text,
    Forall good_line vs -> Forall good_line (match vs with [] => any_variant | _ :: _ => vs end).
  Proof. intros [|v vs] H; [apply any_variant_good|exact H]. Qed.

  Lemma emit_enum_alias_ok : forall name vs, good_name_text name -> emit_ok name (emit_enum_alias wf name vs).
  Proof.
    intros name vs Hn. apply alias_ok; [exact Hn|]. apply variants_or_any_good, Forall_flat_map, Forall_forall.
    intros s _. apply alias_variant_good.
  Qed.

  Lemma emit_one_of_alias_ok : forall name l, good_name_text name -> emit_ok name (emit_one_of_alias wf name l).
  Proof.
    intros name l Hn. apply alias_ok; [exact Hn|]. apply variants_or_any_good, Forall_flat_map, Forall_forall.
    intros item _. destruct (one_of_const item); auto with good.
  Qed.

  Lemma variants_of_items_good : forall fuel items vss,
    all_some (map (fun item => option_map (fun ty => write_alias_type_variant (wrapped ty) (get_str "description" item))
                                          (rtype fuel item)) items) = Some vss ->
    Forall good_line (concat vss).
  Proof.
    intros fuel items vss H. apply Forall_concat. eapply all_some_Forall; [exact H|].
    intros x ls Hx. cbv beta in Hx. apply option_map_some in Hx. destruct Hx as [ty [Ety ->]].
    apply wrapped_variant_good, (rtype_good fuel x ty Ety).
  Qed.

  Lemma emit_one_of_type_alias_ok : forall fuel name l ls,
    good_name_text name -> emit_one_of_type_alias is_alpha is_alnum prefix wf fuel name l = Some ls -> emit_ok name ls.
  Proof.
    intros fuel name l ls Hn H. unfold emit_one_of_type_alias in H.
    destruct (all_some _) as [vss|] eqn:E in H; [apply some_inj in H as <-|discriminate H].
    apply alias_ok; [exact Hn|]. apply good_app; [apply (variants_of_items_good fuel l vss E)|].
    destruct l; auto with good.
  Qed.

  Lemma emit_any_of_alias_ok : forall fuel name schema ls,
    good_name_text name -> emit_any_of_alias is_alpha is_alnum prefix wf fuel name schema = Some ls -> emit_ok name ls.
  Proof.
    intros fuel name schema ls Hn H. unfold emit_any_of_alias in H.
    destruct (all_some _) as [vss|] eqn:E in H; [apply some_inj in H as <-|discriminate H].
    apply alias_ok; [exact Hn|]. apply variants_of_items_good in E. destruct (match get_arr "anyOf" schema with Some l => filter _ l | None => [] end); auto with good.
  Qed.

  Lemma resolve_field_type_good : forall fuel schema opt t,
    resolve_field_type is_alpha is_alnum prefix fuel schema opt = Some t -> good_ty t.
  Proof.
    intros fuel schema opt t H. apply option_map_some in H. destruct H as [t0 [E ->]].
    apply rtype_good in E. destruct (is_nullable schema || opt); [apply good_optional|]; exact E.
  Qed.

  Lemma emit_object_class_ok : forall fuel name schema ls,
    good_name_text name -> emit_object_class is_alpha is_alnum prefix wf fuel name schema = Some ls -> emit_ok name ls.
  Proof.
    intros fuel name schema ls Hn H. unfold emit_object_class in H.
    destruct (all_some _) as [fss|] eqn:E in H; [|discriminate H].
    destruct (match Model.get "additionalProperties" schema with Some (JObj m) => option_map _ _ | _ => Some [] end) as [add|] eqn:Ea in H; [apply some_inj in H as <-|discriminate H].
    split.
    - apply good_app; [apply desc_lines_good|]. apply good_app; [apply class_good; exact Hn|]. apply good_app.
      + apply Forall_concat. eapply all_some_Forall; [exact E|].
        intros [fname fschema] fl Hx. cbv beta iota in Hx. apply option_map_some in Hx.
        destruct Hx as [ty [Ety ->]].
        destruct (resolve_field_type_good _ _ _ _ Ety) as [He [_ Hc]]. apply field_good; assumption.
      + destruct (Model.get "additionalProperties" schema) as [[| | | | |m]|].
        1-5, 7: apply some_inj in Ea as <-; constructor.
        apply option_map_some in Ea. destruct Ea as [v [Ev ->]].
        destruct (rtype_good fuel _ v Ev) as [He [_ Hc]]. apply index_field_good; assumption.
    - apply declares_app_r. left. apply in_or_app. left. left. reflexivity.
  Qed.

  Lemma emit_ok_desc : forall name schema ls, emit_ok name ls -> emit_ok name (desc_lines schema ++ ls).
  Proof. intros name schema ls [H1 H2]. split; [auto with good|apply declares_app_r; exact H2]. Qed.

  Lemma emit_definition_ok : forall fuel name schema ls,
    good_name_text name -> emit_definition is_alpha is_alnum prefix wf fuel name schema = Some ls -> emit_ok name ls.
  Proof.
    intros fuel name schema ls Hn H. unfold emit_definition in H.
    destruct (get_arr "enum" schema) as [vs|].
    { apply some_inj in H as <-. apply emit_ok_desc, emit_enum_alias_ok, Hn. }
    destruct (get_arr "oneOf" schema) as [l|].
    { destruct (all_const_or_enum l).
      - apply some_inj in H as <-. apply emit_ok_desc, emit_one_of_alias_ok, Hn.
      - apply option_map_some in H. destruct H as [x [Ex ->]].
        apply emit_ok_desc, (emit_one_of_type_alias_ok fuel name l x Hn Ex). }
    destruct (is_some (Model.get "anyOf" schema) && negb (is_some (Model.get "properties" schema))).
    { apply option_map_some in H. destruct H as [x [Ex ->]].
      apply emit_ok_desc, (emit_any_of_alias_ok fuel name schema x Hn Ex). }
    destruct (is_some (Model.get "properties" schema) || str_is (get_str "type" schema) "object").
    { apply (emit_object_class_ok fuel name schema ls Hn H). }
    apply option_map_some in H. destruct H as [ty [Ety ->]].
    apply emit_ok_desc, alias_ok; [exact Hn|]. apply wrapped_variant_good, (rtype_good fuel schema ty Ety).
  Qed.

  Lemma blank_good : Forall good_line [[]].
  Proof. apply good_one; [apply L_blank|apply clean_nil]. Qed.

  Lemma header_good : Forall good_line header.
  Proof.
    repeat apply Forall_cons; [| |apply (Forall_inv blank_good)|apply Forall_nil];
      (split; [apply (L_doc is_alpha is_alnum)|]; auto with clean; reflexivity).
  Qed.

  Lemma defs_good : forall fuel ds out,
    all_some (map (fun '(n, d) => option_map (fun ls => ls ++ [[]]) (emit_definition is_alpha is_alnum prefix wf fuel (tname n) d)) ds) = Some out ->
    Forall good_line (concat out).
  Proof.
    intros fuel ds out H. apply Forall_concat. eapply all_some_Forall; [exact H|].
    intros [n d] ls Hx. cbv beta iota in Hx. apply option_map_some in Hx. destruct Hx as [x [Ex ->]].
    apply good_app; [|apply blank_good]. apply (emit_definition_ok fuel (tname n) d x (tname_good n) Ex).
  Qed.

  (** every line of the output is well formed, and the reported root type is declared *)
  Lemma convert_ok : forall fuel schema ls root,
    convert is_alpha is_alnum prefix wf fuel schema = Some (ls, root) ->
    Forall good_line ls /\ declares root ls /\ good_name_text root.
  Proof.
    intros fuel schema ls root H. unfold convert in H.
    destruct (all_some _) as [al|] eqn:Ea in H; [|discriminate H].
    destruct (all_some _) as [cl|] eqn:Ec in H; [|discriminate H].
    set (r := tname _) in H.
    destruct (if is_some _ then _ else _) as [rl|] eqn:Er in H; [|discriminate H].
    apply some_inj, pair_equal_spec in H. destruct H as [<- <-].
    assert (Hroot : emit_ok r rl).
    { destruct (is_some (Model.get "properties" schema)).
      - apply (emit_object_class_ok fuel r schema rl (tname_good _) Er).
      - apply (emit_definition_ok fuel r schema rl (tname_good _) Er). }
    destruct Hroot as [Hg Hd]. apply defs_good in Ea, Ec. split; [|split; [|apply tname_good]].
    - pose proof header_good. pose proof blank_good. auto with good.
    - do 3 apply declares_app_r. destruct Hd as [Hd|Hd]; [left|right]; apply in_or_app; left; exact Hd.
  Qed.
End Lines.

Lemma depth_pos : forall v, (1 <= depth v)%nat.
Proof. destruct v; cbn [depth]; lia. Qed.

Lemma fold_max_in : forall (A : Type) (f : A -> nat) l x,
  In x l -> (f x <= fold_right (fun y acc => Nat.max (f y) acc) O l)%nat.
Proof.
  induction l as [|y r IH]; intros x H; [destruct H|].
  cbn [fold_right]. destruct H as [->|H]; [lia|]. specialize (IH x H). lia.
Qed.

Lemma depth_in_arr : forall l x, In x l -> (depth x < depth (JArr l))%nat.
Proof. intros l x H. apply Nat.lt_succ_r, (fold_max_in _ depth), H. Qed.

Lemma depth_in_obj : forall m k x, In (k, x) m -> (depth x < depth (JObj m))%nat.
Proof. intros m k x H. apply Nat.lt_succ_r, (fold_max_in _ (fun kv => depth (snd kv)) m (k, x)), H. Qed.

Lemma bt_get_In : forall k m x, bt_get k m = Some x -> exists k', In (k', x) m.
Proof.
  intros k m x H. induction m as [|[k' v] r IH]; [discriminate H|]. cbn [bt_get] in H.
  destruct (text_eqb k k'); [apply some_inj in H as <-; exists k'; left; reflexivity|].
  destruct (IH H) as [k2 H2]. exists k2. right. exact H2.
Qed.

Lemma depth_get : forall k v x, Model.get k v = Some x -> (depth x < depth v)%nat.
Proof.
  intros k v x H. unfold Model.get, val_get in H. destruct v; try discriminate H.
  apply bt_get_In in H. destruct H as [k' H]. exact (depth_in_obj _ _ _ H).
Qed.

Lemma depth_get_arr : forall k v l x, get_arr k v = Some l -> In x l -> (depth x < depth v)%nat.
Proof.
  intros k v l x H Hx. unfold get_arr in H. destruct (Model.get k v) as [y|] eqn:E; [|discriminate H].
  destruct y; try discriminate H. apply some_inj in H as <-.
  pose proof (depth_get _ _ _ E). pose proof (depth_in_arr _ _ Hx). lia.
Qed.

(** the members of the object under [key], as the emitters select them *)
Lemma depth_get_obj : forall key v k x,
  In (k, x) (match Model.get key v with Some (JObj m) => m | _ => [] end) -> (depth x < depth v)%nat.
Proof.
  intros key v k x H. destruct (Model.get key v) as [[| | | | |m]|] eqn:E; try destruct H.
  pose proof (depth_get _ _ _ E). pose proof (depth_in_obj _ _ _ H). lia.
Qed.

Lemma bind_total : forall (A B : Type) (o : option A) (f : A -> option B),
  o <> None -> (forall x, f x <> None) -> match o with Some x => f x | None => None end <> None.
Proof. intros A B [x|] f Ho Hf; [apply Hf|contradiction]. Qed.

Section Total.
  Variables is_alpha is_alnum : cp -> bool.
  Variable prefix : text.
  Variable wf : bool.
  Notation rtype := (resolve_type is_alpha is_alnum prefix).

  Lemma resolve_type_total : forall fuel schema, (depth schema <= fuel)%nat -> rtype fuel schema <> None.
  Proof.
    induction fuel as [|fuel IH]; intros schema Hd; [pose proof (depth_pos schema); lia|].
    cbn [resolve_type].
    destruct (get_str "$ref" schema); [discriminate|].
    destruct (get_arr "anyOf" schema) as [l|] eqn:Ea.
    { apply bind_total; [|discriminate]. apply all_some_total. intros x Hx. apply IH.
      apply filter_In in Hx. pose proof (depth_get_arr _ _ _ _ Ea (proj1 Hx)). lia. }
    destruct (get_arr "oneOf" schema) as [l|] eqn:Eo.
    { apply bind_total; [|discriminate]. apply all_some_total. intros x Hx. cbv beta.
      destruct (get_str "const" x); [discriminate|]. apply IH.
      apply filter_In in Hx. pose proof (depth_get_arr _ _ _ _ Eo (proj1 Hx)). lia. }
    destruct (Model.get "type" schema) as [[| | | s | arr | m]|].
    1-3, 6-7: (* no "type", or one that is neither a string nor an array *)
      destruct (get_arr "enum" schema); [|destruct (get_str "const" schema)]; discriminate.
    - (* "type": a string *)
      destruct (text_eqb s (T "array")).
      { destruct (Model.get "items" schema) as [items|] eqn:Ei; [|discriminate].
        apply option_map_total, IH. pose proof (depth_get _ _ _ Ei). lia. }
      destruct (text_eqb s (T "object")); [|discriminate].
      destruct (Model.get "additionalProperties" schema) as [[| | | | |m]|] eqn:Em; try discriminate.
      apply option_map_total, IH. pose proof (depth_get _ _ _ Em). lia.
    - (* "type": an array of type names *)
      destruct (filter _ _), (existsb _ arr); discriminate.
  Qed.

  Lemma variants_total : forall fuel (items : list json),
    (forall x, In x items -> (depth x <= fuel)%nat) ->
    all_some (map (fun item => option_map (fun ty => write_alias_type_variant (wrapped ty) (get_str "description" item))
                                          (rtype fuel item)) items) <> None.
  Proof.
    intros fuel items H. apply all_some_total. intros x Hx. cbv beta.
    apply option_map_total, resolve_type_total, H, Hx.
  Qed.

  Lemma emit_object_class_total : forall fuel name schema,
    (depth schema <= fuel)%nat -> emit_object_class is_alpha is_alnum prefix wf fuel name schema <> None.
  Proof.
    intros fuel name schema Hd. unfold emit_object_class. apply bind_total.
    - apply all_some_total. intros [fname fschema] Hx. cbv beta iota.
      do 2 apply option_map_total. apply resolve_type_total. apply depth_get_obj in Hx. lia.
    - intros fss. apply bind_total; [|discriminate].
      destruct (Model.get "additionalProperties" schema) as [[| | | | |m]|] eqn:Em; try discriminate.
      apply option_map_total, resolve_type_total. pose proof (depth_get _ _ _ Em). lia.
  Qed.

  Lemma emit_definition_total : forall fuel name schema,
    (depth schema <= fuel)%nat -> emit_definition is_alpha is_alnum prefix wf fuel name schema <> None.
  Proof.
    intros fuel name schema Hd. unfold emit_definition.
    destruct (get_arr "enum" schema); [discriminate|].
    destruct (get_arr "oneOf" schema) as [l|] eqn:Eo.
    { destruct (all_const_or_enum l); [discriminate|].
      apply option_map_total, bind_total; [|discriminate].
      apply variants_total. intros x Hx. pose proof (depth_get_arr _ _ _ _ Eo Hx). lia. }
    destruct (is_some (Model.get "anyOf" schema) && negb (is_some (Model.get "properties" schema))).
    { apply option_map_total, bind_total; [|discriminate]. apply variants_total. intros x Hx.
      destruct (get_arr "anyOf" schema) as [l|] eqn:Ea; [|destruct Hx].
      apply filter_In in Hx. pose proof (depth_get_arr _ _ _ _ Ea (proj1 Hx)). lia. }
    destruct (is_some (Model.get "properties" schema) || str_is (get_str "type" schema) "object").
    { apply emit_object_class_total. exact Hd. }
    apply option_map_total, resolve_type_total. exact Hd.
  Qed.

  (** the walker returns a result on every schema: fuel = the depth of the value is enough *)
  Lemma convert_total : forall schema,
    convert is_alpha is_alnum prefix wf (depth schema) schema <> None.
  Proof.
    intros schema. unfold convert.
    assert (Hdefs : forall p, all_some (map (fun '(n, d) => option_map (fun ls => ls ++ [[]])
                 (emit_definition is_alpha is_alnum prefix wf (depth schema) (type_name is_alpha is_alnum prefix n) d))
                 (filter p (match Model.get "$defs" schema with Some (JObj m) => m | _ => [] end))) <> None).
    { intros p. apply all_some_total. intros [n d] Hx. cbv beta iota.
      apply option_map_total, emit_definition_total. apply filter_In, proj1, depth_get_obj in Hx. lia. }
    apply bind_total; [apply Hdefs|]. intros al. apply bind_total; [apply Hdefs|]. intros cl.
    apply bind_total; [|discriminate]. destruct (is_some (Model.get "properties" schema)).
    - apply emit_object_class_total. lia.
    - apply emit_definition_total. lia.
  Qed.
End Total.

Definition ex_schema : json :=
  JObj [(T "$defs", JObj [(T "A B", JObj [(T "enum", JArr [JNum 1])])]);
        (T "properties", JObj [([97; 34; 98], JObj [(T "type", JStr (T "string"))]);
                               (T "e", JObj [(T "enum", JArr [JStr [112; 34; 113]; JStr (T "r")])]);
                               (T "public", JObj [(T "type", JArr [JStr (T "integer"); JStr (T "null")])])]);
        (T "title", JStr (T "My Config"))].

Lemma convert_example :
  option_map (fun r => (render (fst r), snd r))
             (convert ascii_alpha ascii_alnum default_prefix false (depth ex_schema) ex_schema) =
  Some (T "--- This file was auto-generated from JSON Schema." ++ [NL] ++ T "--- Do not edit manually." ++ [NL] ++ [NL] ++
        T "---@alias schema.A_B" ++ [NL] ++ T "---| any" ++ [NL] ++ [NL] ++
        T "---@class schema.My_Config" ++ [NL] ++
        T "---@field [""a\x22b""] string?" ++ [NL] ++
        T "---@field e (""p\x22q"" | ""r"")?" ++ [NL] ++
        T "---@field [""public""] integer?" ++ [NL] ++ [NL],
        T "schema.My_Config").
Proof. vm_compute. reflexivity. Qed.
