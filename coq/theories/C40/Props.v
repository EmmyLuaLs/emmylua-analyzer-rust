(** C40/Props.v — property theorems only.
    [is_alpha] / [is_alnum] stand for [char::is_alphabetic] / [char::is_alphanumeric]; the two facts assumed about
    them (alphabetic => alphanumeric; below 128 alphanumeric = ASCII letter or digit) hold of the std functions. *)
From EV Require Import C40.Model C40.Spec C40.Proofs.
From Coq Require Import String.
From Coq Require Import List.
Import ListNotations.
Local Open Scope N_scope.

(** The doc lexer reads every emitted string literal — ALL values, whatever follows — as exactly one closed
    string token. *)
Theorem string_literal_one_token : forall (s f : text),
  lex_string (quote_lua_string s ++ f) = Some (quote_lua_string s, f, true).
Proof. exact Proofs.quote_one_token. Qed.

(** ... it contains no raw line break or NUL, and no raw quote between its delimiters, *)
Theorem string_literal_clean : forall (s : text),
  clean_text (quote_lua_string s) /\ (forall c, In c (esc_body s) -> c <> DQ).
Proof.
  intros s. split; [intros c H; apply (Proofs.quote_clean s c H)|].
  intros c H. apply (Proofs.esc_body_clean s c H).
Qed.

(** ... and the string decoder gives back exactly the value: names and enum members survive. *)
Theorem string_literal_roundtrip : forall (s : text),
  unescape (S (length (esc_body s))) (esc_body s) = Some s.
Proof. intros s. apply Proofs.unescape_esc_body, Nat.lt_succ_r, Proofs.esc_body_length. Qed.

(** The rendering used before the repair (the raw value between two quote characters): the value a, quote, b
    is cut at the inner quote. *)
Theorem old_quote_refuted : exists (s f : text),
  lex_string (old_quote s ++ f) <> Some (old_quote s, f, true) /\
  lex_string (old_quote s ++ f) = Some ([DQ; 97; DQ], [98; DQ] ++ f, true).
Proof. exact Proofs.old_quote_refuted. Qed.

Section WithClasses.
  Variables is_alpha is_alnum : cp -> bool.
  Hypothesis Hsub : forall c, is_alpha c = true -> is_alnum c = true.
  Hypothesis Hascii : forall c, c < 128 -> is_alnum c = ascii_alnum c.

  (** Every sanitised type name — ALL inputs — is read by the doc lexer as exactly one name token. *)
  Theorem type_name_one_token : forall (s f : text),
    follow_ok is_alnum f = true ->
    lex_name is_alpha is_alnum (sanitize_type_name is_alpha is_alnum s ++ f) = Some (sanitize_type_name is_alpha is_alnum s, f).
  Proof. exact (Proofs.type_name_one_token is_alpha is_alnum Hsub Hascii). Qed.

  (** Every line of a rendered description: no line break / NUL, and it cannot start a doc tag. *)
  Theorem doc_lines_ok : forall (after_tag : bool) (t l : text),
    In l (doc_comment_lines after_tag t) -> clean_text l /\ no_tag_start l = true.
  Proof. exact Proofs.doc_comment_lines_ok. Qed.

  (** The description block of a field (it directly follows a tag line): its first non-blank line never starts
      with something the doc parser reads as a continuation of that tag. *)
  Theorem field_description_guarded : forall (t : text), no_continuation (doc_comment_lines true t) = true.
  Proof. exact Proofs.field_description_guarded. Qed.

  (** [---@field] lines are well formed for ALL names, all (grammatical) types and all descriptions. *)
  Theorem field_line_ok : forall (name ty : text) (desc : option text),
    ty_expr is_alpha is_alnum ty -> clean_text ty ->
    Forall (good_line is_alpha is_alnum) (write_field name ty desc).
  Proof. exact (Proofs.field_good is_alpha is_alnum). Qed.

  (** [---@class] lines, for all names that went through [sanitize_type_name] (as all names do) *)
  Theorem class_line_ok : forall (wf : bool) (prefix name : text),
    Forall (good_line is_alpha is_alnum) (write_class wf (type_name is_alpha is_alnum prefix name)).
  Proof.
    intros wf prefix name. apply Proofs.class_good. apply (Proofs.tname_good is_alpha is_alnum Hsub Hascii).
  Qed.

  (** [---@alias] header and [---|] member lines, for all names, values and descriptions *)
  Theorem alias_lines_ok : forall (wf : bool) (prefix name value : text) (desc : option text),
    Forall (good_line is_alpha is_alnum)
           (write_alias_header wf (type_name is_alpha is_alnum prefix name) ++ write_alias_variant value desc).
  Proof.
    intros wf prefix name value desc. apply Forall_app. split.
    - apply Proofs.alias_header_good. apply (Proofs.tname_good is_alpha is_alnum Hsub Hascii).
    - apply Proofs.alias_variant_good.
  Qed.

  (** Every type text the walker renders, for ALL schemas, is in the grammar of Spec.v (postfix [?] / [[]]
      and the union bar apply to atoms only), on one line. *)
  Theorem resolve_type_wf : forall (prefix : text) (fuel : nat) (schema : json) (t : lua_type),
    resolve_type is_alpha is_alnum prefix fuel schema = Some t ->
    ty_expr is_alpha is_alnum (ty_text t) /\
    (ty_atomic t = true -> ty_atom is_alpha is_alnum (ty_text t)) /\ clean_text (ty_text t).
  Proof. exact (Proofs.resolve_type_good is_alpha is_alnum Hsub Hascii). Qed.

  (** For ALL schemas: every line of the output has a well-formed shape on one physical line, the reported
      root type is declared by a [---@class] / [---@alias] line, and it is a single name token. *)
  Theorem convert_lines_ok : forall (prefix : text) (wf : bool) (fuel : nat) (schema : json) (ls : list text) (root : text),
    convert is_alpha is_alnum prefix wf fuel schema = Some (ls, root) ->
    Forall (good_line is_alpha is_alnum) ls.
  Proof. intros prefix wf fuel schema ls root H. apply (Proofs.convert_ok is_alpha is_alnum Hsub Hascii prefix wf fuel schema ls root H). Qed.

  Theorem convert_declares_root : forall (prefix : text) (wf : bool) (fuel : nat) (schema : json) (ls : list text) (root : text),
    convert is_alpha is_alnum prefix wf fuel schema = Some (ls, root) ->
    declares wf root ls /\ name_tok is_alpha is_alnum root.
  Proof.
    intros prefix wf fuel schema ls root H.
    destruct (Proofs.convert_ok is_alpha is_alnum Hsub Hascii prefix wf fuel schema ls root H) as [_ [Hd [Hn _]]].
    split; assumption.
  Qed.
End WithClasses.

(** [?] applies to the whole union: an optional union of two or more members is rendered with the union in
    parentheses (before the repair: [a | b?]). *)
Theorem optional_binds_whole_union : forall (ms : list lua_type),
  (2 <= length ms)%nat ->
  ty_text (ty_optional (ty_union ms)) = (T "(" ++ join (T " | ") (map wrapped ms) ++ T ")") ++ T "?".
Proof. exact Proofs.optional_binds_whole_union. Qed.

(** The walker returns on EVERY schema (a [$ref] is rendered as a name and never followed, so reference
    cycles are harmless): the nesting depth of the value is enough fuel. *)
Theorem convert_total : forall (is_alpha is_alnum : cp -> bool) (prefix : text) (wf : bool) (schema : json),
  convert is_alpha is_alnum prefix wf (depth schema) schema <> None.
Proof. exact Proofs.convert_total. Qed.

(** non-vacuity: a schema with a quote in a property name and in an enum member, a modifier-like property
    name, an odd definition name with an empty enum, an odd title *)
Example convert_example :
  option_map (fun r => (render (fst r), snd r))
             (convert ascii_alpha ascii_alnum default_prefix false (depth ex_schema) ex_schema) =
  Some (T "--- This file was auto-generated from JSON Schema." ++ [NL] ++ T "--- Do not edit manually." ++ [NL] ++ [NL] ++
        T "---@alias schema.A_B" ++ [NL] ++ T "---| any" ++ [NL] ++ [NL] ++
        T "---@class schema.My_Config" ++ [NL] ++
        T "---@field [""a\x22b""] string?" ++ [NL] ++
        T "---@field e (""p\x22q"" | ""r"")?" ++ [NL] ++
        T "---@field [""public""] integer?" ++ [NL] ++ [NL],
        T "schema.My_Config").
Proof. exact Proofs.convert_example. Qed.
