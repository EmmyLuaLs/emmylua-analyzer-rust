(** The InferGuard cuts every cycle (a walk that checks before it descends is at most as
    deep as there are ids), the humanizer's depth guard bounds its recursion; the guards of the type check
    and of the super-type walks are read off C16's lemmas; the concrete witnesses. *)
From EV Require Import C16.Model C16.Spec C16.SubProofs C16.CheckProofs C16.Proofs C12.Model.
Local Open Scope N_scope.

Lemma nmemb_In : forall x l, nmemb x l = true <-> In x l.
Proof. exact nmem_In. Qed.

Lemma ginsert_length : forall h g id, length (ginsert h g id) = length h.
Proof.
  induction h as [|nd tl IH]; intros g id; [reflexivity|]. cbn [ginsert].
  destruct (Nat.eqb g (length tl)); cbn [length]; [reflexivity|]. rewrite IH. reflexivity.
Qed.

Lemma ginsert_mono : forall h g id g2 x, In x (vis h g2) -> In x (vis (ginsert h g id) g2).
Proof.
  induction h as [|nd tl IH]; intros g id g2 x H; [exact H|].
  cbn [ginsert]. destruct (Nat.eqb g (length tl)) eqn:Eg.
  - cbn [vis] in *. destruct (Nat.eqb g2 (length tl)); [|exact H].
    cbn [g_cur g_parent]. cbn [app]. right. exact H.
  - cbn [vis] in *. rewrite ginsert_length. destruct (Nat.eqb g2 (length tl)); [|apply IH; exact H].
    apply in_app_or in H. apply in_or_app. destruct H as [H|H]; [left; exact H|right].
    destruct (g_parent nd); [apply IH; exact H|exact H].
Qed.

Lemma ginsert_sees : forall h g id, (g < length h)%nat -> In id (vis (ginsert h g id) g).
Proof.
  induction h as [|nd tl IH]; intros g id Hg; cbn [length] in Hg; [lia|].
  cbn [ginsert]. destruct (Nat.eqb g (length tl)) eqn:Eg.
  - cbn [vis]. rewrite Eg. cbn [g_cur app]. left. reflexivity.
  - cbn [vis]. rewrite ginsert_length. rewrite Eg. apply IH. apply Nat.eqb_neq in Eg. lia.
Qed.

Definition later (h h' : heap) : Prop :=
  (length h <= length h')%nat /\ forall g x, (g < length h)%nat -> In x (vis h g) -> In x (vis h' g).

Lemma later_refl : forall h, later h h.
Proof. intros h. split; [lia|auto]. Qed.

Lemma later_trans : forall a b c, later a b -> later b c -> later a c.
Proof.
  intros a b c [L1 M1] [L2 M2]. split; [lia|]. intros g x Hg Hx. apply M2; [lia|]. apply M1; assumption.
Qed.

Lemma later_insert : forall h g id, later h (ginsert h g id).
Proof. intros h g id. split; [rewrite ginsert_length; lia|]. intros g2 x _ Hx. apply ginsert_mono. exact Hx. Qed.

Lemma vis_old : forall nd h g, (g < length h)%nat -> vis (nd :: h) g = vis h g.
Proof.
  intros nd h g Hg. cbn [vis]. destruct (Nat.eqb g (length h)) eqn:E; [|reflexivity].
  apply Nat.eqb_eq in E. lia.
Qed.

Lemma later_cons : forall h nd, later h (nd :: h).
Proof. intros h nd. split; [cbn [length]; lia|]. intros g x Hg Hx. rewrite vis_old; assumption. Qed.

Lemma fork_vis : forall h g, vis (fst (g_fork h g)) (snd (g_fork h g)) = vis h g.
Proof. intros h g. cbn [g_fork fst snd vis]. rewrite Nat.eqb_refl. reflexivity. Qed.

Lemma g_check_none : forall h g id, In id (vis h g) -> g_check h g id = None.
Proof. intros h g id H. unfold g_check. apply nmemb_In in H. rewrite H. reflexivity. Qed.

(** once an id has been checked on a guard it is cut on that guard for ever, and on every guard forked
    from it afterwards *)
Lemma cut_persistent : forall h g id h1 h2, (g < length h)%nat ->
  g_check h g id = Some h1 -> later h1 h2 ->
  g_check h2 g id = None /\ g_check (fst (g_fork h2 g)) (snd (g_fork h2 g)) id = None.
Proof.
  intros h g id h1 h2 Hg Hc [Hl Hm]. unfold g_check in Hc. destruct (nmemb id (vis h g)); [discriminate|].
  inversion Hc; subst h1. rewrite ginsert_length in *.
  assert (In id (vis h2 g)) by (apply Hm; [exact Hg|apply ginsert_sees; exact Hg]).
  split; apply g_check_none; [exact H|]. rewrite fork_vis. exact H.
Qed.

Section Walk.
  Variable succ : N -> list N.
  Variable U : list N.
  Hypothesis HU : forall x y, In y (succ x) -> In y U.

  Lemma walk_total : forall fuel h g id,
    (g < length h)%nat -> In id U -> (rest U (vis h g) < fuel)%nat ->
    exists h' k, walk succ fuel h g id = Some (h', k) /\ later h h'.
  Proof.
    induction fuel as [|f IH]; intros h g id Hg Hid Hf; [lia|].
    cbn [walk]. unfold g_check. destruct (nmemb id (vis h g)) eqn:Em.
    - exists h, 1. split; [reflexivity|apply later_refl].
    - apply nmem_false in Em.
      set (h1 := ginsert h g id).
      assert (L1 : later h h1) by apply later_insert.
      assert (Hf1 : (rest U (vis h1 g) < f)%nat).
      { pose proof (rest_lt U (vis h g) (vis h1 g) id (ginsert_mono h g id g) (ginsert_sees h g id Hg) Em Hid). lia. }
      pose proof (HU id) as Hss.
      (* the loop over the successors, from any later heap [hc]: a fork of [g] sees what [g] sees *)
      generalize (0 : N) as cuts. revert L1 Hf1 Hss. generalize h1 as hc. generalize (succ id) as ss.
      induction ss as [|s r IHr]; intros hc L1 Hf1 Hss cuts.
      + exists hc, cuts. split; [reflexivity|exact L1].
      + cbn [g_fork].
        assert (Hgc : (g < length hc)%nat) by (destruct L1; lia).
        set (h2 := {| g_cur := []; g_parent := Some g |} :: hc).
        assert (Hv : vis h2 (length hc) = vis hc g) by (exact (fork_vis hc g)).
        destruct (IH h2 (length hc) s) as (h3 & k & E & L3).
        * unfold h2. cbn [length]. lia.
        * apply Hss. left; reflexivity.
        * rewrite Hv. exact Hf1.
        * rewrite E. assert (L2 : later hc h3) by (eapply later_trans; [apply later_cons|exact L3]).
          apply IHr.
          -- eapply later_trans; [exact L1|exact L2].
          -- destruct L2 as [_ M2]. pose proof (rest_antitone U (vis hc g) (vis h3 g) (fun y Hy => M2 g y Hgc Hy)). lia.
          -- auto using in_cons.
  Qed.
End Walk.

Lemma write_type_total : forall fields max_depth fuel depth visited t,
  depth <= max_depth -> max_depth + 1 <= N.of_nat fuel + depth ->
  exists d, write_type fields max_depth fuel depth visited t = Some d.
Proof.
  intros fields max_depth fuel. induction fuel as [|f IH]; intros depth visited t Hd Hf.
  - cbn [N.of_nat] in Hf. lia.
  - cbn [write_type]. destruct (N.leb_spec max_depth depth) as [Hge|Hlt]; [eexists; reflexivity|].
    assert (Hsub : forall v x, exists d, write_type fields max_depth f (depth + 1) v x = Some d).
    { intros v x. apply IH; lia. }
    assert (Hall : forall v ts acc, exists d,
              (fix go (ts : list ty) (acc : list doc) : option doc :=
                 match ts with
                 | [] => Some (DNode (rev acc))
                 | x :: r => match write_type fields max_depth f (depth + 1) v x with
                             | Some d => go r (d :: acc)
                             | None => None
                             end
                 end) ts acc = Some d).
    { intros v ts. induction ts as [|x r IHr]; intros acc; [eexists; reflexivity|].
      destruct (Hsub v x) as (d & ->). apply IHr. }
    destruct t; try (eexists; reflexivity); try apply Hall.
    all: try (destruct (nmemb id visited); [eexists; reflexivity|];
              destruct (fields id); [apply Hall|eexists; reflexivity]).
    destruct (Hsub visited t) as (d & ->). eexists; reflexivity.
Qed.

Lemma check_depth_bounded : forall G cf s c, check_type G cf s c <> Diverge.
Proof. intros G cf s c. unfold check_type. apply check_nd. lia. Qed.

Lemma check_depth_bounded_gen : forall G cf rem lvl c,
  MAX_TYPE_CHECK_LEVEL <= N.of_nat rem + lvl -> check G cf rem lvl c <> Diverge.
Proof. exact check_nd. Qed.

Lemma super_reaches_terminates : forall G cur tgt,
  exists b v, super_reaches G (dfs_fuel G) cur tgt [] = Some (b, v).
Proof.
  intros G cur tgt. destruct (super_reaches_spec G tgt (dfs_fuel G) cur [] (dfs_fuel_enough G [])) as (b & v & E & _).
  eauto.
Qed.

Lemma walk_terminates : forall succ U id,
  (forall x y, In y (succ x) -> In y U) -> In id U ->
  exists h' k, walk succ (S (length U)) (fst (g_new [])) (snd (g_new [])) id = Some (h', k).
Proof.
  intros succ U id HU Hid.
  destruct (walk_total succ U HU (S (length U)) (fst (g_new [])) (snd (g_new [])) id) as (h' & k & E & _).
  - cbn. lia.
  - exact Hid.
  - pose proof (rest_le_length U (vis (fst (g_new [])) (snd (g_new [])))). lia.
  - eauto.
Qed.

(** on a cycle the walk reports the cut instead of descending: the 2-cycle a <-> b is cut exactly once *)
Lemma walk_cycle_example :
  walk (fun x => if x =? 1 then [2] else if x =? 2 then [1] else []) 3 (fst (g_new [])) 0 1
  = Some ([{| g_cur := []; g_parent := Some 1%nat |}; {| g_cur := [2]; g_parent := Some 0%nat |};
           {| g_cur := [1]; g_parent := None |}], 1).
Proof. vm_compute. reflexivity. Qed.

Lemma humanize_terminates : forall fields visited t,
  exists d, write_type fields HUMANIZE_MAX_DEPTH (S (N.to_nat HUMANIZE_MAX_DEPTH)) 0 visited t = Some d.
Proof. intros. apply write_type_total; lia. Qed.

(** a self-referential alias, R = R[] against string[][], is refused; two recursive aliases in one union
    get the recursion error, not divergence *)
Lemma recursion_error_example :
  check_type [(100, alias_decl (TArray (TRef 100)))] cfg_default (TRef 100) (TArray (TArray (TBasic BString))) = Err NotMatch /\
  check_type mutual_world cfg_default mutual_union mutual_union = Err Recursion.
Proof. vm_compute. split; reflexivity. Qed.

(** a cyclic class graph: 1 : 2, 2 : 3, 3 : 1, 4 : 1 — the cyclic edges are dropped, 4 still reaches 1 *)
Definition cyc_world : world :=
  [(1, class_decl [TRef 2]); (2, class_decl [TRef 3]); (3, class_decl [TRef 1]); (4, class_decl [TRef 1; TBasic BString])].
Lemma subtype_cycle_example :
  is_sub_type_of_opt cyc_world 1 2 = Some false /\ is_sub_type_of_opt cyc_world 4 1 = Some true /\
  is_sub_type_of_opt cyc_world 4 3 = Some false /\ is_sub_type_of_opt cyc_world 4 nm_string = Some true.
Proof. vm_compute. repeat split; reflexivity. Qed.

(** the braid: the code's filter (fresh visited set per edge) drops every edge of the cycles; with one
    shared visited set the edges A -> B and B -> A would both survive *)
Lemma braid_example :
  eff_supers braid_world 1 = Some (Some []) /\ eff_supers braid_world 3 = Some (Some []) /\
  eff_supers_shared braid_world 1 = Some [TRef 3] /\ eff_supers_shared braid_world 3 = Some [TRef 1].
Proof. vm_compute. repeat split; reflexivity. Qed.
