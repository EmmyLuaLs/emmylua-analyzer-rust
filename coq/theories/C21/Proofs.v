(** C21/Proofs.v — reported ranges lie inside the document because a valid range translates and converts back
    ([translate_valid], from the round trip of C22); parse errors are emissions of one more checker, so C20's
    [emitted_reported] applies; the code table is finite and checked by evaluation. *)
From Coq Require Import List String NArith Bool Lia.
From EV Require Import Base.TextFacts C22.Props C20.Proofs C21.Model.
Import ListNotations.
Local Open Scope N_scope.

Lemma translate_valid : forall t r,
  valid_range t r ->
  exists p q, translate_range_res t r = Val (p, q) /\ translate_range t r = (p, q) /\
              pos_le p q /\ to_rowan_range (parse t) t p q = Val (fst r, snd r).
Proof.
  intros t [a b] [Ha [Hb Hab]]. cbn [fst snd] in *.
  destruct (C22.Props.range_roundtrip t a b Ha Hb Hab) as [p [q [H1 [H2 H3]]]].
  exists p, q. unfold translate_range, translate_range_res. cbn [fst snd]. rewrite H1.
  split; [reflexivity|]. split; [reflexivity|]. split; [exact H2|exact H3].
Qed.

Lemma translate_in_bounds : forall t r, valid_range t r -> in_document t (translate_range t r).
Proof.
  intros t r Hv. destruct (translate_valid t r Hv) as [p [q [_ [-> [Hle Hback]]]]].
  destruct Hv as [Ha [Hb Hab]]. unfold in_document. cbn [fst snd]. split; [exact Hle|].
  exists (fst r), (snd r). split; [exact Hab|]. split; [apply boundary_le_bytes; exact Hb|].
  split; [exact Ha|]. split; [exact Hb|exact Hback].
Qed.

Lemma translate_never_panics : forall t r, valid_range t r -> translate_range_res t r <> Panic /\ translate_range_res t r <> Nothing.
Proof.
  intros t r Hv. destruct (translate_valid t r Hv) as [p [q [-> _]]]. split; discriminate.
Qed.

Lemma fallback_only_when_untranslatable : forall t r,
  translate_range t r = fallback ->
  (exists pq, translate_range_res t r = Val pq /\ pq = fallback) \/ ~ valid_range t r.
Proof.
  intros t r H. unfold translate_range in H.
  destruct (translate_range_res t r) as [pq| |] eqn:E.
  - left. exists pq. split; [reflexivity|exact H].
  - right. intros Hv. destruct (translate_never_panics t r Hv) as [_ Hn]. contradiction.
  - right. intros Hv. destruct (translate_never_panics t r Hv) as [Hp _]. contradiction.
Qed.

Lemma take_bytes_0' : forall t, take_bytes t 0 = Some [].
Proof. exact take_bytes_0. Qed.

Lemma fallback_in_bounds : forall t, in_document t fallback.
Proof.
  intros t. unfold in_document, fallback. cbn [fst snd]. split.
  - right. split; [reflexivity|lia].
  - exists 0, 0. split; [lia|]. split; [lia|].
    split; [exact (boundaryb_app [] t)|]. split; [exact (boundaryb_app [] t)|].
    unfold to_rowan_range. cbn [fst snd].
    rewrite C23.Proofs.off_is_lsp_off, C22.Proofs.spec_off_0_0. reflexivity.
Qed.

Lemma translate_total_in_bounds : forall t r,
  in_document t (translate_range t r) \/ (~ valid_range t r).
Proof.
  intros t r. unfold valid_range.
  destruct (boundaryb t (fst r)) eqn:Ha; [|right; intros [H _]; discriminate].
  destruct (boundaryb t (snd r)) eqn:Hb; [|right; intros [_ [H _]]; discriminate].
  destruct (N.le_gt_cases (fst r) (snd r)) as [Hab|Hab]; [|right; intros [_ [_ H]]; lia].
  left. apply translate_in_bounds. repeat split; assumption.
Qed.

Lemma diagnostics_in_bounds : forall t cfg f ks ds d,
  (forall k e, In k ks -> In e (k_body k cfg) -> valid_range t (e_range e)) ->
  diagnose_file (translate_range t) cfg f ks = Some ds -> In d ds ->
  in_document t (d_range d).
Proof.
  intros t cfg f ks ds d Hval H Hin.
  destruct (reported_emitted _ _ _ _ _ _ H Hin) as (k & e & Hk & He & _ & ->).
  apply translate_in_bounds. exact (Hval k e Hk He).
Qed.

Lemma syntax_codes_listed : forall doc, In (code_of_kind doc) (codes_of_checker "SyntaxErrorChecker").
Proof. intros doc. apply mem_true_iff. destruct doc; reflexivity. Qed.

Definition diag_of_error (t : text) (cfg : config) (pe : parse_error) : diag :=
  {| d_code := code_of_kind (pe_doc pe); d_name := code_name (code_of_kind (pe_doc pe));
     d_range := translate_range t (pe_range pe); d_severity := get_severity cfg (code_of_kind (pe_doc pe));
     d_msg := pe_msg pe; d_data := None |}.

Lemma syntax_errors_all_reported : forall t cfg f errs extra others pe,
  In pe errs ->
  cfg_enable cfg = true ->
  (f_workspace f = None \/ f_workspace f = Some main_workspace_id) ->
  is_checker_enable_by_code cfg f (code_of_kind (pe_doc pe)) = true ->
  f_suppressed f (code_of_kind (pe_doc pe)) (pe_range pe) = false ->
  exists ds, diagnose_file (translate_range t) cfg f (syntax_error_checker errs extra :: others) = Some ds /\
             In (diag_of_error t cfg pe) ds.
Proof.
  intros t cfg f errs extra others pe Hin Hen Hws Hon Hsup.
  apply (emitted_reported _ cfg f _ (syntax_error_checker errs extra) (emit_of_error pe)); try assumption.
  - left. reflexivity.
  - apply in_or_app. left. apply in_map. exact Hin.
  - apply syntax_codes_listed.
Qed.

Lemma filter_map_all : forall (A B : Type) (g : A -> option B) (h : A -> B) (l : list A),
  (forall a, In a l -> g a = Some (h a)) -> filter_map g l = map h l.
Proof.
  intros A B g h l. induction l as [|a r IH]; intros H; cbn [filter_map map]; [reflexivity|].
  rewrite (H a (or_introl eq_refl)). f_equal. apply IH. intros a' Ha'. apply H. right. exact Ha'.
Qed.

Lemma filter_map_app : forall (A B : Type) (g : A -> option B) (l1 l2 : list A),
  filter_map g (l1 ++ l2) = filter_map g l1 ++ filter_map g l2.
Proof.
  intros A B g l1 l2. induction l1 as [|a r IH]; cbn [app filter_map]; [reflexivity|].
  destruct (g a); [cbn [app]; f_equal; exact IH|exact IH].
Qed.

Lemma syntax_errors_one_each : forall t cfg f errs extra others ds,
  diagnose_file (translate_range t) cfg f (syntax_error_checker errs extra :: others) = Some ds ->
  is_checker_enable_by_code cfg f C_SyntaxError = true ->
  is_checker_enable_by_code cfg f C_DocSyntaxError = true ->
  (forall pe, In pe errs -> f_suppressed f (code_of_kind (pe_doc pe)) (pe_range pe) = false) ->
  exists rest, ds = get_diagnostics (map (diag_of_error t cfg) errs ++ rest).
Proof.
  intros t cfg f errs extra others ds H Hs Hd Hsup.
  apply diagnose_file_some in H. destruct H as [_ [_ ->]].
  unfold check_file. cbn [flat_map]. unfold run_check at 1.
  assert (Hg : existsb (is_checker_enable_by_code cfg f) (k_codes (syntax_error_checker errs extra)) = true).
  { apply existsb_exists. exists C_SyntaxError. split; [exact (syntax_codes_listed false)|exact Hs]. }
  rewrite Hg. cbn [syntax_error_checker k_body]. rewrite filter_map_app.
  rewrite (filter_map_all _ _ (add_diagnostic (translate_range t) cfg f) (fun e => mk_diag (translate_range t) cfg e) (map emit_of_error errs)).
  - rewrite map_map. rewrite <- app_assoc. eexists. reflexivity.
  - intros e He. apply in_map_iff in He. destruct He as [pe [<- Hpe]].
    apply add_diagnostic_some. cbn [emit_of_error e_code e_range].
    split; [destruct (pe_doc pe); [exact Hd|exact Hs]|]. split; [exact (Hsup pe Hpe)|reflexivity].
Qed.

Lemma dedup_acc_nodup_prefix : forall l1 l2 kept,
  NoDup l1 -> (forall d, In d l1 -> ~ In d kept) ->
  dedup_acc kept (l1 ++ l2) = l1 ++ dedup_acc (rev l1 ++ kept) l2.
Proof.
  induction l1 as [|x r IH]; intros l2 kept Hnd Hk; cbn [app rev dedup_acc]; [reflexivity|].
  inversion Hnd as [|? ? Hx Hr]; subst.
  destruct (in_dec diag_eq_dec x kept) as [Hin|_]; [exfalso; exact (Hk x (or_introl eq_refl) Hin)|].
  f_equal. rewrite (IH l2 (x :: kept) Hr).
  - rewrite <- app_assoc. reflexivity.
  - intros d Hd [Heq|Hin]; [subst; contradiction|exact (Hk d (or_intror Hd) Hin)].
Qed.

Lemma syntax_errors_prefix : forall t cfg f errs extra others ds,
  diagnose_file (translate_range t) cfg f (syntax_error_checker errs extra :: others) = Some ds ->
  is_checker_enable_by_code cfg f C_SyntaxError = true ->
  is_checker_enable_by_code cfg f C_DocSyntaxError = true ->
  (forall pe, In pe errs -> f_suppressed f (code_of_kind (pe_doc pe)) (pe_range pe) = false) ->
  NoDup (map (diag_of_error t cfg) errs) ->
  exists rest, ds = map (diag_of_error t cfg) errs ++ rest.
Proof.
  intros t cfg f errs extra others ds H Hs Hd Hsup Hnd.
  destruct (syntax_errors_one_each t cfg f errs extra others ds H Hs Hd Hsup) as [rest ->].
  unfold get_diagnostics. destruct dedup_diagnostics.
  - rewrite (dedup_acc_nodup_prefix _ rest [] Hnd); [eexists; reflexivity|intros d _ []].
  - eexists; reflexivity.
Qed.

Lemma disabled_syntax_code_silent : forall t cfg f ks ds d c,
  diagnose_file (translate_range t) cfg f ks = Some ds -> In d ds ->
  is_checker_enable_by_code cfg f c = false -> d_code d <> c.
Proof.
  intros t cfg f ks ds d c H Hin Hoff Heq. subst c.
  rewrite (reported_enabled _ cfg f ks ds d H Hin) in Hoff. discriminate.
Qed.

Lemma all_codes_complete : forall c, In c all_codes.
Proof. intros c. apply mem_true_iff. destruct c; reflexivity. Qed.

Lemma string_mem_in : forall s l, string_mem s l = true <-> In s l.
Proof.
  intros s l. induction l as [|x r IH]; cbn [string_mem In]; [split; [discriminate|tauto]|].
  rewrite orb_true_iff, IH, String.eqb_eq. split; intros [H|H]; auto.
Qed.

Lemma nodupb_sound : forall l, nodupb l = true -> NoDup l.
Proof.
  induction l as [|x r IH]; intros H; [constructor|].
  cbn [nodupb] in H. apply andb_true_iff in H. destruct H as [H1 H2].
  constructor; [|exact (IH H2)]. intros Hin. apply string_mem_in in Hin. rewrite Hin in H1. discriminate.
Qed.

Lemma code_names_distinct : NoDup (map code_name all_codes).
Proof. apply nodupb_sound. vm_compute. reflexivity. Qed.

Lemma code_name_injective : forall a b, code_name a = code_name b -> a = b.
Proof.
  assert (H : forall l, NoDup (map code_name l) -> forall a b, In a l -> In b l -> code_name a = code_name b -> a = b).
  { induction l as [|x r IH]; intros Hnd a b Ha Hb Heq; [destruct Ha|].
    cbn [map] in Hnd. inversion Hnd as [|? ? Hnot Hnd']; subst.
    destruct Ha as [<-|Ha]; destruct Hb as [<-|Hb].
    - reflexivity.
    - exfalso. apply Hnot. rewrite Heq. apply in_map. exact Hb.
    - exfalso. apply Hnot. rewrite <- Heq. apply in_map. exact Ha.
    - exact (IH Hnd' a b Ha Hb Heq). }
  intros a b. apply (H all_codes code_names_distinct); apply all_codes_complete.
Qed.

Lemma codes_known : forall tr cfg f ks ds d,
  diagnose_file tr cfg f ks = Some ds -> In d ds ->
  d_name d = code_name (d_code d) /\ In (d_name d) (map code_name all_codes).
Proof.
  intros tr cfg f ks ds d H Hin.
  destruct (reported_emitted _ _ _ _ _ _ H Hin) as (k & e & _ & _ & _ & ->).
  split; [reflexivity|]. exact (in_map code_name _ _ (all_codes_complete (e_code e))).
Qed.

Lemma severity_total : forall tr cfg f ks ds d,
  diagnose_file tr cfg f ks = Some ds -> In d ds -> exists s, d_severity d = Some s.
Proof.
  intros tr cfg f ks ds d H Hin. rewrite (C20.Proofs.severity_override tr cfg f ks ds d H Hin).
  destruct (lookup_severity cfg (d_code d)) as [s|]; eexists; reflexivity.
Qed.

(** "a😀b = = 1\r\n---@type" : a syntax error after an astral character (UTF-16 columns 7-8 for bytes 9-10)
    and a doc error at the end of the text on line 1 *)
Definition ex_text : text := [97; 128512; 98; 32; 61; 32; 61; 32; 49; 13; 10; 45; 45; 45; 64; 116; 121; 112; 101].
Definition ex_errs : list parse_error :=
  [ {| pe_doc := false; pe_range := (9, 10); pe_msg := [63] |};
    {| pe_doc := false; pe_range := (9, 10); pe_msg := [63] |};   (* the parser recorded this error twice *)
    {| pe_doc := true; pe_range := (22, 22); pe_msg := [33] |} ].
Definition ex_cfg : config :=
  {| cfg_enable := true; ws_disabled := []; ws_enabled := []; cfg_severity := []; cfg_globals := [];
     cfg_globals_regex := []; cfg_level := L_Lua55 |}.
Definition ex_file : file :=
  {| f_enabled := []; f_disabled := []; f_meta := false; f_workspace := Some 1; f_suppressed := fun _ _ => false |}.

Lemma syntax_example :
  option_map (map (fun d => (d_name d, d_range d, d_severity d)))
    (diagnose_file (translate_range ex_text) ex_cfg ex_file [syntax_error_checker ex_errs []])
  = Some [ ("syntax-error"%string, ((0, 7), (0, 8)), Some ERROR); ("doc-syntax-error"%string, ((1, 8), (1, 8)), Some ERROR) ]
  /\ translate_range ex_text (2, 3) = fallback
  /\ valid_range ex_text (9, 10).
Proof. vm_compute. repeat split; try reflexivity; try discriminate. Qed.
