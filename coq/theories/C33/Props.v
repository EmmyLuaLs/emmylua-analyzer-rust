(** [run c ops] is the real index's state machine (tree of nodes, file map, fuzzy map, id counter) after the history
    [ops] under configuration [c]; [arun c ops] is the abstract resolver's state: the ordered finite set of
    (file, module path, workspace, hidden) entries.  [c] ranges over ALL configurations, including every rewrite
    function [c_rw] standing for the moduleMap regexes. *)
From EV Require Import C33.Model C33.Spec C33.Proofs.
Local Open Scope N_scope.

(** For every configuration, every add/remove/hide/clear history and every require string, the tree index answers
    exactly like the abstract resolver (same file, same full module name, same workspace, same visibility). *)
Theorem find_refines_spec : forall (c : cfg) (ops : list op) (q : str),
  option_map view_i (find_module c (run c ops) q) = option_map view_a (spec_find c (arun c ops) q).
Proof. exact Proofs.find_refines_spec. Qed.

(** If some registered file has exactly the required module path, the answer is an exact match
    (never a fuzzy suffix match, never a moduleMap rewrite). *)
Theorem exact_before_fuzzy : forall (c : cfg) (ops : list op) (q : str) (e : aentry),
  In e (arun c ops) -> a_path e = normalize q ->
  exists i, find_module c (run c ops) q = Some i /\ i_full i = normalize q.
Proof. exact Proofs.exact_before_fuzzy. Qed.

(** The choice among several candidates is a function of the abstract state alone: two histories that register the
    same ordered set of files answer every require identically (node ids, hash-map layout, earlier additions and
    removals do not matter). *)
Theorem fuzzy_choice_deterministic : forall (c : cfg) (ops1 ops2 : list op) (q : str),
  arun c ops1 = arun c ops2 ->
  option_map view_i (find_module c (run c ops1) q) = option_map view_i (find_module c (run c ops2) q).
Proof. exact Proofs.fuzzy_choice_deterministic. Qed.

(** After a file is removed, no require string resolves to it. *)
Theorem removed_unresolvable : forall (c : cfg) (ops : list op) (f : N) (q : str) (i : minfo),
  find_module c (run c (ops ++ [ORemove f])) q = Some i -> i_file i <> f.
Proof. exact Proofs.removed_unresolvable. Qed.

(** The number of tree nodes and of file records is a function of the abstract state: one node per distinct
    prefix of a registered module path (the root included) — nothing accumulates over add/remove cycles. *)
Theorem module_sizes_spec : forall (c : cfg) (ops : list op),
  length (m_nodes (run c ops)) = length (nodup strs_eq_dec (all_prefixes (arun c ops))) /\
  length (m_files (run c ops)) = length (arun c ops).
Proof. exact Proofs.module_sizes_spec. Qed.

(** non-vacuity: a history with a shared module path, a hidden file, a re-registration and a fuzzy tie *)
Example refinement_example :
  option_map i_file (find_module ex_cfg (run ex_cfg ex_ops) [97; 46; 98; 46; 99]) = Some 3 /\
  option_map i_file (find_module ex_cfg (run ex_cfg ex_ops) [98; 46; 99]) = Some 1 /\
  option_map i_file (find_module ex_cfg (run ex_cfg ex_ops) [99]) = Some 2 /\
  option_map i_file (find_module ex_cfg (run ex_cfg (ex_ops ++ [ORemove 2])) [120; 47; 99]) = None /\
  option_map a_file (spec_find ex_cfg (arun ex_cfg ex_ops) [99]) = Some 2 /\
  length (m_nodes (run ex_cfg ex_ops)) = 6%nat /\
  length (m_nodes (run ex_cfg (ex_ops ++ [ORemove 1; ORemove 3]))) = 3%nat.
Proof. exact Proofs.refinement_example. Qed.
