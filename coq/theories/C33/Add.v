(** [add_module_by_module_path] preserves the refinement invariant. *)
From EV Require Import C33.Model C33.Spec C33.Lemmas C33.Inv C33.Tree C33.Remove.
Local Open Scope N_scope.

(** creating the child [part] of [n0] with the fresh id [cnt] *)
Section Grow.
  Variables (nodes : list (N * node)) (a : astate) (addr : N -> list str) (cnt : N).
  Variables (n0 : N) (nd0 : node) (part : str) (X : list str).
  Hypothesis HT : Tree nodes a addr cnt.
  Hypothesis HL : Live nodes a addr (Some X).
  Hypothesis Hn0 : ngetN n0 nodes = Some nd0.
  Hypothesis Hnone : sget part (n_children nd0) = None.
  Hypothesis HX : prefix (addr n0 ++ [part]) X.

  Let nd0' := mkNode (n_parent nd0) (n_children nd0 ++ [(part, cnt)]) (n_files nd0).
  Let newnode := mkNode (Some n0) [] [].
  Let nodes2 := nsetN n0 nd0' nodes ++ [(cnt, newnode)].
  Let addr1 := fun n => if n =? cnt then addr n0 ++ [part] else addr n.

  Lemma gr_lt : forall n x, ngetN n nodes = Some x -> n <> cnt.
  Proof. intros n x H ->. pose proof (T_counter HT cnt x H). lia. Qed.

  Lemma gr_cnt_none : ngetN cnt nodes = None.
  Proof. destruct (ngetN cnt nodes) as [x|] eqn:E; [|reflexivity]. exfalso. eapply gr_lt; eauto. Qed.

  Lemma gr_get : forall n, ngetN n nodes2 =
    if n =? n0 then Some nd0' else if n =? cnt then Some newnode else ngetN n nodes.
  Proof.
    intro n. unfold nodes2. rewrite aget_app, nget_set.
    destruct (N.eqb_spec n n0) as [->|Hne]; [reflexivity|].
    cbn [aget]. destruct (N.eqb_spec n cnt) as [->|Hnc].
    - rewrite gr_cnt_none. reflexivity.
    - destruct (ngetN n nodes); reflexivity.
  Qed.

  Lemma gr_addr_old : forall n x, ngetN n nodes = Some x -> addr1 n = addr n.
  Proof. intros n x H. unfold addr1. destruct (N.eqb_spec n cnt) as [E|_]; [|reflexivity]. exfalso. eapply gr_lt; eauto. Qed.

  Lemma gr_addr_cnt : addr1 cnt = addr n0 ++ [part].
  Proof. unfold addr1. rewrite N.eqb_refl. reflexivity. Qed.

  Lemma gr_new : forall n x, ngetN n nodes = Some x ->
    exists x', ngetN n nodes2 = Some x' /\ n_parent x' = n_parent x /\
               (forall k ch, sget k (n_children x) = Some ch -> sget k (n_children x') = Some ch).
  Proof.
    intros n x H. rewrite gr_get. destruct (N.eqb_spec n n0) as [->|Hne].
    - rewrite Hn0 in H. inversion H; subst x. exists nd0'. repeat split; auto.
      intros k ch Hk. cbn [n_children nd0']. rewrite aget_app, Hk. reflexivity.
    - destruct (N.eqb_spec n cnt) as [E|_]; [exfalso; eapply gr_lt; eauto|]. exists x. auto.
  Qed.

  Lemma gr_cases : forall n x', ngetN n nodes2 = Some x' ->
    (n = cnt /\ x' = newnode) \/
    (exists x, ngetN n nodes = Some x /\ n_parent x' = n_parent x /\ n_files x' = n_files x /\
               (n <> n0 -> x' = x) /\ (n = n0 -> x' = nd0')).
  Proof.
    intros n x' H. rewrite gr_get in H. destruct (N.eqb_spec n n0) as [->|Hne].
    - inversion H; subst x'. right. exists nd0. repeat split; auto. congruence.
    - destruct (N.eqb_spec n cnt) as [->|Hnc].
      + inversion H; subst. left. auto.
      + right. exists x'. repeat split; auto. congruence.
  Qed.

  Lemma gr_no_node_at : forall m md, ngetN m nodes = Some md -> addr m <> addr n0 ++ [part].
  Proof.
    intros m md Hm Ha. pose proof (t_child_at _ _ _ _ HT n0 nd0 part m md Hn0 Hm Ha) as H. congruence.
  Qed.

  Lemma grow_cnt : ngetN cnt nodes2 = Some newnode.
  Proof.
    rewrite gr_get. destruct (N.eqb_spec cnt n0) as [E|_]; [exfalso; eapply gr_lt; eauto|].
    rewrite N.eqb_refl. reflexivity.
  Qed.

  Lemma gr_child_old : forall n x k ch, ngetN n nodes = Some x -> sget k (n_children x) = Some ch ->
    (exists cd', ngetN ch nodes2 = Some cd' /\ n_parent cd' = Some n) /\ addr1 ch = addr1 n ++ [k].
  Proof.
    intros n x k ch Hx Hk. destruct (T_child HT n x k ch Hx Hk) as [[cd [Hcd Hpar]] Ha].
    destruct (gr_new ch cd Hcd) as [cd' [H1 [H2 _]]]. rewrite (gr_addr_old ch cd Hcd), (gr_addr_old n x Hx).
    split; [exists cd'; split; [exact H1 | congruence] | exact Ha].
  Qed.

  Lemma grow_tree : Tree nodes2 a addr1 (cnt + 1).
  Proof.
    constructor.
    - (* T_root *) destruct (T_root HT) as [rd Hrd]. destruct (gr_new ROOT rd Hrd) as [x [H _]]. eauto.
    - (* T_addr_root *) destruct (T_root HT) as [rd Hrd]. rewrite (gr_addr_old ROOT rd Hrd). exact (T_addr_root HT).
    - (* T_child *) intros n x' k ch Hn Hk. destruct (gr_cases n x' Hn) as [[-> ->]|[x [Hx [_ [_ [Hne Heq]]]]]]; [cbn in Hk; discriminate|].
      destruct (N.eq_dec n n0) as [->|Hnn]; [|rewrite (Hne Hnn) in Hk; exact (gr_child_old n x k ch Hx Hk)].
      rewrite (Heq eq_refl) in Hk. cbn [n_children nd0'] in Hk. rewrite aget_app in Hk.
      destruct (sget k (n_children nd0)) as [c0|] eqn:Ek.
      + inversion Hk; subst c0. exact (gr_child_old n0 nd0 k ch Hn0 Ek).
      + cbn [aget] in Hk. destruct (str_eqb_spec k part) as [->|]; [|discriminate].
        inversion Hk; subst ch. rewrite gr_addr_cnt, (gr_addr_old n0 nd0 Hn0). split; [|reflexivity].
        exists newnode. split; [exact grow_cnt | reflexivity].
    - (* T_ckeys *) intros n x' Hn. destruct (gr_cases n x' Hn) as [[-> ->]|[x [Hx [_ [_ [Hne Heq]]]]]].
      + cbn. constructor.
      + destruct (N.eq_dec n n0) as [->|Hnn].
        * rewrite (Heq eq_refl). cbn [n_children nd0']. rewrite map_app. cbn [map fst].
          apply nodup_snoc; [eapply (T_ckeys HT); exact Hn0|].
          apply (aget_None_notin str_eqb_spec). exact Hnone.
        * rewrite (Hne Hnn). eapply (T_ckeys HT); exact Hx.
    - (* T_parent *) intros n x' Hn Hr. destruct (gr_cases n x' Hn) as [[-> ->]|[x [Hx [Hpar _]]]].
      + exists n0, nd0', part. split; [reflexivity|]. split.
        * rewrite gr_get, N.eqb_refl. reflexivity.
        * cbn [n_children nd0']. rewrite aget_app, Hnone. cbn [aget]. rewrite str_eqb_refl. reflexivity.
      + destruct (T_parent HT n x Hx Hr) as [p [pd [k [Hp [Hpd Hk]]]]].
        destruct (gr_new p pd Hpd) as [pd' [H1 [_ H4]]].
        exists p, pd', k. split; [congruence|]. split; [exact H1 | apply H4; exact Hk].
    - (* T_inj *) intros n m x' y' Hn Hm Ha.
      destruct (gr_cases n x' Hn) as [[-> ->]|[x [Hx _]]]; destruct (gr_cases m y' Hm) as [[-> ->]|[y [Hy _]]].
      + reflexivity.
      + exfalso. rewrite gr_addr_cnt, (gr_addr_old m y Hy) in Ha. eapply gr_no_node_at; eauto.
      + exfalso. rewrite gr_addr_cnt, (gr_addr_old n x Hx) in Ha. eapply gr_no_node_at; eauto.
      + rewrite (gr_addr_old n x Hx), (gr_addr_old m y Hy) in Ha. eapply (T_inj HT); eauto.
    - (* T_files *) intros n x' Hn. destruct (gr_cases n x' Hn) as [[-> ->]|[x [Hx [_ [Hf _]]]]].
      + rewrite gr_addr_cnt. cbn [n_files newnode].
        destruct (nil_or_in (at_addr a (addr n0 ++ [part]))) as [->|[e He]]; [reflexivity|]. exfalso.
        apply in_at_addr in He. destruct He as [He Hq].
        destruct (T_complete HT e (addr n0 ++ [part]) He) as [m [md [Hm Ham]]].
        { rewrite Hq. apply prefix_refl. }
        eapply gr_no_node_at; eauto.
      + rewrite Hf, (gr_addr_old n x Hx). eapply (T_files HT); exact Hx.
    - (* T_complete *) intros e P He Hpre. destruct (T_complete HT e P He Hpre) as [n [x [Hx Ha]]].
      destruct (gr_new n x Hx) as [x' [H1 _]]. exists n, x'. split; [exact H1|].
      rewrite (gr_addr_old n x Hx). exact Ha.
    - (* T_counter *) intros n x' Hn. destruct (gr_cases n x' Hn) as [[-> ->]|[x [Hx _]]]; [lia|].
      pose proof (T_counter HT n x Hx). lia.
    - (* T_nodup *) unfold nodes2. rewrite map_app. cbn [map fst]. apply nodup_snoc.
      + apply (nodup_aset N.eqb_spec). exact (T_nodup HT).
      + rewrite (keys_aset_present N.eqb_spec n0 nd0' nd0 nodes Hn0).
        apply (aget_None_notin N.eqb_spec). exact gr_cnt_none.
  Qed.

  Lemma grow_live : Live nodes2 a addr1 (Some X).
  Proof.
    intros n x' Hn Hr Hx. destruct (gr_cases n x' Hn) as [[-> ->]|[x [Hx0 _]]].
    - exfalso. apply Hx. rewrite gr_addr_cnt. exact HX.
    - rewrite (gr_addr_old n x Hx0) in *. exact (HL n x Hx0 Hr Hx).
  Qed.
End Grow.

(** what [ensure_path] guarantees *)
Definition ensured (nodes nodes' : list (N * node)) (a : astate) (addr addr' : N -> list str)
           (cnt' nid : N) (X : list str) : Prop :=
  Tree nodes' a addr' cnt' /\ Live nodes' a addr' (Some X) /\
  (forall n x, ngetN n nodes = Some x -> addr' n = addr n /\ exists x', ngetN n nodes' = Some x') /\
  (exists ndx, ngetN nid nodes' = Some ndx) /\ addr' nid = X.

Lemma ensure_ok : forall parts n0 nd0 nodes cnt addr a X,
  Tree nodes a addr cnt -> Live nodes a addr (Some X) ->
  ngetN n0 nodes = Some nd0 -> X = addr n0 ++ parts ->
  exists nodes' cnt' nid addr',
    ensure_path parts n0 nodes cnt = (nodes', cnt', Some nid) /\
    ensured nodes nodes' a addr addr' cnt' nid X.
Proof.
  induction parts as [|part rest IH]; intros n0 nd0 nodes cnt addr a X HT HL Hn0 HX.
  - rewrite app_nil_r in HX. subst X. exists nodes, cnt, n0, addr. split; [reflexivity|].
    split; [exact HT|]. split; [exact HL|]. split; [|eauto].
    intros n x Hx. split; [reflexivity | eauto].
  - cbn [ensure_path]. rewrite Hn0.
    destruct (sget part (n_children nd0)) as [id|] eqn:Hk.
    + destruct (T_child HT n0 nd0 part id Hn0 Hk) as [[cd [Hcd _]] Ha].
      rewrite Hcd. apply (IH id cd nodes cnt addr a X HT HL Hcd). rewrite Ha, <- app_assoc. exact HX.
    + set (nd0' := mkNode (n_parent nd0) (n_children nd0 ++ [(part, cnt)]) (n_files nd0)).
      assert (HpX : prefix (addr n0 ++ [part]) X).
      { rewrite HX. exists rest. rewrite <- app_assoc. reflexivity. }
      pose proof (grow_tree _ _ _ _ _ _ _ HT Hn0 Hk) as HT2.
      pose proof (grow_live _ _ _ _ _ _ _ _ HT HL Hn0 HpX) as HL2.
      pose proof (grow_cnt nodes a addr cnt n0 nd0 part HT Hn0) as Hc2.
      assert (Hnone : ngetN cnt (nsetN n0 nd0' nodes) = None).
      { rewrite nget_set. destruct (N.eqb_spec cnt n0) as [E|_].
        - exact (False_ind _ (gr_lt _ _ _ _ HT n0 nd0 Hn0 (eq_sym E))).
        - exact (gr_cnt_none _ _ _ _ HT). }
      rewrite Hnone.
      set (addr1 := fun n => if n =? cnt then addr n0 ++ [part] else addr n) in *.
      set (nodes2 := nsetN n0 nd0' nodes ++ [(cnt, mkNode (Some n0) [] [])]) in *.
      assert (HX' : X = addr1 cnt ++ rest).
      { unfold addr1. rewrite N.eqb_refl, <- app_assoc. exact HX. }
      destruct (IH cnt _ nodes2 (cnt + 1) addr1 a X HT2 HL2 Hc2 HX') as [nodes' [cnt' [nid [addr' [He [R1 [R2 [R3 R4]]]]]]]].
      exists nodes', cnt', nid, addr'. split; [exact He|].
      split; [exact R1|]. split; [exact R2|]. split; [|exact R4].
      intros n x Hx. destruct (gr_new nodes a addr cnt n0 nd0 part HT Hn0 n x Hx) as [x1 [H1 _]].
      destruct (R3 n x1 H1) as [Ha1 Hx']. split; [|exact Hx'].
      rewrite Ha1. exact (gr_addr_old nodes a addr cnt n0 part HT n x Hx).
Qed.
