(** [add_module_by_module_path], [set_module_visibility], [clear] preserve the invariant. *)
From EV Require Import C33.Model C33.Spec C33.Lemmas C33.Inv C33.Tree C33.Remove C33.Add.
Local Open Scope N_scope.

(** the state on which the insertion proper works: the file is not registered *)
Lemma pre_add : forall c s a addr f, Inv c s a addr ->
  Inv c (if has_file f s then m_remove f s else s) (a_remove f a) addr.
Proof.
  intros c s a addr f HI. unfold has_file. destruct (ngetN f (m_files s)) eqn:E.
  - apply inv_remove. exact HI.
  - rewrite (remove_absent c s a addr f HI E). exact HI.
Qed.

Lemma inv_add : forall c s a addr f mp ws, Inv c s a addr ->
  exists addr', Inv c (m_add c f mp ws s) (a_add f mp ws a) addr'.
Proof.
  intros c s a addr f mp ws HI0. unfold m_add, a_add.
  pose proof (pre_add c s a addr f HI0) as HI.
  set (s1 := if has_file f s then m_remove f s else s) in *.
  set (a1 := a_remove f a) in *.
  assert (Hfresh : forall e, In e a1 -> a_file e <> f).
  { intros e He. apply in_a_remove in He. tauto. }
  set (X := split_dot mp).
  set (enew := mkA f mp ws false).
  destruct (I_root HI) as [rd Hrd].
  assert (HX : X = addr ROOT ++ X) by (rewrite (I_addr_root HI); reflexivity).
  destruct (ensure_ok X ROOT rd (m_nodes s1) (m_counter s1) addr a1 X
              (inv_tree _ _ _ _ HI) (fun n nd Hn Hr _ => I_live HI n nd Hn Hr) Hrd HX)
    as [nodes' [cnt' [nid [addr' [He [R1 [R2 [R3 [[ndx Hndx] R5]]]]]]]]].
  rewrite He, Hndx.
  set (ndx' := mkNode (n_parent ndx) (n_children ndx) (n_files ndx ++ [f])).
  set (info := mkInfo f (join_dot X) (last_part X) nid ws false).
  exists addr'.
  destruct (same_shape_set nodes' nid ndx (n_files ndx ++ [f]) Hndx) as [Hold Hnew]. fold ndx' in Hold, Hnew.
  assert (Hin : In enew (a1 ++ [enew])) by (apply in_or_app; right; left; reflexivity).
  apply tree_inv.
  - (* Tree *) apply (tree_ext nodes' _ a1 _ addr' _ R1 (conj Hold Hnew)).
    + apply (nodup_aset N.eqb_spec). exact (T_nodup R1).
    + intros n x Hn. rewrite nget_set in Hn. unfold at_addr. rewrite filter_app_one, map_app. fold (at_addr a1 (addr' n)).
      change (parts_of enew) with X. destruct (N.eqb_spec n nid) as [->|Hnn].
      * inversion Hn; subst x. cbn [n_files ndx']. rewrite (T_files R1 nid ndx Hndx), R5, strs_eqb_refl. reflexivity.
      * rewrite (T_files R1 n x Hn).
        destruct (strs_eqb_spec X (addr' n)) as [E|_]; [|cbn [map]; rewrite app_nil_r; reflexivity].
        exfalso. apply Hnn. eapply (T_inj R1); eauto. congruence.
    + intros e P He' Hpre. apply in_app_or in He'. destruct He' as [He'|[<-|[]]].
      * exact (T_complete R1 e P He' Hpre).
      * destruct Hpre as [R HR]. apply (t_ancestors _ _ _ _ R1 R nid ndx P Hndx). rewrite R5. exact HR.
  - (* Live *) intros n x Hn Hr _. destruct (Hold n x Hn) as [x0 [H0 _]].
    destruct (prefix_dec (addr' n) X) as [Hp|Hnp]; [exists enew; auto|].
    destruct (R2 n x0 H0 Hr Hnp) as [e [He' Hpe]]. exists e. split; [apply in_or_app; left; exact He' | exact Hpe].
  - (* I_fmap_sound *) intros f' i Hi. rewrite nget_set in Hi. destruct (N.eqb_spec f' f) as [->|Hne].
    + inversion Hi; subst i. destruct (Hnew nid ndx Hndx) as [x [H1 _]].
      exists enew, x. split; [exact Hin|]. split; [reflexivity|]. split; [|split; [exact H1 | exact R5]].
      unfold info_rel, info, enew, full_of, name_of, parts_of. cbn. auto.
    + destruct (I_fmap_sound HI _ _ Hi) as [e [x0 [He' [Hf' [Hrel [Hx0 Ha]]]]]].
      destruct (R3 _ x0 Hx0) as [Ha' [x1 Hx1]]. destruct (Hnew _ x1 Hx1) as [x2 [Hx2 _]].
      exists e, x2. split; [apply in_or_app; left; exact He'|]. split; [exact Hf'|]. split; [exact Hrel|].
      split; [exact Hx2 | congruence].
  - (* I_fmap_complete *) intros e He'. rewrite nget_set. apply in_app_or in He'. destruct He' as [He'|[<-|[]]].
    + destruct (N.eqb_spec (a_file e) f) as [E|_]; [destruct (Hfresh e He' E) | exact (I_fmap_complete HI e He')].
    + exists info. cbn [a_file enew]. rewrite N.eqb_refl. reflexivity.
  - (* I_a_nodup *) rewrite map_app. cbn [map a_file enew]. apply nodup_snoc; [exact (I_a_nodup HI)|].
    intro Hf'. apply in_map_iff in Hf'. destruct Hf' as [e [Hf' He']]. exact (Hfresh e He' Hf').
  - (* I_fuzzy *) pose proof (I_fuzzy HI) as HF. destruct (c_fuzzy c); [|exact HF].
    intro name. rewrite sget_push, (HF (last_part X)).
    change (named (a1 ++ [enew]) name) with (filter (fun e => str_eqb (name_of e) name) (a1 ++ [enew])).
    rewrite filter_app_one, map_app. fold (named a1 name).
    change (name_of enew) with (last_part X).
    destruct (str_eqb_spec name (last_part X)) as [->|Hne].
    + rewrite str_eqb_refl. cbn [map a_file enew]. destruct (map a_file (named a1 (last_part X))); reflexivity.
    + destruct (str_eqb_spec (last_part X) name); [congruence|]. cbn [map]. rewrite app_nil_r. apply HF.
  - (* I_fmap_nodup *) apply (nodup_aset N.eqb_spec). exact (I_fmap_nodup HI).
  - (* I_fuzzy_nodup *) pose proof (I_fuzzy_nodup HI) as Hnd0. destruct (c_fuzzy c); [apply nodup_push|]; exact Hnd0.
Qed.

Definition hide_e (f : N) (e : aentry) : aentry :=
  if a_file e =? f then mkA (a_file e) (a_path e) (a_ws e) true else e.

Lemma hide_parts : forall f e, parts_of (hide_e f e) = parts_of e.
Proof. intros f e. unfold hide_e. destruct (a_file e =? f); reflexivity. Qed.

Lemma hide_file : forall f e, a_file (hide_e f e) = a_file e.
Proof. intros f e. unfold hide_e. destruct (a_file e =? f); reflexivity. Qed.

Lemma map_file_hide : forall f l, map a_file (map (hide_e f) l) = map a_file l.
Proof. intros f l. rewrite map_map. apply map_ext. intro e. apply hide_file. Qed.

Lemma inv_hide : forall c s a addr f, Inv c s a addr -> Inv c (m_hide f s) (a_hide f a) addr.
Proof.
  intros c s a addr f HI. unfold m_hide. change (a_hide f a) with (map (hide_e f) a).
  destruct (ngetN f (m_files s)) as [i0|] eqn:Ei.
  - assert (Hat : forall P, map a_file (at_addr (map (hide_e f) a) P) = map a_file (at_addr a P)).
    { intro P. unfold at_addr. rewrite (filter_map _ _ _ (fun e => strs_eqb (parts_of e) P)); [apply map_file_hide|].
      intro e. rewrite hide_parts. reflexivity. }
    assert (Hnm : forall nm, map a_file (named (map (hide_e f) a) nm) = map a_file (named a nm)).
    { intro nm. unfold named. rewrite (filter_map _ _ _ (fun e => str_eqb (name_of e) nm)); [apply map_file_hide|].
      intro e. unfold name_of. rewrite hide_parts. reflexivity. }
    assert (Hin : forall e', In e' (map (hide_e f) a) -> exists e, In e a /\ e' = hide_e f e).
    { intros e' H. apply in_map_iff in H. destruct H as [e [H1 H2]]. eauto. }
    apply tree_inv.
    + (* Tree *) apply (tree_ext (m_nodes s) _ a _ addr _ (inv_tree _ _ _ _ HI) (same_shape_refl _) (I_nodes_nodup HI)).
      * intros n nd Hn. rewrite Hat. exact (I_files HI n nd Hn).
      * intros e' P He' Hp. destruct (Hin e' He') as [e [He ->]]. rewrite hide_parts in Hp.
        exact (I_complete HI e P He Hp).
    + (* Live *) intros n nd Hn Hr _. destruct (I_live HI n nd Hn Hr) as [e [He Hp]].
      exists (hide_e f e). split; [apply in_map; exact He | rewrite hide_parts; exact Hp].
    + (* I_fmap_sound *) intros f' i Hi. rewrite nget_set in Hi. destruct (N.eqb_spec f' f) as [->|Hne].
      * inversion Hi; subst i. cbn [i_node].
        destruct (I_fmap_sound HI _ _ Ei) as [e [nd [He [Hf [Hrel [Hnd Ha]]]]]].
        exists (hide_e f e), nd. split; [apply in_map; exact He|]. split; [rewrite hide_file; exact Hf|].
        split; [|split; [exact Hnd | rewrite hide_parts; exact Ha]].
        destruct Hrel as [H1 [H2 [H3 [H4 H5]]]].
        unfold info_rel, hide_e, full_of, name_of, parts_of in *. rewrite Hf, N.eqb_refl. cbn. repeat split; first [congruence | assumption | exact H3 | reflexivity].
      * destruct (I_fmap_sound HI _ _ Hi) as [e [nd [He [Hf [Hrel [Hnd Ha]]]]]].
        exists e, nd. split; [|auto].
        apply in_map_iff. exists e. split; [|exact He]. unfold hide_e.
        destruct (N.eqb_spec (a_file e) f); [congruence | reflexivity].
    + (* I_fmap_complete *) intros e' He'. destruct (Hin e' He') as [e [He ->]]. rewrite hide_file.
      destruct (I_fmap_complete HI e He) as [i Hi]. rewrite nget_set.
      destruct (a_file e =? f); eauto.
    + (* I_a_nodup *) rewrite map_file_hide. exact (I_a_nodup HI).
    + (* I_fuzzy *) pose proof (I_fuzzy HI) as HF. destruct (c_fuzzy c); [|exact HF].
      intro name. rewrite Hnm. apply HF.
    + (* I_fmap_nodup *) apply (nodup_aset N.eqb_spec). exact (I_fmap_nodup HI).
    + (* I_fuzzy_nodup *) exact (I_fuzzy_nodup HI).
  - (* the file is not registered: nothing changes on either side *)
    assert (Hid : map (hide_e f) a = a).
    { rewrite <- (map_id a) at 2. apply map_ext_in. intros e He. unfold hide_e.
      destruct (N.eqb_spec (a_file e) f) as [E|_]; [|reflexivity].
      destruct (I_fmap_complete HI e He) as [i Hi]. congruence. }
    rewrite Hid. exact HI.
Qed.

Lemma inv_fresh : forall c cnt, 0 < cnt ->
  Inv c (mkIdx [(ROOT, root_node)] [] [] cnt) [] (fun _ => []).
Proof.
  intros c cnt Hc.
  assert (Hone : forall n nd, ngetN n [(ROOT, root_node)] = Some nd -> n = ROOT /\ nd = root_node).
  { intros n nd H. cbn [aget] in H. destruct (N.eqb_spec n ROOT); [inversion H; auto | discriminate]. }
  constructor; cbn [m_nodes m_files m_fuzzy m_counter].
  - (* I_root *) exists root_node. reflexivity.
  - (* I_addr_root *) reflexivity.
  - (* I_child *) intros n nd k ch Hn Hk. destruct (Hone n nd Hn) as [_ ->]. cbn in Hk. discriminate.
  - (* I_ckeys *) intros n nd Hn. destruct (Hone n nd Hn) as [_ ->]. cbn. constructor.
  - (* I_parent *) intros n nd Hn Hr. destruct (Hone n nd Hn) as [-> _]. congruence.
  - (* I_inj *) intros n m nd md Hn Hm _. destruct (Hone n nd Hn) as [-> _]. destruct (Hone m md Hm) as [-> _]. reflexivity.
  - (* I_files *) intros n nd Hn. destruct (Hone n nd Hn) as [_ ->]. reflexivity.
  - (* I_live *) intros n nd Hn Hr. destruct (Hone n nd Hn) as [-> _]. congruence.
  - (* I_complete *) intros e P [].
  - (* I_fmap_sound *) intros f i Hi. cbn in Hi. discriminate.
  - (* I_fmap_complete *) intros e [].
  - (* I_a_nodup *) constructor.
  - (* I_counter *) intros n nd Hn. destruct (Hone n nd Hn) as [-> _]. exact Hc.
  - (* I_fuzzy *) destruct (c_fuzzy c); [intro name; reflexivity | reflexivity].
  - (* I_nodes_nodup *) cbn. constructor; [intros [] | constructor].
  - (* I_fmap_nodup *) constructor.
  - (* I_fuzzy_nodup *) constructor.
Qed.

Lemma inv_init : forall c, Inv c m_init [] (fun _ => []).
Proof. intro c. apply inv_fresh. reflexivity. Qed.

Lemma inv_clear : forall c s a addr, Inv c s a addr -> Inv c (m_clear s) [] (fun _ => []).
Proof.
  intros c s a addr HI. apply inv_fresh.
  destruct (I_root HI) as [rd Hrd]. exact (I_counter HI ROOT rd Hrd).
Qed.
