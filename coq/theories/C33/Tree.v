(** The node-tree part of the invariant, with liveness stated relative to an exempted address: the nodes on the
    path that is currently being built or pruned. *)
From EV Require Import C33.Model C33.Spec C33.Lemmas C33.Inv.
Local Open Scope N_scope.

Record Tree (nodes : list (N * node)) (a : astate) (addr : N -> list str) (cnt : N) : Prop := mkTree {
  T_root : exists nd, ngetN ROOT nodes = Some nd;
  T_addr_root : addr ROOT = [];
  T_child : forall n nd k ch, ngetN n nodes = Some nd -> sget k (n_children nd) = Some ch ->
      (exists cd, ngetN ch nodes = Some cd /\ n_parent cd = Some n) /\ addr ch = addr n ++ [k];
  T_ckeys : forall n nd, ngetN n nodes = Some nd -> NoDup (map fst (n_children nd));
  T_parent : forall n nd, ngetN n nodes = Some nd -> n <> ROOT ->
      exists p pd k, n_parent nd = Some p /\ ngetN p nodes = Some pd /\ sget k (n_children pd) = Some n;
  T_inj : forall n m nd md, ngetN n nodes = Some nd -> ngetN m nodes = Some md -> addr n = addr m -> n = m;
  T_files : forall n nd, ngetN n nodes = Some nd -> n_files nd = map a_file (at_addr a (addr n));
  T_complete : forall e P, In e a -> prefix P (parts_of e) -> exists n nd, ngetN n nodes = Some nd /\ addr n = P;
  T_counter : forall n nd, ngetN n nodes = Some nd -> n < cnt;
  T_nodup : NoDup (map fst nodes)
}.

Arguments T_root {nodes a addr cnt}.
Arguments T_addr_root {nodes a addr cnt}.
Arguments T_child {nodes a addr cnt}.
Arguments T_ckeys {nodes a addr cnt}.
Arguments T_parent {nodes a addr cnt}.
Arguments T_inj {nodes a addr cnt}.
Arguments T_files {nodes a addr cnt}.
Arguments T_complete {nodes a addr cnt}.
Arguments T_counter {nodes a addr cnt}.
Arguments T_nodup {nodes a addr cnt}.

(** every node other than the root, and other than those whose address is a prefix of [X], lies on the path
    to some registered file *)
Definition Live (nodes : list (N * node)) (a : astate) (addr : N -> list str) (X : option (list str)) : Prop :=
  forall n nd, ngetN n nodes = Some nd -> n <> ROOT ->
    (match X with Some x => ~ prefix (addr n) x | None => True end) ->
    exists e, In e a /\ prefix (addr n) (parts_of e).

Lemma inv_tree : forall c s a addr, Inv c s a addr -> Tree (m_nodes s) a addr (m_counter s).
Proof. intros c s a addr H. destruct H. constructor; assumption. Qed.

Lemma inv_live : forall c s a addr, Inv c s a addr -> Live (m_nodes s) a addr None.
Proof. intros c s a addr H n nd Hn Hr _. eapply (I_live H); eauto. Qed.

Lemma prefix_dec : forall P Q : list str, prefix P Q \/ ~ prefix P Q.
Proof.
  intros P Q. destruct (list_eq_dec (list_eq_dec N.eq_dec) (firstn (length P) Q) P) as [E|NE].
  - left. exists (skipn (length P) Q). rewrite <- E at 1. symmetry. apply firstn_skipn.
  - right. intros [R ->]. apply NE. rewrite firstn_app, firstn_all, PeanoNat.Nat.sub_diag. apply app_nil_r.
Qed.

Lemma prefix_snoc : forall (Q P : list str) k, prefix Q (P ++ [k]) -> Q = P ++ [k] \/ prefix Q P.
Proof.
  intros Q P k [R HR]. destruct R as [|x R _] using rev_ind.
  - left. rewrite app_nil_r in HR. symmetry. exact HR.
  - right. rewrite app_assoc in HR. apply app_inj_tail in HR. destruct HR as [HR _]. exists R. exact HR.
Qed.

Lemma prefix_nil : forall Q : list str, prefix Q [] -> Q = [].
Proof. intros Q [R HR]. symmetry in HR. apply app_eq_nil in HR. tauto. Qed.

Lemma not_prefix_snoc : forall (P : list str) k, ~ prefix (P ++ [k]) P.
Proof. intros P k [R H]. apply (f_equal (@length str)) in H. rewrite !app_length in H. cbn in H. lia. Qed.

Lemma sget_nonnil : forall (l : list (str * N)), l <> [] -> exists k c, sget k l = Some c.
Proof.
  intros [|[k c] l] H; [congruence|]. exists k, c. cbn [aget]. rewrite str_eqb_refl. reflexivity.
Qed.

Section TreeFacts.
  Variables (nodes : list (N * node)) (a : astate) (addr : N -> list str) (cnt : N).
  Hypothesis HT : Tree nodes a addr cnt.

  Lemma t_not_root : forall m x l, addr m = l ++ [x] -> m <> ROOT.
  Proof. intros m x l Hm ->. rewrite (T_addr_root HT) in Hm. destruct l; discriminate. Qed.

  Lemma t_child_at : forall n0 nd0 k m1 md1,
    ngetN n0 nodes = Some nd0 -> ngetN m1 nodes = Some md1 -> addr m1 = addr n0 ++ [k] ->
    sget k (n_children nd0) = Some m1.
  Proof.
    intros n0 nd0 k m1 md1 Hn0 Hm1 Ha.
    assert (Hnr : m1 <> ROOT) by (eapply t_not_root; exact Ha).
    destruct (T_parent HT m1 md1 Hm1 Hnr) as [p [pd [k' [_ [Hp Hk']]]]].
    destruct (T_child HT p pd k' m1 Hp Hk') as [_ Ha'].
    rewrite Ha in Ha'. apply app_inj_tail in Ha'. destruct Ha' as [Hpp ->].
    assert (p = n0) by (eapply (T_inj HT); eauto). subst p.
    rewrite Hn0 in Hp. inversion Hp; subst. exact Hk'.
  Qed.

  Lemma walk_sound : forall parts n0 nd0 n,
    ngetN n0 nodes = Some nd0 -> walk nodes n0 parts = Some n ->
    (exists nd, ngetN n nodes = Some nd) /\ addr n = addr n0 ++ parts.
  Proof.
    induction parts as [|k rest IH]; intros n0 nd0 n Hn0 Hw; cbn [walk] in Hw.
    - inversion Hw; subst. split; [eauto | symmetry; apply app_nil_r].
    - rewrite Hn0 in Hw. destruct (sget k (n_children nd0)) as [ch|] eqn:Hk; [|discriminate].
      destruct (T_child HT n0 nd0 k ch Hn0 Hk) as [[cd [Hcd _]] Haddr].
      destruct (IH ch cd n Hcd Hw) as [Hex Ha]. split; [exact Hex|].
      rewrite Ha, Haddr, <- app_assoc. reflexivity.
  Qed.

  Lemma walk_complete : Live nodes a addr None -> forall parts n0 nd0 m md,
    ngetN n0 nodes = Some nd0 -> ngetN m nodes = Some md -> addr m = addr n0 ++ parts ->
    walk nodes n0 parts = Some m.
  Proof.
    intro HL. induction parts as [|k rest IH]; intros n0 nd0 m md Hn0 Hm Ha; cbn [walk].
    - rewrite app_nil_r in Ha. f_equal. symmetry. eapply (T_inj HT); eauto.
    - rewrite Hn0.
      assert (Hnr : m <> ROOT).
      { intros ->. rewrite (T_addr_root HT) in Ha. destruct (addr n0); discriminate. }
      destruct (HL m md Hm Hnr I) as [e [He Hpre]].
      assert (Hpre1 : prefix (addr n0 ++ [k]) (parts_of e)).
      { eapply prefix_trans; [|exact Hpre]. rewrite Ha. exists rest. rewrite <- app_assoc. reflexivity. }
      destruct (T_complete HT e _ He Hpre1) as [m1 [md1 [Hm1 Ha1]]].
      rewrite (t_child_at n0 nd0 k m1 md1 Hn0 Hm1 Ha1).
      apply (IH m1 md1 m md Hm1 Hm). rewrite Ha1, <- app_assoc. exact Ha.
  Qed.

  Lemma t_parent_addr : forall n nd p, ngetN n nodes = Some nd -> n <> ROOT -> n_parent nd = Some p ->
    exists pd k, ngetN p nodes = Some pd /\ sget k (n_children pd) = Some n /\ addr n = addr p ++ [k].
  Proof.
    intros n nd p Hn Hr Hp.
    destruct (T_parent HT n nd Hn Hr) as [p' [pd [k [Hp' [Hpd Hk]]]]].
    rewrite Hp in Hp'. inversion Hp'; subst p'. exists pd, k. split; [exact Hpd|]. split; [exact Hk|].
    apply (T_child HT p pd k n Hpd Hk).
  Qed.

  Lemma t_ancestors : forall R n nd P, ngetN n nodes = Some nd -> addr n = P ++ R ->
    exists m md, ngetN m nodes = Some md /\ addr m = P.
  Proof.
    induction R as [|x R IH] using rev_ind; intros n nd P Hn Ha.
    - rewrite app_nil_r in Ha. eauto.
    - rewrite app_assoc in Ha. assert (Hr : n <> ROOT) by (eapply t_not_root; exact Ha).
      destruct (T_parent HT n nd Hn Hr) as [p [pd [k [_ [Hpd Hk]]]]].
      destruct (T_child HT p pd k n Hpd Hk) as [_ Ha']. rewrite Ha in Ha'. apply app_inj_tail in Ha'.
      (* the parent sits at [P ++ R] *)
      destruct Ha' as [Ha' _]. exact (IH p pd P Hpd (eq_sym Ha')).
  Qed.

  Lemma t_dead_leaf : forall n nd e, ngetN n nodes = Some nd -> n_files nd = [] -> n_children nd = [] ->
    In e a -> ~ prefix (addr n) (parts_of e).
  Proof.
    intros n nd e Hn Hf Hc He [R HR].
    destruct R as [|x R].
    - rewrite app_nil_r in HR.
      pose proof (T_files HT n nd Hn) as Hfiles. rewrite Hf in Hfiles.
      assert (Hin : In e (at_addr a (addr n))) by (apply in_at_addr; auto).
      destruct (at_addr a (addr n)); [destruct Hin | discriminate].
    - assert (Hpre : prefix (addr n ++ [x]) (parts_of e)).
      { exists R. rewrite HR, <- app_assoc. reflexivity. }
      destruct (T_complete HT e _ He Hpre) as [m [md [Hm Ham]]].
      pose proof (t_child_at n nd x m md Hn Hm Ham) as Hk. rewrite Hc in Hk. discriminate.
  Qed.
End TreeFacts.

Definition same_shape (nodes' nodes : list (N * node)) : Prop :=
  (forall n x', ngetN n nodes' = Some x' ->
     exists x, ngetN n nodes = Some x /\ n_parent x' = n_parent x /\ n_children x' = n_children x) /\
  (forall n x, ngetN n nodes = Some x ->
     exists x', ngetN n nodes' = Some x' /\ n_parent x' = n_parent x /\ n_children x' = n_children x).

Lemma same_shape_refl : forall nodes, same_shape nodes nodes.
Proof. intro nodes. split; intros n x H; exists x; auto. Qed.

Lemma same_shape_set : forall nodes nid nd fs, ngetN nid nodes = Some nd ->
  same_shape (nsetN nid (mkNode (n_parent nd) (n_children nd) fs) nodes) nodes.
Proof.
  intros nodes nid nd fs Hnd. split; intros n x H; [rewrite nget_set in H | rewrite nget_set];
    destruct (N.eqb_spec n nid) as [->|_].
  - inversion H; subst x. exists nd. auto.
  - exists x. auto.
  - rewrite Hnd in H. inversion H; subst x. eexists. eauto.
  - exists x. auto.
Qed.

(** the tree clauses speak of parents, children and addresses only, except [T_files] and [T_complete] *)
Lemma tree_ext : forall nodes nodes' a a' addr cnt,
  Tree nodes a addr cnt -> same_shape nodes' nodes -> NoDup (map fst nodes') ->
  (forall n x', ngetN n nodes' = Some x' -> n_files x' = map a_file (at_addr a' (addr n))) ->
  (forall e P, In e a' -> prefix P (parts_of e) -> exists n x, ngetN n nodes = Some x /\ addr n = P) ->
  Tree nodes' a' addr cnt.
Proof.
  intros nodes nodes' a a' addr cnt HT [Hold Hnew] Hnd Hfiles Hcomp. constructor.
  - (* T_root *) destruct (T_root HT) as [rd Hrd]. destruct (Hnew ROOT rd Hrd) as [x [H _]]. eauto.
  - (* T_addr_root *) exact (T_addr_root HT).
  - (* T_child *) intros n x' k ch Hn Hk. destruct (Hold n x' Hn) as [x [Hx [_ Hch]]]. rewrite Hch in Hk.
    destruct (T_child HT n x k ch Hx Hk) as [[cd [Hcd Hpar]] Ha]. split; [|exact Ha].
    destruct (Hnew ch cd Hcd) as [cd' [H1 [H2 _]]]. exists cd'. split; [exact H1 | congruence].
  - (* T_ckeys *) intros n x' Hn. destruct (Hold n x' Hn) as [x [Hx [_ Hch]]]. rewrite Hch. exact (T_ckeys HT n x Hx).
  - (* T_parent *) intros n x' Hn Hr. destruct (Hold n x' Hn) as [x [Hx [Hpar _]]].
    destruct (T_parent HT n x Hx Hr) as [p [pd [k [Hp [Hpd Hk]]]]].
    destruct (Hnew p pd Hpd) as [pd' [H1 [_ H3]]].
    exists p, pd', k. split; [congruence|]. split; [exact H1 | congruence].
  - (* T_inj *) intros n m x' y' Hn Hm. destruct (Hold n x' Hn) as [x [Hx _]]. destruct (Hold m y' Hm) as [y [Hy _]].
    exact (T_inj HT n m x y Hx Hy).
  - (* T_files *) exact Hfiles.
  - (* T_complete *) intros e P He Hpre. destruct (Hcomp e P He Hpre) as [n [x [Hx Ha]]]. destruct (Hnew n x Hx) as [x' [H1 _]]. eauto.
  - (* T_counter *) intros n x' Hn. destruct (Hold n x' Hn) as [x [Hx _]]. exact (T_counter HT n x Hx).
  - (* T_nodup *) exact Hnd.
Qed.

Lemma tree_inv : forall c nodes files fuzzy cnt a addr,
  Tree nodes a addr cnt -> Live nodes a addr None ->
  (forall f i, ngetN f files = Some i ->
     exists e nd, In e a /\ a_file e = f /\ info_rel i e /\
                  ngetN (i_node i) nodes = Some nd /\ addr (i_node i) = parts_of e) ->
  (forall e, In e a -> exists i, ngetN (a_file e) files = Some i) ->
  NoDup (map a_file a) ->
  (if c_fuzzy c then forall name, sget name fuzzy = nonempty_opt (map a_file (named a name)) else fuzzy = []) ->
  NoDup (map fst files) -> NoDup (map fst fuzzy) ->
  Inv c (mkIdx nodes files fuzzy cnt) a addr.
Proof.
  intros c nodes files fuzzy cnt a addr HT HL Hs Hc Ha Hf Hnf Hnz. destruct HT.
  constructor; cbn [m_nodes m_files m_fuzzy m_counter]; try assumption.
  intros n nd Hn Hr. exact (HL n nd Hn Hr I).
Qed.

Section DropLeaf.
  Variables (nodes : list (N * node)) (a : astate) (addr : N -> list str) (cnt : N).
  Variables (c p : N) (cd pd : node).
  Hypothesis HT : Tree nodes a addr cnt.
  Hypothesis HL : Live nodes a addr (Some (addr c)).
  Hypothesis Hc : ngetN c nodes = Some cd.
  Hypothesis Hcf : n_files cd = [].
  Hypothesis Hcc : n_children cd = [].
  Hypothesis Hcr : c <> ROOT.
  Hypothesis Hcp : n_parent cd = Some p.
  Hypothesis Hp : ngetN p nodes = Some pd.

  Let pd' := mkNode (n_parent pd) (filter (fun kc => negb (snd kc =? c)) (n_children pd)) (n_files pd).
  Let nodes' := nsetN p pd' (ndelN c nodes).

  Lemma dl_addr : exists k, sget k (n_children pd) = Some c /\ addr c = addr p ++ [k].
  Proof.
    destruct (t_parent_addr _ _ _ _ HT c cd p Hc Hcr Hcp) as [pd0 [k [Hpd0 [Hk Ha]]]].
    rewrite Hp in Hpd0. inversion Hpd0; subst pd0. eauto.
  Qed.

  Lemma dl_pc : p <> c.
  Proof.
    intro E. destruct dl_addr as [k [_ Ha]]. rewrite E in Ha.
    assert (H : length (addr c) = length (addr c ++ [k])) by (rewrite <- Ha; reflexivity).
    rewrite app_length in H. cbn in H. lia.
  Qed.

  Lemma dl_get : forall n, ngetN n nodes' =
    if n =? p then Some pd' else if n =? c then None else ngetN n nodes.
  Proof. intro n. unfold nodes'. rewrite nget_set, nget_del. reflexivity. Qed.

  Lemma dl_get_p : ngetN p nodes' = Some pd'.
  Proof. rewrite dl_get, N.eqb_refl. reflexivity. Qed.

  Lemma dl_get_c : ngetN c nodes' = None.
  Proof.
    rewrite dl_get. destruct (N.eqb_spec c p) as [E|_]; [symmetry in E; destruct (dl_pc E)|].
    rewrite N.eqb_refl. reflexivity.
  Qed.

  Lemma dl_old : forall n nd', ngetN n nodes' = Some nd' ->
    exists nd, ngetN n nodes = Some nd /\ n <> c /\ n_parent nd' = n_parent nd /\ n_files nd' = n_files nd /\
               (n <> p -> nd' = nd) /\ (n = p -> nd' = pd').
  Proof.
    intros n nd' H. rewrite dl_get in H.
    destruct (N.eqb_spec n p) as [->|Hnp].
    - inversion H; subst nd'. exists pd. repeat split; auto using dl_pc. congruence.
    - destruct (N.eqb_spec n c) as [->|Hnc]; [discriminate|].
      exists nd'. repeat split; auto. congruence.
  Qed.

  Lemma dl_new : forall n nd, ngetN n nodes = Some nd -> n <> c ->
    exists nd', ngetN n nodes' = Some nd' /\ n_parent nd' = n_parent nd.
  Proof.
    intros n nd H Hnc. rewrite dl_get.
    destruct (N.eqb_spec n p) as [->|Hnp].
    - rewrite Hp in H. inversion H; subst nd. exists pd'. auto.
    - destruct (N.eqb_spec n c); [congruence|]. exists nd. auto.
  Qed.

  Lemma dl_children : forall n nd', ngetN n nodes' = Some nd' -> forall k ch,
    sget k (n_children nd') = Some ch <->
    (exists nd, ngetN n nodes = Some nd /\ sget k (n_children nd) = Some ch /\ ch <> c).
  Proof.
    intros n nd' H k ch.
    destruct (dl_old n nd' H) as [nd [Hnd [Hnc [_ [_ [Hne Heq]]]]]].
    destruct (N.eq_dec n p) as [->|Hnp].
    - rewrite (Heq eq_refl). cbn [n_children pd']. rewrite Hp in Hnd. inversion Hnd; subst nd.
      pose proof (T_ckeys HT p pd Hp) as Hck.
      rewrite (aget_iff_In str_eqb_spec) by (apply nodup_map_filter; exact Hck).
      rewrite filter_In. cbn [snd]. rewrite negb_true_iff, N.eqb_neq, <- (aget_iff_In str_eqb_spec k ch _ Hck).
      split; [intros [Hk Hch]; exists pd; auto|].
      intros [nd [Hnd' [Hk Hch]]]. rewrite Hp in Hnd'. inversion Hnd'; subst nd. auto.
    - rewrite (Hne Hnp). split.
      + intro Hk. exists nd. repeat split; auto. intros ->.
        destruct (T_child HT n nd k c Hnd Hk) as [[cd0 [Hcd0 Hpar]] _].
        rewrite Hc in Hcd0. inversion Hcd0; subst cd0. congruence.
      + intros [nd0 [Hnd0 [Hk _]]]. rewrite Hnd in Hnd0. inversion Hnd0; subst. exact Hk.
  Qed.

  Lemma drop_leaf_tree : Tree nodes' a addr cnt.
  Proof.
    constructor.
    - (* T_root *) destruct (T_root HT) as [rd Hrd]. destruct (dl_new ROOT rd Hrd (not_eq_sym Hcr)) as [rd' [H _]]. eauto.
    - (* T_addr_root *) exact (T_addr_root HT).
    - (* T_child *) intros n nd' k ch Hn Hk. apply (dl_children n nd' Hn) in Hk. destruct Hk as [nd [Hnd [Hk Hch]]].
      destruct (T_child HT n nd k ch Hnd Hk) as [[cd0 [Hcd0 Hpar]] Ha]. split; [|exact Ha].
      destruct (dl_new ch cd0 Hcd0 Hch) as [cd' [H1 H2]]. exists cd'. split; [exact H1 | congruence].
    - (* T_ckeys *) intros n nd' Hn. destruct (dl_old n nd' Hn) as [nd [Hnd [_ [_ [_ [Hne Heq]]]]]].
      destruct (N.eq_dec n p) as [->|Hnp].
      + rewrite (Heq eq_refl). cbn [n_children pd']. apply nodup_map_filter.
        eapply (T_ckeys HT); exact Hp.
      + rewrite (Hne Hnp). eapply (T_ckeys HT); exact Hnd.
    - (* T_parent *) intros n nd' Hn Hr. destruct (dl_old n nd' Hn) as [nd [Hnd [Hnc [Hpar _]]]].
      destruct (T_parent HT n nd Hnd Hr) as [p0 [pd0 [k [Hp0 [Hpd0 Hk]]]]].
      assert (Hp0c : p0 <> c).
      { intros ->. rewrite Hc in Hpd0. inversion Hpd0; subst pd0. rewrite Hcc in Hk. discriminate. }
      destruct (dl_new p0 pd0 Hpd0 Hp0c) as [pd0' [H1 _]].
      exists p0, pd0', k. split; [congruence|]. split; [exact H1|].
      apply (dl_children p0 pd0' H1). exists pd0. auto.
    - (* T_inj *) intros n m nd' md' Hn Hm. destruct (dl_old n nd' Hn) as [nd [Hnd _]]. destruct (dl_old m md' Hm) as [md [Hmd _]].
      eapply (T_inj HT); eauto.
    - (* T_files *) intros n nd' Hn. destruct (dl_old n nd' Hn) as [nd [Hnd [_ [_ [Hf _]]]]]. rewrite Hf.
      eapply (T_files HT); exact Hnd.
    - (* T_complete *) intros e P He Hpre. destruct (T_complete HT e P He Hpre) as [n [nd [Hnd Ha]]].
      assert (Hnc : n <> c).
      { intros ->. apply (t_dead_leaf _ _ _ _ HT c cd e Hc Hcf Hcc He). rewrite Ha. exact Hpre. }
      destruct (dl_new n nd Hnd Hnc) as [nd' [H1 _]]. eauto.
    - (* T_counter *) intros n nd' Hn. destruct (dl_old n nd' Hn) as [nd [Hnd _]]. eapply (T_counter HT); exact Hnd.
    - (* T_nodup *) unfold nodes'. apply (nodup_aset N.eqb_spec). apply nodup_adel. exact (T_nodup HT).
  Qed.

  Lemma drop_leaf_live : Live nodes' a addr (Some (addr p)).
  Proof.
    intros n nd' Hn Hr Hx. destruct (dl_old n nd' Hn) as [nd [Hnd [Hnc _]]].
    apply (HL n nd Hnd Hr). intro Hpre.
    destruct dl_addr as [k [_ Ha]]. rewrite Ha in Hpre. apply prefix_snoc in Hpre.
    destruct Hpre as [Heq|Hpre]; [|exact (Hx Hpre)].
    apply Hnc. eapply (T_inj HT); eauto. congruence.
  Qed.
End DropLeaf.

Lemma live_finish : forall nodes a addr cnt p pd,
  Tree nodes a addr cnt -> Live nodes a addr (Some (addr p)) -> ngetN p nodes = Some pd ->
  (p = ROOT \/ n_files pd <> [] \/ n_children pd <> []) -> Live nodes a addr None.
Proof.
  intros nodes a addr cnt p pd HT HL Hp Hcase n nd Hn Hr _.
  destruct (prefix_dec (addr n) (addr p)) as [Hpre|Hnpre]; [|apply (HL n nd Hn Hr Hnpre)].
  destruct Hcase as [->|[Hf|Hc]].
  - rewrite (T_addr_root HT) in Hpre. apply prefix_nil in Hpre. exfalso. apply Hr.
    destruct (T_root HT) as [rd Hrd]. eapply (T_inj HT); eauto.
    rewrite (T_addr_root HT). exact Hpre.
  - rewrite (T_files HT p pd Hp) in Hf.
    destruct (nil_or_in (at_addr a (addr p))) as [E|[e He]]; [rewrite E in Hf; destruct (Hf eq_refl)|].
    apply in_at_addr in He. destruct He as [He Hq].
    exists e. split; [exact He|]. rewrite Hq. exact Hpre.
  - destruct (sget_nonnil _ Hc) as [k [ch Hk]].
    destruct (T_child HT p pd k ch Hp Hk) as [[cd [Hcd _]] Ha].
    assert (Hchr : ch <> ROOT) by (eapply t_not_root; eauto).
    destruct (HL ch cd Hcd Hchr) as [e [He Hpe]].
    { rewrite Ha. apply not_prefix_snoc. }
    exists e. split; [exact He|]. eapply prefix_trans; [exact Hpre|].
    eapply prefix_trans; [|exact Hpe]. rewrite Ha. apply prefix_app.
Qed.
