(** Lookups under the invariant answer as the abstract resolver; the invariant holds after every history. *)
From Coq Require Import Permutation.
From EV Require Import C33.Model C33.Spec C33.Lemmas C33.Inv C33.Tree C33.Remove C33.Add C33.AddInv.
Local Open Scope N_scope.

Definition opt_rel {A B} (R : A -> B -> Prop) (x : option A) (y : option B) : Prop :=
  match x, y with
  | Some u, Some v => R u v
  | None, None => True
  | _, _ => False
  end.

Definition Rel (fmap : list (N * minfo)) (l : list aentry) : Prop :=
  Forall (fun e => exists i, ngetN (a_file e) fmap = Some i /\ info_rel i e) l.

(** the [for] loop of [exact_find_module] when several files share the node: the first that is not hidden, else
    the first seen *)
Lemma exact_pick_true : forall fmap l first first',
  Rel fmap l -> opt_rel info_rel first first' ->
  opt_rel info_rel (exact_pick fmap true (map a_file l) first)
    (match find (fun x => negb (a_hidden x)) l with
     | Some x => Some x
     | None => match first' with Some f => Some f | None => hd_error l end
     end).
Proof.
  induction l as [|e r IH]; intros first first' HR Hf; cbn [map exact_pick find hd_error].
  - destruct first'; exact Hf.
  - inversion HR as [|? ? [i [Hi Hrel]] HR']; subst. rewrite Hi.
    pose proof Hrel as [_ [_ [_ [_ Hh]]]]. rewrite Hh. destruct (a_hidden e); cbn [negb orb]; [|exact Hrel].
    destruct first as [u|], first' as [v|]; cbn in Hf; try contradiction.
    + apply (IH (Some u) (Some v)); assumption.
    + apply (IH (Some i) (Some e)); assumption.
Qed.

Lemma exact_pick_pick : forall fmap l, Rel fmap l ->
  opt_rel info_rel (exact_pick fmap (Nat.ltb 1 (length l)) (map a_file l) None) (pick l).
Proof.
  intros fmap [|e [|e2 r]] HR.
  - exact I.
  - inversion HR as [|? ? [i [Hi Hrel]] _]; subst. cbn [map exact_pick length Nat.ltb Nat.leb negb orb]. rewrite Hi. exact Hrel.
  - exact (exact_pick_true fmap (e :: e2 :: r) None None HR I).
Qed.

Lemma min_by_rel : forall A B (R : A -> B -> Prop) (key : A -> N * str) (key' : B -> N * str) l l' b b',
  (forall x y, R x y -> key x = key' y) ->
  Forall2 R l l' -> opt_rel R b b' -> opt_rel R (min_by key l b) (min_by key' l' b').
Proof.
  intros A B R key key' l l' b b' Hk HF. revert b b'.
  induction HF as [|x y l l' Hxy HF IH]; intros b b' Hb; cbn [min_by].
  - exact Hb.
  - destruct b as [u|], b' as [v|]; cbn in Hb; try contradiction.
    + rewrite (Hk _ _ Hxy), (Hk _ _ Hb). destruct (cand_lt (key' y) (key' v)); apply IH; assumption.
    + apply IH. exact Hxy.
Qed.

Lemma fuzzy_cands_rel : forall fmap path l,
  Rel fmap l ->
  Forall2 (fun ki ke => fst ki = fst ke /\ info_rel (snd ki) (snd ke))
          (fuzzy_cands fmap path (map a_file l)) (spec_cands path l).
Proof.
  induction l as [|e r IH]; intro HR; cbn [map fuzzy_cands spec_cands].
  - constructor.
  - inversion HR as [|? ? [i [Hi Hrel]] HR']; subst. rewrite Hi.
    assert (Hfull : i_full i = full_of e) by (destruct Hrel as [_ [H _]]; exact H).
    rewrite Hfull. destruct (leading_count (full_of e) path).
    + constructor; [split; [reflexivity | exact Hrel] | auto].
    + auto.
Qed.

Lemma opt_rel_or : forall A B (R : A -> B -> Prop) x y x' y',
  opt_rel R x y -> opt_rel R x' y' ->
  opt_rel R (match x with Some u => Some u | None => x' end) (match y with Some v => Some v | None => y' end).
Proof. intros A B R [u|] [v|] x' y' H H'; cbn in H |- *; tauto. Qed.

Lemma opt_rel_map_snd : forall (x : option (N * minfo)) (y : option (N * aentry)),
  opt_rel (fun ki ke => fst ki = fst ke /\ info_rel (snd ki) (snd ke)) x y ->
  opt_rel info_rel (option_map snd x) (option_map snd y).
Proof. intros [[? ?]|] [[? ?]|]; cbn; tauto. Qed.

Section Find.
  Variables (c : cfg) (s : midx) (a : astate) (addr : N -> list str).
  Hypothesis HI : Inv c s a addr.

  Lemma rel_sublist : forall l, (forall e, In e l -> In e a) -> Rel (m_files s) l.
  Proof. intros l Hl. apply Forall_forall. intros e He. apply (fmap_rel _ _ _ _ HI). auto. Qed.

  Lemma find_norm_rel : forall mp, opt_rel info_rel (find_norm s mp) (spec_exact a mp).
  Proof.
    intro mp. unfold find_norm, exact_find, spec_exact.
    pose proof (inv_tree _ _ _ _ HI) as HT. destruct (I_root HI) as [rd Hrd].
    destruct (walk (m_nodes s) ROOT (split_dot mp)) as [n|] eqn:Hw.
    - destruct (walk_sound _ _ _ _ HT _ _ _ _ Hrd Hw) as [[nd Hnd] Ha].
      rewrite (I_addr_root HI) in Ha. cbn [app] in Ha.
      rewrite Hnd, (I_files HI n nd Hnd), Ha.
      change (at_addr a (split_dot mp)) with (exact_set a mp).
      rewrite map_length. apply exact_pick_pick, rel_sublist. intros e He. apply filter_In in He. tauto.
    - destruct (nil_or_in (exact_set a mp)) as [->|[e He]]; [exact I|]. exfalso.
      apply in_at_addr in He. destruct He as [He Hp].
      destruct (I_complete HI e (split_dot mp) He) as [m [md [Hm Ham]]].
      { rewrite <- Hp. apply prefix_refl. }
      assert (Hw' : walk (m_nodes s) ROOT (split_dot mp) = Some m).
      { eapply (walk_complete _ _ _ _ HT (inv_live _ _ _ _ HI)); eauto. rewrite (I_addr_root HI). exact Ham. }
      congruence.
  Qed.

  Lemma fuzzy_find_rel : forall path, c_fuzzy c = true ->
    opt_rel info_rel (fuzzy_find s path (last_part (split_dot path))) (spec_fuzzy a path).
  Proof.
    intros path Hfz. unfold fuzzy_find, spec_fuzzy.
    pose proof (I_fuzzy HI) as HF. rewrite Hfz in HF. rewrite HF.
    fold (named a (last_part (split_dot path))).
    set (L := named a (last_part (split_dot path))).
    unfold nonempty_opt. destruct (is_nil (map a_file L)) eqn:En.
    - apply is_nil_true in En. destruct L; [|discriminate]. exact I.
    - apply opt_rel_map_snd. apply min_by_rel with (R := fun ki ke => fst ki = fst ke /\ info_rel (snd ki) (snd ke)).
      + intros [k i] [k' e] [Hk Hrel]. cbn [fst snd] in *. subst.
        destruct Hrel as [_ [H _]]. rewrite H. reflexivity.
      + apply fuzzy_cands_rel. apply rel_sublist. intros e He. apply filter_In in He. tauto.
      + exact I.
  Qed.

  Lemma find_module_rel : forall q, opt_rel info_rel (find_module c s q) (spec_find c a q).
  Proof.
    intro q. unfold find_module, spec_find. cbv zeta.
    set (mapped := if c_rw_on c then _ else None).
    apply opt_rel_or; [apply find_norm_rel|].
    apply opt_rel_or; [destruct mapped; [apply find_norm_rel | exact I]|].
    destruct (c_fuzzy c) eqn:Hfz; [|exact I].
    apply opt_rel_or; [destruct mapped; [|exact I]|]; apply fuzzy_find_rel; exact Hfz.
  Qed.

  Lemma find_module_view : forall q,
    option_map view_i (find_module c s q) = option_map view_a (spec_find c a q).
  Proof.
    intro q. pose proof (find_module_rel q) as H.
    destruct (find_module c s q) as [i|], (spec_find c a q) as [e|]; cbn in H; try contradiction; [|reflexivity].
    destruct H as [H1 [H2 [_ [H4 H5]]]]. cbn [option_map]. unfold view_i, view_a. congruence.
  Qed.
End Find.

Lemma inv_step : forall c s a addr o, Inv c s a addr -> exists addr', Inv c (step c s o) (astep c a o) addr'.
Proof.
  intros c s a addr o HI. destruct o as [f path|f mp ws|f|f|]; cbn [step astep].
  - (* OAddPath *) unfold m_add_path. pose proof (pre_add c s a addr f HI) as H1.
    destruct (module_path_of c path) as [[mp ws]|]; cbn [fst].
    + destruct (inv_add c _ _ addr f mp ws H1) as [addr' H2]. exists addr'.
      unfold a_add in H2. rewrite (a_remove_id f (a_remove f a)) in H2; [exact H2|].
      intros e He. apply in_a_remove in He. tauto.
    + exists addr. exact H1.
  - (* OAddMod *) eapply inv_add. exact HI.
  - (* ORemove *) exists addr. apply inv_remove. exact HI.
  - (* OHide *) exists addr. apply inv_hide. exact HI.
  - (* OClear *) exists (fun _ => []). eapply inv_clear. exact HI.
Qed.

Lemma inv_fold : forall c ops s a addr, Inv c s a addr ->
  exists addr', Inv c (fold_left (step c) ops s) (fold_left (astep c) ops a) addr'.
Proof.
  induction ops as [|o ops IH]; intros s a addr HI; cbn [fold_left].
  - eauto.
  - destruct (inv_step c s a addr o HI) as [addr1 H1]. eapply IH. exact H1.
Qed.

Lemma inv_run : forall c ops, exists addr, Inv c (run c ops) (arun c ops) addr.
Proof. intros c ops. unfold run, arun. eapply inv_fold. apply inv_init. Qed.

Lemma find_refines_spec : forall (c : cfg) (ops : list op) (q : str),
  option_map view_i (find_module c (run c ops) q) = option_map view_a (spec_find c (arun c ops) q).
Proof.
  intros c ops q. destruct (inv_run c ops) as [addr HI]. eapply find_module_view. exact HI.
Qed.

Lemma pick_In : forall l e, pick l = Some e -> In e l.
Proof.
  intros [|x [|y r]] e H; cbn [pick] in H.
  - discriminate.
  - inversion H. left. reflexivity.
  - destruct (find (fun z => negb (a_hidden z)) (x :: y :: r)) as [z|] eqn:E.
    + inversion H; subst. apply find_some in E. tauto.
    + inversion H. left. reflexivity.
Qed.

Lemma pick_None : forall l, pick l = None -> l = [].
Proof.
  intros [|x [|y r]] H; cbn [pick] in H; [reflexivity | discriminate|].
  destruct (find (fun z => negb (a_hidden z)) (x :: y :: r)); discriminate.
Qed.

Lemma min_by_In : forall A (key : A -> N * str) l b x,
  min_by key l b = Some x -> In x l \/ b = Some x.
Proof.
  induction l as [|y l IH]; intros b x H; cbn [min_by] in H; [right; exact H|].
  destruct b as [b0|]; [destruct (cand_lt (key y) (key b0))|]; apply IH in H; cbn [In]; intuition congruence.
Qed.

Lemma spec_cands_In : forall path l k e, In (k, e) (spec_cands path l) -> In e l.
Proof.
  induction l as [|x l IH]; intros k e H; cbn [spec_cands] in H; [destruct H|].
  destruct (leading_count (full_of x) path); [destruct H as [H|H]; [inversion H; left; reflexivity|]|];
    right; eapply IH; exact H.
Qed.

Lemma spec_exact_In : forall a mp e, spec_exact a mp = Some e -> In e a /\ parts_of e = split_dot mp.
Proof.
  intros a mp e H. apply pick_In in H. apply in_at_addr in H. exact H.
Qed.

Lemma spec_fuzzy_In : forall a path e, spec_fuzzy a path = Some e -> In e a.
Proof.
  intros a path e H. unfold spec_fuzzy in H.
  destruct (min_by _ _ None) as [[k e']|] eqn:E; [|discriminate]. cbn in H. inversion H; subst e'.
  apply min_by_In in E. destruct E as [E|E]; [|discriminate].
  apply spec_cands_In in E. apply filter_In in E. tauto.
Qed.

Lemma or_else_some : forall A (x y : option A) e,
  match x with Some u => Some u | None => y end = Some e -> x = Some e \/ y = Some e.
Proof. intros A [u|] y e H; auto. Qed.

Lemma spec_find_In : forall c a q e, spec_find c a q = Some e -> In e a.
Proof.
  intros c a q e H. unfold spec_find in H. cbv zeta in H. set (mapped := if c_rw_on c then _ else None) in H.
  apply or_else_some in H. destruct H as [H|H]; [apply spec_exact_In in H; tauto|].
  apply or_else_some in H. destruct H as [H|H]; [destruct mapped; [apply spec_exact_In in H; tauto | discriminate]|].
  destruct (c_fuzzy c); [|discriminate].
  apply or_else_some in H. destruct H as [H|H]; [destruct mapped; [|discriminate]|]; eapply spec_fuzzy_In; exact H.
Qed.

Lemma exact_before_fuzzy : forall (c : cfg) (ops : list op) (q : str) (e : aentry),
  In e (arun c ops) -> a_path e = normalize q ->
  exists i, find_module c (run c ops) q = Some i /\ i_full i = normalize q.
Proof.
  intros c ops q e He Hp. destruct (inv_run c ops) as [addr HI].
  pose proof (find_module_rel c _ _ addr HI q) as Hrel. unfold spec_find in Hrel.
  destruct (spec_exact (arun c ops) (normalize q)) as [e1|] eqn:E1.
  - destruct (find_module c (run c ops) q) as [i|]; cbn in Hrel; [|contradiction].
    exists i. split; [reflexivity|]. destruct Hrel as [_ [Hfull _]]. rewrite Hfull.
    apply spec_exact_In in E1. unfold full_of. rewrite (proj2 E1). apply join_split.
  - apply pick_None in E1.
    assert (Hin : In e (exact_set (arun c ops) (normalize q))).
    { apply in_at_addr. split; [exact He|]. unfold parts_of. rewrite Hp. reflexivity. }
    rewrite E1 in Hin. destruct Hin.
Qed.

Lemma fuzzy_choice_deterministic : forall (c : cfg) (ops1 ops2 : list op) (q : str),
  arun c ops1 = arun c ops2 ->
  option_map view_i (find_module c (run c ops1) q) = option_map view_i (find_module c (run c ops2) q).
Proof.
  intros c ops1 ops2 q H. rewrite !find_refines_spec, H. reflexivity.
Qed.

Lemma removed_unresolvable : forall (c : cfg) (ops : list op) (f : N) (q : str) (i : minfo),
  find_module c (run c (ops ++ [ORemove f])) q = Some i -> i_file i <> f.
Proof.
  intros c ops f q i H. destruct (inv_run c (ops ++ [ORemove f])) as [addr HI].
  pose proof (find_module_rel c _ _ addr HI q) as Hrel. rewrite H in Hrel.
  destruct (spec_find c (arun c (ops ++ [ORemove f])) q) as [e|] eqn:E; cbn in Hrel; [|contradiction].
  apply spec_find_In in E. unfold arun in E. rewrite fold_left_app in E. cbn [fold_left astep] in E.
  apply in_a_remove in E. destruct Hrel as [Hf _]. rewrite Hf. tauto.
Qed.

Definition str_eq_dec : forall x y : str, {x = y} + {x <> y} := list_eq_dec N.eq_dec.

Definition strs_eq_dec : forall x y : list str, {x = y} + {x <> y} :=
  list_eq_dec (list_eq_dec N.eq_dec).

Definition all_prefixes (a : astate) : list (list str) :=
  [] :: flat_map (fun e => prefixes (parts_of e)) a.

Lemma prefixes_In : forall l P, In P (prefixes l) <-> prefix P l.
Proof.
  induction l as [|x l IH]; intro P; cbn [prefixes].
  - split.
    + intros [<-|[]]. apply prefix_refl.
    + intro H. apply prefix_nil in H. left. symmetry. exact H.
  - split.
    + intros [<-|H]; [exists (x :: l); reflexivity|].
      apply in_map_iff in H. destruct H as [Q [<- HQ]]. apply IH in HQ. destruct HQ as [R ->].
      exists R. reflexivity.
    + intros [R HR]. destruct P as [|y P]; [left; reflexivity|]. right.
      cbn [app] in HR. inversion HR; subst. apply in_map. apply IH. exists R. reflexivity.
Qed.

Lemma nodup_map_inj_on : forall A B (g : A -> B) (l : list A),
  NoDup l -> (forall x y, In x l -> In y l -> g x = g y -> x = y) -> NoDup (map g l).
Proof.
  induction l as [|x l IH]; intros Hnd Hinj; cbn [map]; [constructor|].
  inversion Hnd as [|? ? Hx Hnd']; subst. constructor.
  - intro Hin. apply in_map_iff in Hin. destruct Hin as [y [Hy Hin]].
    assert (y = x) by (apply Hinj; [right; exact Hin | left; reflexivity | exact Hy]). subst. contradiction.
  - apply IH; [exact Hnd'|]. intros a b Ha Hb. apply Hinj; right; assumption.
Qed.

Lemma inv_sizes : forall c s a addr, Inv c s a addr ->
  length (m_nodes s) = length (nodup strs_eq_dec (all_prefixes a)) /\
  length (m_files s) = length a /\
  length (m_fuzzy s) = if c_fuzzy c then length (nodup str_eq_dec (map name_of a)) else 0%nat.
Proof.
  intros c s a addr HI. split; [|split].
  - (* [addr] maps the node ids one-to-one onto the prefixes of the registered paths *)
    pose proof (fun n => In_keys_iff N.eqb_spec n (m_nodes s)) as Hkey.
    rewrite <- (map_length fst (m_nodes s)), <- (map_length addr (map fst (m_nodes s))).
    apply Permutation_length. apply NoDup_Permutation.
    + apply nodup_map_inj_on; [exact (I_nodes_nodup HI)|].
      intros x y Hx Hy Hxy. apply Hkey in Hx. apply Hkey in Hy. destruct Hx as [xd Hx]. destruct Hy as [yd Hy].
      eapply (I_inj HI); eauto.
    + apply NoDup_nodup.
    + intro P. rewrite nodup_In. unfold all_prefixes. split.
      * intro H. apply in_map_iff in H. destruct H as [n [<- Hn]]. apply Hkey in Hn. destruct Hn as [nd Hn].
        destruct (N.eq_dec n ROOT) as [->|Hr].
        -- left. symmetry. exact (I_addr_root HI).
        -- right. destruct (I_live HI n nd Hn Hr) as [e [He Hp]].
           apply in_flat_map. exists e. split; [exact He | apply prefixes_In; exact Hp].
      * intros [<-|H].
        -- apply in_map_iff. exists ROOT. split; [exact (I_addr_root HI)|].
           apply Hkey. exact (I_root HI).
        -- apply in_flat_map in H. destruct H as [e [He Hp]]. apply prefixes_In in Hp.
           destruct (I_complete HI e P He Hp) as [n [nd [Hn Ha]]].
           apply in_map_iff. exists n. split; [exact Ha | apply Hkey; eauto].
  - rewrite <- (map_length a_file a).
    apply (keys_length N.eqb_spec); [exact (I_fmap_nodup HI) | exact (I_a_nodup HI)|].
    intro f. split.
    + intros [i Hi]. destruct (I_fmap_sound HI _ _ Hi) as [e [_ [He [<- _]]]]. apply in_map. exact He.
    + intro H. apply in_map_iff in H. destruct H as [e [<- He]]. exact (I_fmap_complete HI e He).
  - pose proof (I_fuzzy HI) as HF. destruct (c_fuzzy c); [|rewrite HF; reflexivity].
    apply (keys_length str_eqb_spec); [exact (I_fuzzy_nodup HI) | apply NoDup_nodup|].
    intro nm. rewrite nodup_In, HF. split.
    + intros [l Hl]. destruct (nil_or_in (named a nm)) as [E|[e He]]; [rewrite E in Hl; discriminate|].
      apply in_named in He. destruct He as [He <-]. apply in_map. exact He.
    + intro H. apply in_map_iff in H. destruct H as [e [<- He]].
      rewrite (nonempty_opt_in (a_file e)); [eauto|]. apply in_map, in_named. auto.
Qed.

Lemma module_sizes_spec : forall (c : cfg) (ops : list op),
  length (m_nodes (run c ops)) = length (nodup strs_eq_dec (all_prefixes (arun c ops))) /\
  length (m_files (run c ops)) = length (arun c ops).
Proof.
  intros c ops. destruct (inv_run c ops) as [addr HI]. destruct (inv_sizes c _ _ addr HI) as [H1 [H2 _]]. auto.
Qed.

(** a concrete history: hypotheses satisfiable, answers as expected *)
Definition ex_cfg : cfg := mkCfg [[63; 46; 108; 117; 97]] [mkWs [[119]] None 1] true false (fun s => s).
(* "a.b.c" = 97 46 98 46 99 ; "x.c" = 120 46 99 ; "c" = 99 ; "b.c" = 98 46 99 *)
Definition ex_ops : list op :=
  [OAddMod 1 [97; 46; 98; 46; 99] 1; OAddMod 2 [120; 46; 99] 1; ORemove 1; OAddMod 1 [97; 46; 98; 46; 99] 1;
   OAddMod 3 [97; 46; 98; 46; 99] 1; OHide 1].

Lemma refinement_example :
  option_map i_file (find_module ex_cfg (run ex_cfg ex_ops) [97; 46; 98; 46; 99]) = Some 3 /\
  option_map i_file (find_module ex_cfg (run ex_cfg ex_ops) [98; 46; 99]) = Some 1 /\
  option_map i_file (find_module ex_cfg (run ex_cfg ex_ops) [99]) = Some 2 /\
  option_map i_file (find_module ex_cfg (run ex_cfg (ex_ops ++ [ORemove 2])) [120; 47; 99]) = None /\
  option_map a_file (spec_find ex_cfg (arun ex_cfg ex_ops) [99]) = Some 2 /\
  length (m_nodes (run ex_cfg ex_ops)) = 6%nat /\
  length (m_nodes (run ex_cfg (ex_ops ++ [ORemove 1; ORemove 3]))) = 3%nat.
Proof. vm_compute. repeat split; reflexivity. Qed.
