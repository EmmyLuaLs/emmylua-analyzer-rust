(** The refinement invariant between the node tree and the abstract resolver.
    The ghost function [addr] gives every node id its path from the root. *)
From EV Require Import C33.Model C33.Spec C33.Lemmas.
Local Open Scope N_scope.

Definition prefix (P Q : list str) : Prop := exists R, Q = P ++ R.
Definition nonempty_opt (l : list N) : option (list N) := if is_nil l then None else Some l.
Definition at_addr (a : astate) (P : list str) : list aentry := filter (fun e => strs_eqb (parts_of e) P) a.
Definition named (a : astate) (name : str) : list aentry := filter (fun e => str_eqb (name_of e) name) a.

Definition info_rel (i : minfo) (e : aentry) : Prop :=
  i_file i = a_file e /\ i_full i = full_of e /\ i_name i = name_of e /\ i_ws i = a_ws e /\ i_hidden i = a_hidden e.

Record Inv (c : cfg) (s : midx) (a : astate) (addr : N -> list str) : Prop := mkInv {
  I_root : exists nd, ngetN ROOT (m_nodes s) = Some nd;
  I_addr_root : addr ROOT = [];
  I_child : forall n nd k ch, ngetN n (m_nodes s) = Some nd -> sget k (n_children nd) = Some ch ->
      (exists cd, ngetN ch (m_nodes s) = Some cd /\ n_parent cd = Some n) /\ addr ch = addr n ++ [k];
  I_ckeys : forall n nd, ngetN n (m_nodes s) = Some nd -> NoDup (map fst (n_children nd));
  I_parent : forall n nd, ngetN n (m_nodes s) = Some nd -> n <> ROOT ->
      exists p pd k, n_parent nd = Some p /\ ngetN p (m_nodes s) = Some pd /\ sget k (n_children pd) = Some n;
  I_inj : forall n m nd md, ngetN n (m_nodes s) = Some nd -> ngetN m (m_nodes s) = Some md ->
      addr n = addr m -> n = m;
  I_files : forall n nd, ngetN n (m_nodes s) = Some nd -> n_files nd = map a_file (at_addr a (addr n));
  I_live : forall n nd, ngetN n (m_nodes s) = Some nd -> n <> ROOT ->
      exists e, In e a /\ prefix (addr n) (parts_of e);
  I_complete : forall e P, In e a -> prefix P (parts_of e) ->
      exists n nd, ngetN n (m_nodes s) = Some nd /\ addr n = P;
  I_fmap_sound : forall f i, ngetN f (m_files s) = Some i ->
      exists e nd, In e a /\ a_file e = f /\ info_rel i e /\
                   ngetN (i_node i) (m_nodes s) = Some nd /\ addr (i_node i) = parts_of e;
  I_fmap_complete : forall e, In e a -> exists i, ngetN (a_file e) (m_files s) = Some i;
  I_a_nodup : NoDup (map a_file a);
  I_counter : forall n nd, ngetN n (m_nodes s) = Some nd -> n < m_counter s;
  I_fuzzy : if c_fuzzy c
            then forall name, sget name (m_fuzzy s) = nonempty_opt (map a_file (named a name))
            else m_fuzzy s = [];
  I_nodes_nodup : NoDup (map fst (m_nodes s));
  I_fmap_nodup : NoDup (map fst (m_files s));
  I_fuzzy_nodup : NoDup (map fst (m_fuzzy s))
}.

Arguments I_root {c s a addr}.
Arguments I_addr_root {c s a addr}.
Arguments I_child {c s a addr}.
Arguments I_ckeys {c s a addr}.
Arguments I_parent {c s a addr}.
Arguments I_inj {c s a addr}.
Arguments I_files {c s a addr}.
Arguments I_live {c s a addr}.
Arguments I_complete {c s a addr}.
Arguments I_fmap_sound {c s a addr}.
Arguments I_fmap_complete {c s a addr}.
Arguments I_a_nodup {c s a addr}.
Arguments I_counter {c s a addr}.
Arguments I_fuzzy {c s a addr}.
Arguments I_nodes_nodup {c s a addr}.
Arguments I_fmap_nodup {c s a addr}.
Arguments I_fuzzy_nodup {c s a addr}.

Lemma in_at_addr : forall a P e, In e (at_addr a P) <-> In e a /\ parts_of e = P.
Proof. intros a P e. unfold at_addr. rewrite filter_In, strs_eqb_eq. reflexivity. Qed.

Lemma in_named : forall a nm e, In e (named a nm) <-> In e a /\ name_of e = nm.
Proof. intros a nm e. unfold named. rewrite filter_In, str_eqb_eq. reflexivity. Qed.

Lemma nonempty_opt_in : forall x l, In x l -> nonempty_opt l = Some l.
Proof. intros x [|y l] H; [destruct H | reflexivity]. Qed.

(** [module_name_to_file_ids] keeps no empty list: storing [l] under [k] *)
Lemma sget_put : forall k (l : list N) m k',
  sget k' (if is_nil l then sdel k m else sset k l m) = if str_eqb k' k then nonempty_opt l else sget k' m.
Proof.
  intros k l m k'. unfold nonempty_opt. destruct (is_nil l); [apply aget_adel | apply aget_aset]; exact str_eqb_spec.
Qed.

(** ... and appending [f] to the list under [k] *)
Lemma sget_push : forall k (f : N) m k',
  sget k' (match sget k m with Some l => sset k (l ++ [f]) m | None => m ++ [(k, [f])] end) =
  if str_eqb k' k then Some (match sget k m with Some l => l ++ [f] | None => [f] end) else sget k' m.
Proof.
  intros k f m k'. destruct (sget k m) as [l|] eqn:E; [|rewrite <- (aset_absent str_eqb_spec k [f] m E)];
    apply (aget_aset str_eqb_spec).
Qed.

Lemma nodup_push : forall k f (m : list (str * list N)), NoDup (map fst m) ->
  NoDup (map fst (match sget k m with Some l => sset k (l ++ [f]) m | None => m ++ [(k, [f])] end)).
Proof.
  intros k f m H. destruct (sget k m) as [l|] eqn:E; [|rewrite <- (aset_absent str_eqb_spec k [f] m E)];
    apply (nodup_aset str_eqb_spec); exact H.
Qed.

Lemma in_a_unique : forall (a : astate) e e',
  NoDup (map a_file a) -> In e a -> In e' a -> a_file e = a_file e' -> e = e'.
Proof.
  induction a as [|x a IH]; cbn [map]; intros e e' Hnd He He' Hf.
  - destruct He.
  - inversion Hnd as [|? ? Hx Hnd']; subst.
    destruct He as [->|He]; destruct He' as [->|He'].
    + reflexivity.
    + exfalso. apply Hx. rewrite Hf. apply in_map. exact He'.
    + exfalso. apply Hx. rewrite <- Hf. apply in_map. exact He.
    + apply IH; assumption.
Qed.

Lemma prefix_refl : forall P, prefix P P.
Proof. intro P. exists []. symmetry. apply app_nil_r. Qed.

Lemma prefix_app : forall P R, prefix P (P ++ R).
Proof. intros P R. exists R. reflexivity. Qed.

Lemma prefix_trans : forall P Q R, prefix P Q -> prefix Q R -> prefix P R.
Proof. intros P Q R [X ->] [Y ->]. exists (X ++ Y). symmetry. apply app_assoc. Qed.

Lemma fmap_rel : forall c s a addr, Inv c s a addr ->
  forall e, In e a -> exists i, ngetN (a_file e) (m_files s) = Some i /\ info_rel i e.
Proof.
  intros c s a addr HI e He. destruct (I_fmap_complete HI e He) as [i Hi]. exists i. split; [exact Hi|].
  destruct (I_fmap_sound HI _ _ Hi) as [e' [nd [He' [Hf [Hrel _]]]]].
  assert (e' = e) by (eapply in_a_unique; eauto using (I_a_nodup HI)). subst. exact Hrel.
Qed.
