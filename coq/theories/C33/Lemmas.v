From Coq Require Import Permutation.
From EV Require Import C33.Model.
Local Open Scope N_scope.

Lemma str_eqb_spec : forall a b, reflect (a = b) (str_eqb a b).
Proof.
  induction a as [|x a IH]; destruct b as [|y b]; cbn [str_eqb]; try (constructor; congruence).
  destruct (N.eqb_spec x y) as [->|Hne]; cbn [andb].
  - destruct (IH b) as [->|Hne]; constructor; congruence.
  - constructor; congruence.
Qed.

Lemma str_eqb_refl : forall a, str_eqb a a = true.
Proof. intro a. destruct (str_eqb_spec a a); congruence. Qed.

Lemma str_eqb_eq : forall a b, str_eqb a b = true <-> a = b.
Proof. intros a b. destruct (str_eqb_spec a b); split; congruence. Qed.

Lemma strs_eqb_spec : forall a b, reflect (a = b) (strs_eqb a b).
Proof.
  induction a as [|x a IH]; destruct b as [|y b]; cbn [strs_eqb]; try (constructor; congruence).
  destruct (str_eqb_spec x y) as [->|Hne]; cbn [andb].
  - destruct (IH b) as [->|Hne]; constructor; congruence.
  - constructor; congruence.
Qed.

Lemma strs_eqb_refl : forall a, strs_eqb a a = true.
Proof. intro a. destruct (strs_eqb_spec a a); congruence. Qed.

Lemma strs_eqb_eq : forall a b, strs_eqb a b = true <-> a = b.
Proof. intros a b. destruct (strs_eqb_spec a b); split; congruence. Qed.

Lemma is_nil_true : forall A (l : list A), is_nil l = true <-> l = [].
Proof. destruct l; cbn; split; congruence. Qed.

Lemma is_nil_both : forall A B (l : list A) (m : list B), is_nil l && is_nil m = true <-> l = [] /\ m = [].
Proof. intros A B [|x l] [|y m]; cbn; intuition congruence. Qed.

Lemma is_nil_not_both : forall A B (l : list A) (m : list B), is_nil l && is_nil m = false -> l <> [] \/ m <> [].
Proof. intros A B [|x l] [|y m]; cbn; intro H; try discriminate; [right | left | left]; discriminate. Qed.

Lemma nodup_map_filter : forall A B (g : A -> B) (p : A -> bool) l, NoDup (map g l) -> NoDup (map g (filter p l)).
Proof.
  induction l as [|x l IH]; intro H; cbn [filter map]; [constructor|].
  inversion H as [|? ? Hx Hnd]; subst. destruct (p x); cbn [map]; [|auto].
  constructor; [|auto]. intro Hin. apply Hx. apply in_map_iff in Hin. destruct Hin as [y [Hy Hin]].
  apply filter_In in Hin. apply in_map_iff. exists y. tauto.
Qed.

Lemma nil_or_in : forall {A} (l : list A), l = [] \/ exists x, In x l.
Proof. intros A [|x l]; [left; reflexivity | right; exists x; left; reflexivity]. Qed.

Lemma existsb_false : forall A (p : A -> bool) l, (forall x, In x l -> p x = false) -> existsb p l = false.
Proof.
  induction l as [|x l IH]; intro H; cbn [existsb]; [reflexivity|].
  rewrite (H x (or_introl eq_refl)). cbn [orb]. apply IH. intros y Hy. apply H. right. exact Hy.
Qed.

Lemma filter_none : forall A (p : A -> bool) l, (forall x, In x l -> p x = false) -> filter p l = [].
Proof.
  induction l as [|x l IH]; intro H; cbn [filter]; [reflexivity|].
  rewrite (H x (or_introl eq_refl)). apply IH. intros y Hy. apply H. right. exact Hy.
Qed.

Lemma filter_all : forall A (p : A -> bool) l, (forall x, In x l -> p x = true) -> filter p l = l.
Proof.
  induction l as [|x l IH]; intro H; cbn [filter]; [reflexivity|].
  rewrite (H x (or_introl eq_refl)). f_equal. apply IH. intros y Hy. apply H. right. exact Hy.
Qed.

Lemma nodup_length_ext : forall A (dec : forall x y : A, {x = y} + {x <> y}) l l',
  (forall x, In x l <-> In x l') -> length (nodup dec l) = length (nodup dec l').
Proof.
  intros A dec l l' H. apply Permutation_length. apply NoDup_Permutation; try apply NoDup_nodup.
  intro x. rewrite !nodup_In. apply H.
Qed.

Lemma in_drop_key : forall A (key : A -> N) f l x,
  In x (filter (fun y => negb (key y =? f)) l) <-> In x l /\ key x <> f.
Proof. intros. rewrite filter_In. destruct (N.eqb_spec (key x) f); cbn [negb]; intuition congruence. Qed.

Lemma filter_map : forall A B (g : A -> B) (p : A -> bool) (q : B -> bool) l,
  (forall x, q (g x) = p x) -> filter q (map g l) = map g (filter p l).
Proof.
  intros A B g p q l H. induction l as [|x l IH]; cbn [map filter]; [reflexivity|].
  rewrite H. destruct (p x); cbn [map]; rewrite IH; reflexivity.
Qed.

Lemma filter_filter_comm : forall A (f g : A -> bool) l, filter f (filter g l) = filter g (filter f l).
Proof.
  induction l as [|x l IH]; cbn [filter]; [reflexivity|].
  destruct (f x) eqn:Ef, (g x) eqn:Eg; cbn [filter]; rewrite ?Ef, ?Eg, IH; reflexivity.
Qed.

Lemma filter_app_one : forall A (f : A -> bool) l x,
  filter f (l ++ [x]) = filter f l ++ (if f x then [x] else []).
Proof. intros. rewrite filter_app. cbn [filter]. destruct (f x); reflexivity. Qed.

Lemma nodup_snoc : forall A (x : A) l, NoDup l -> ~ In x l -> NoDup (l ++ [x]).
Proof.
  intros A x l Hnd Hnotin. apply (Permutation_NoDup (Permutation_cons_append l x)). constructor; assumption.
Qed.

Section AssocFacts.
  Context {K V : Type} {eqb : K -> K -> bool}.
  Hypothesis eqb_spec : forall a b, reflect (a = b) (eqb a b).

  Lemma aget_aset : forall k k' (v : V) l,
    aget eqb k (aset eqb k' v l) = if eqb k k' then Some v else aget eqb k l.
  Proof.
    induction l as [|[k2 v2] l IH]; cbn [aset aget].
    - reflexivity.
    - destruct (eqb_spec k' k2) as [->|Hne]; cbn [aget].
      + destruct (eqb_spec k k2); reflexivity.
      + destruct (eqb_spec k k2) as [->|Hne2].
        * destruct (eqb_spec k2 k'); congruence.
        * exact IH.
  Qed.

  Lemma aget_adel : forall k k' (l : list (K * V)),
    aget eqb k (adel eqb k' l) = if eqb k k' then None else aget eqb k l.
  Proof.
    induction l as [|[k2 v2] l IH]; cbn [adel aget].
    - destruct (eqb k k'); reflexivity.
    - destruct (eqb_spec k' k2) as [->|Hne].
      + rewrite IH. destruct (eqb_spec k k2); reflexivity.
      + cbn [aget]. destruct (eqb_spec k k2) as [->|Hne2].
        * destruct (eqb_spec k2 k'); congruence.
        * exact IH.
  Qed.

  Lemma aget_app : forall k (l1 l2 : list (K * V)),
    aget eqb k (l1 ++ l2) = match aget eqb k l1 with Some x => Some x | None => aget eqb k l2 end.
  Proof.
    induction l1 as [|[k2 v2] l1 IH]; intros; cbn [app aget].
    - reflexivity.
    - destruct (eqb k k2); [reflexivity | apply IH].
  Qed.

  Lemma aget_In : forall k v (l : list (K * V)), aget eqb k l = Some v -> In (k, v) l.
  Proof.
    induction l as [|[k2 v2] l IH]; cbn [aget]; intro H.
    - discriminate.
    - destruct (eqb_spec k k2) as [->|Hne].
      + inversion H. left. reflexivity.
      + right. auto.
  Qed.

  Lemma In_keys_iff : forall k (l : list (K * V)), In k (map fst l) <-> exists v, aget eqb k l = Some v.
  Proof.
    intros k l. split; [|intros [v H]; apply aget_In in H; exact (in_map fst _ _ H)].
    induction l as [|[k2 v2] l IH]; cbn [aget map fst]; intro Hin; [destruct Hin|].
    destruct (eqb_spec k k2) as [->|Hne]; [eauto|]. destruct Hin as [Heq|Hin]; [congruence | auto].
  Qed.

  Lemma aget_None_notin : forall k (l : list (K * V)), aget eqb k l = None -> ~ In k (map fst l).
  Proof. intros k l H Hin. apply In_keys_iff in Hin. destruct Hin as [v Hv]. congruence. Qed.

  Lemma keys_length : forall (l : list (K * V)) (ks : list K), NoDup (map fst l) -> NoDup ks ->
    (forall k, (exists v, aget eqb k l = Some v) <-> In k ks) -> length l = length ks.
  Proof.
    intros l ks Hl Hks H. rewrite <- (map_length fst l). apply Permutation_length, NoDup_Permutation; try assumption.
    intro k. rewrite In_keys_iff. apply H.
  Qed.

  Lemma In_nodup_aget : forall k v (l : list (K * V)),
    NoDup (map fst l) -> In (k, v) l -> aget eqb k l = Some v.
  Proof.
    induction l as [|[k2 v2] l IH]; cbn [aget map fst]; intros Hnd Hin.
    - destruct Hin.
    - inversion Hnd as [|? ? Hnotin Hnd']; subst.
      destruct Hin as [Heq|Hin].
      + inversion Heq; subst. destruct (eqb_spec k k); congruence.
      + destruct (eqb_spec k k2) as [->|Hne].
        * exfalso. apply Hnotin. change k2 with (fst (k2, v)). apply in_map. exact Hin.
        * auto.
  Qed.

  Lemma aget_iff_In : forall k v (l : list (K * V)), NoDup (map fst l) -> (aget eqb k l = Some v <-> In (k, v) l).
  Proof. intros k v l Hnd. split; [apply aget_In | apply In_nodup_aget; exact Hnd]. Qed.

  Lemma keys_aset_present : forall k (v v0 : V) l,
    aget eqb k l = Some v0 -> map fst (aset eqb k v l) = map fst l.
  Proof.
    induction l as [|[k2 v2] l IH]; cbn [aget aset map fst]; intro H.
    - discriminate.
    - destruct (eqb_spec k k2) as [->|Hne]; cbn [map fst].
      + reflexivity.
      + f_equal. auto.
  Qed.

  Lemma aset_absent : forall k (v : V) l,
    aget eqb k l = None -> aset eqb k v l = l ++ [(k, v)].
  Proof.
    induction l as [|[k2 v2] l IH]; cbn [aget aset app]; intro H.
    - reflexivity.
    - destruct (eqb_spec k k2) as [->|Hne]; [discriminate|]. f_equal. auto.
  Qed.

  Lemma adel_filter : forall k (l : list (K * V)), adel eqb k l = filter (fun kv => negb (eqb k (fst kv))) l.
  Proof.
    induction l as [|[k2 v2] l IH]; cbn [adel filter fst]; [reflexivity|].
    destruct (eqb k k2); cbn [negb]; rewrite IH; reflexivity.
  Qed.

  Lemma adel_aset_same : forall k (v : V) l, adel eqb k (aset eqb k v l) = adel eqb k l.
  Proof.
    induction l as [|[k2 v2] l IH]; cbn [aset adel].
    - destruct (eqb_spec k k); [reflexivity | congruence].
    - destruct (eqb_spec k k2) as [->|Hne]; cbn [adel].
      + destruct (eqb_spec k2 k2); [reflexivity | congruence].
      + destruct (eqb_spec k k2); [congruence|]. f_equal. exact IH.
  Qed.

  Lemma nodup_adel : forall k (l : list (K * V)), NoDup (map fst l) -> NoDup (map fst (adel eqb k l)).
  Proof. intros k l. rewrite adel_filter. apply nodup_map_filter. Qed.

  Lemma nodup_aset : forall k (v : V) l, NoDup (map fst l) -> NoDup (map fst (aset eqb k v l)).
  Proof.
    intros k v l Hnd. destruct (aget eqb k l) as [v0|] eqn:Hg.
    - rewrite (keys_aset_present _ _ _ _ Hg). exact Hnd.
    - rewrite (aset_absent _ _ _ Hg). rewrite map_app. cbn [map fst].
      apply nodup_snoc; [exact Hnd | apply aget_None_notin; exact Hg].
  Qed.

  Lemma aget_upd : forall k (g : V -> V) (d : V) l k',
    aget eqb k' (match aget eqb k l with Some v => aset eqb k (g v) l | None => aset eqb k d l end) =
    if eqb k' k then Some (match aget eqb k l with Some v => g v | None => d end) else aget eqb k' l.
  Proof. intros. destruct (aget eqb k l); apply aget_aset. Qed.

  Lemma nodup_upd : forall k (g : V -> V) (d : V) l, NoDup (map fst l) ->
    NoDup (map fst (match aget eqb k l with Some v => aset eqb k (g v) l | None => aset eqb k d l end)).
  Proof. intros. destruct (aget eqb k l); apply nodup_aset; assumption. Qed.
End AssocFacts.

Notation nget_set := (aget_aset N.eqb_spec).
Notation nget_del := (aget_adel N.eqb_spec).

Lemma no_key_of_aget_none : forall (V : Type) f (m : list (N * V)),
  ngetN f m = None -> existsb (fun kv => fst kv =? f) m = false.
Proof.
  intros V f m H. apply existsb_false. intros [g v] Hin. cbn [fst]. destruct (N.eqb_spec g f) as [->|_]; [|reflexivity].
  exfalso. apply (aget_None_notin N.eqb_spec f m H). exact (in_map fst _ _ Hin).
Qed.

Definition Neqb_spec := N.eqb_spec.

Lemma split_on_nonempty : forall sep s, split_on sep s <> [].
Proof.
  intros sep s. destruct s as [|c r]; cbn [split_on]; [discriminate|].
  destruct (c =? sep); [discriminate|]. destruct (split_on sep r); discriminate.
Qed.

Lemma join_split : forall s, join_dot (split_dot s) = s.
Proof.
  unfold split_dot. induction s as [|c r IH]; cbn [split_on join_dot]; [reflexivity|].
  destruct (N.eqb_spec c DOT) as [->|Hne].
  - pose proof (split_on_nonempty DOT r) as Hn.
    destruct (split_on DOT r) as [|h t] eqn:E; [congruence|].
    cbn [join_dot app]. rewrite <- IH. reflexivity.
  - pose proof (split_on_nonempty DOT r) as Hn.
    destruct (split_on DOT r) as [|h t] eqn:E; [congruence|].
    rewrite <- IH. destruct t as [|h2 t2]; cbn [join_dot app]; reflexivity.
Qed.

Lemma split_dot_nonempty : forall s, split_dot s <> [].
Proof. intro s. apply split_on_nonempty. Qed.
