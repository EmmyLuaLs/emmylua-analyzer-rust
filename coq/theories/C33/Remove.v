(** [LuaIndex::remove] preserves the refinement invariant. *)
From EV Require Import C33.Model C33.Spec C33.Lemmas C33.Inv C33.Tree.
Local Open Scope N_scope.

Definition drop_node (nodes : list (N * node)) (p c : N) (pd : node) : list (N * node) :=
  nsetN p (mkNode (n_parent pd) (filter (fun kc => negb (snd kc =? c)) (n_children pd)) (n_files pd)) (ndelN c nodes).

(** what the pruning loop guarantees *)
Definition pruned (nodes0 R : list (N * node)) (a : astate) (addr : N -> list str) (cnt : N) : Prop :=
  Tree R a addr cnt /\ Live R a addr None /\
  (forall n nd, ngetN n R = Some nd -> exists nd0, ngetN n nodes0 = Some nd0).

Lemma prune_ok : forall fuel nodes0 a addr cnt c cd p,
  Tree nodes0 a addr cnt -> Live nodes0 a addr (Some (addr c)) ->
  ngetN c nodes0 = Some cd -> n_files cd = [] -> n_children cd = [] -> c <> ROOT -> n_parent cd = Some p ->
  (length (addr c) <= fuel)%nat ->
  pruned nodes0 (prune fuel (ndelN c nodes0) (Some p) c) a addr cnt.
Proof.
  induction fuel as [|fuel IH]; intros nodes0 a addr cnt c cd p HT HL Hc Hcf Hcc Hcr Hcp Hfuel;
    destruct (t_parent_addr _ _ _ _ HT c cd p Hc Hcr Hcp) as [pd [k [Hp [Hk Ha]]]];
    rewrite Ha, app_length in Hfuel; cbn [length] in Hfuel; [lia|].
  assert (Hpc : p <> c) by (eapply dl_pc; eauto).
  cbn [prune]. rewrite nget_del. destruct (N.eqb_spec p c) as [E|_]; [contradiction|]. rewrite Hp.
  cbv zeta. fold (drop_node nodes0 p c pd).
  (* one turn of the loop detaches the dead leaf [c] from its parent [p] *)
  pose proof (drop_leaf_tree _ _ _ _ _ _ _ _ HT Hc Hcf Hcc Hcr Hcp Hp) as HT1.
  pose proof (drop_leaf_live _ _ _ _ _ _ _ _ HT HL Hc Hcr Hcp Hp) as HL1.
  pose proof (dl_get_p nodes0 c p pd) as Hp1.
  fold (drop_node nodes0 p c pd) in HT1, HL1, Hp1.
  set (pd' := mkNode (n_parent pd) (filter (fun kc => negb (snd kc =? c)) (n_children pd)) (n_files pd)) in *.
  assert (Hsub : forall n nd, ngetN n (drop_node nodes0 p c pd) = Some nd -> exists nd0, ngetN n nodes0 = Some nd0).
  { intros n nd Hn. destruct (dl_old _ _ _ _ _ _ _ _ HT Hc Hcr Hcp Hp n nd Hn) as [nd0 [H1 _]]. eauto. }
  (* the loop stops at [p] if it is the root or still has files or children: then every remaining node is live *)
  assert (Hstop : p = ROOT \/ n_files pd' <> [] \/ n_children pd' <> [] ->
                  pruned nodes0 (drop_node nodes0 p c pd) a addr cnt).
  { intro Hcase. split; [exact HT1|]. split; [eapply live_finish; eauto | exact Hsub]. }
  destruct (N.eqb_spec p ROOT) as [Hroot|Hnroot]; [apply Hstop; left; exact Hroot|].
  destruct (is_nil (n_files pd') && is_nil (n_children pd')) eqn:Edead;
    [|apply Hstop; right; apply is_nil_not_both; exact Edead].
  apply is_nil_both in Edead. destruct Edead as [Ef Ec].
  (* otherwise [p] is a dead leaf in its turn, one step nearer to the root *)
  destruct (T_parent HT1 p pd' Hp1 Hnroot) as [p2 [pd2 [k2 [Hpp2 _]]]]. rewrite Hpp2.
  destruct (IH _ a addr cnt p pd' p2 HT1 HL1 Hp1 Ef Ec Hnroot Hpp2) as [R1 [R2 R3]]; [lia|].
  split; [exact R1|]. split; [exact R2|]. intros n nd Hn. destruct (R3 n nd Hn) as [nd1 H1]. eauto.
Qed.

Lemma in_a_remove : forall f a e, In e (a_remove f a) <-> In e a /\ a_file e <> f.
Proof. intros f a e. apply in_drop_key. Qed.

Lemma a_remove_id : forall f a, (forall e, In e a -> a_file e <> f) -> a_remove f a = a.
Proof.
  intros f a H. apply filter_all. intros e He.
  destruct (N.eqb_spec (a_file e) f) as [E|_]; [destruct (H e He E) | reflexivity].
Qed.

Lemma map_file_remove : forall f l, map a_file (a_remove f l) = drop_file f (map a_file l).
Proof. intros f l. symmetry. apply filter_map. reflexivity. Qed.

Lemma at_addr_remove : forall f a P, at_addr (a_remove f a) P = a_remove f (at_addr a P).
Proof. intros. unfold at_addr, a_remove. apply filter_filter_comm. Qed.

Lemma named_remove : forall f a nm, named (a_remove f a) nm = a_remove f (named a nm).
Proof. intros. unfold named, a_remove. apply filter_filter_comm. Qed.

Section RemoveInv.
  Variables (c : cfg) (s : midx) (a : astate) (addr : N -> list str) (f : N).
  Hypothesis HI : Inv c s a addr.

  Lemma remove_absent : ngetN f (m_files s) = None -> a_remove f a = a.
  Proof.
    intro Hn. apply a_remove_id. intros e He Hf.
    destruct (I_fmap_complete HI e He) as [i Hi]. congruence.
  Qed.

  Variables (info : minfo) (e : aentry) (nd : node).
  Hypothesis He : In e a.
  Hypothesis Hef : a_file e = f.
  Hypothesis Hrel : info_rel info e.
  Hypothesis Hnd : ngetN (i_node info) (m_nodes s) = Some nd.
  Hypothesis Haddr : addr (i_node info) = parts_of e.

  Let nid := i_node info.
  Let a' := a_remove f a.
  Let nd' := mkNode (n_parent nd) (n_children nd) (drop_file f (n_files nd)).
  Let nodes0 := nsetN nid nd' (m_nodes s).

  Lemma rm_only : forall e', In e' a -> a_file e' = f -> e' = e.
  Proof. intros e' He' Hf'. eapply in_a_unique; eauto using (I_a_nodup HI). congruence. Qed.

  Lemma rm_at_other : forall P, P <> parts_of e -> at_addr a' P = at_addr a P.
  Proof.
    intros P HP. unfold a'. rewrite at_addr_remove. apply a_remove_id.
    intros e' He' Hf'. apply in_at_addr in He'. destruct He' as [He' Hq].
    rewrite (rm_only e' He' Hf') in Hq. congruence.
  Qed.

  Lemma rm_shape : same_shape nodes0 (m_nodes s).
  Proof. apply same_shape_set. exact Hnd. Qed.

  Lemma rm_tree0 : Tree nodes0 a' addr (m_counter s).
  Proof.
    pose proof (inv_tree _ _ _ _ HI) as HT.
    apply (tree_ext (m_nodes s) nodes0 a a' addr _ HT rm_shape).
    - apply (nodup_aset N.eqb_spec). exact (T_nodup HT).
    - intros n x Hn. unfold nodes0 in Hn. rewrite nget_set in Hn. destruct (N.eqb_spec n nid) as [->|Hnn].
      + inversion Hn; subst x. cbn [n_files nd']. rewrite (T_files HT _ nd Hnd).
        unfold a'. rewrite at_addr_remove, map_file_remove. reflexivity.
      + rewrite (T_files HT n x Hn), rm_at_other; [reflexivity|].
        intro Heq. apply Hnn. eapply (T_inj HT); eauto. unfold nid. congruence.
    - intros e' P He' Hpre. apply in_a_remove in He'. destruct He' as [He' _]. exact (T_complete HT e' P He' Hpre).
  Qed.

  Lemma rm_live0 : Live nodes0 a' addr (Some (addr nid)).
  Proof.
    intros n x Hn Hr Hx. destruct (proj1 rm_shape n x Hn) as [x0 [H0 _]].
    destruct (I_live HI n x0 H0 Hr) as [e' [He' Hpre]].
    exists e'. split; [|exact Hpre]. apply in_a_remove. split; [exact He'|].
    intro Hf'. assert (e' = e) by (apply rm_only; assumption). subst e'.
    apply Hx. unfold nid. rewrite Haddr. exact Hpre.
  Qed.

  Lemma rm_fuel : (length (addr nid) <= S (length (split_dot (i_full info))))%nat.
  Proof.
    destruct Hrel as [_ [Hfull _]]. rewrite Hfull. unfold full_of, parts_of. rewrite join_split.
    unfold nid. rewrite Haddr. unfold parts_of. lia.
  Qed.

  Definition rm_nodes : list (N * node) :=
    if is_nil (n_files nd') && is_nil (n_children nd') && negb (nid =? ROOT)
    then prune (S (length (split_dot (i_full info)))) (ndelN nid (m_nodes s)) (n_parent nd') nid
    else nsetN nid nd' (m_nodes s).

  Lemma rm_pruned : pruned (m_nodes s) rm_nodes a' addr (m_counter s).
  Proof.
    assert (Hsub : forall R, pruned nodes0 R a' addr (m_counter s) -> pruned (m_nodes s) R a' addr (m_counter s)).
    { intros R [HT [HL Hs]]. split; [exact HT|]. split; [exact HL|]. intros n x Hn.
      destruct (Hs n x Hn) as [x1 H1]. destruct (proj1 rm_shape n x1 H1) as [x0 [H0 _]]. eauto. }
    apply Hsub. unfold rm_nodes.
    assert (Hn0 : ngetN nid nodes0 = Some nd') by (unfold nodes0; rewrite nget_set, N.eqb_refl; reflexivity).
    destruct (is_nil (n_files nd') && is_nil (n_children nd') && negb (nid =? ROOT)) eqn:Edead.
    - apply andb_prop in Edead. destruct Edead as [Edead Er]. apply is_nil_both in Edead. destruct Edead as [Ef Ec].
      destruct (N.eqb_spec nid ROOT) as [|Hr]; [discriminate|].
      destruct (T_parent rm_tree0 nid nd' Hn0 Hr) as [p [pd [k [Hp _]]]].
      rewrite Hp. replace (ndelN nid (m_nodes s)) with (ndelN nid nodes0) by (unfold nodes0; apply (adel_aset_same N.eqb_spec)).
      eapply prune_ok; eauto using rm_tree0, rm_live0, rm_fuel.
    - fold nodes0. split; [exact rm_tree0|]. split; [|eauto].
      eapply live_finish; eauto using rm_tree0, rm_live0.
      apply andb_false_iff in Edead. destruct Edead as [Edead|Er].
      + right. apply is_nil_not_both. exact Edead.
      + left. destruct (N.eqb_spec nid ROOT); [assumption | discriminate].
  Qed.
End RemoveInv.

Lemma inv_remove : forall c s a addr f, Inv c s a addr -> Inv c (m_remove f s) (a_remove f a) addr.
Proof.
  intros c s a addr f HI. unfold m_remove.
  destruct (ngetN f (m_files s)) as [info|] eqn:Hinfo; [|rewrite (remove_absent c s a addr f HI Hinfo); exact HI].
  destruct (I_fmap_sound HI _ _ Hinfo) as [e [nd [He [Hef [Hrel [Hnd Haddr]]]]]].
  rewrite Hnd. cbv zeta.
  destruct (rm_pruned c s a addr f HI info e nd He Hef Hrel Hnd Haddr) as [HT [HL Hsub]].
  unfold rm_nodes in HT, HL, Hsub.
  pose proof (rm_only c s a addr f HI e He Hef) as Honly.
  apply tree_inv; [exact HT | exact HL | | | | | |].
  - (* I_fmap_sound *) intros f' i' Hi'. rewrite nget_del in Hi'. destruct (N.eqb_spec f' f) as [|Hne]; [discriminate|].
    destruct (I_fmap_sound HI _ _ Hi') as [e' [x0 [He' [Hf' [Hrel' [Hx0 Ha']]]]]].
    assert (Hin' : In e' (a_remove f a)) by (apply in_a_remove; split; [exact He' | congruence]).
    (* the node of a surviving entry survives: its address still has a node, and addresses are unique *)
    destruct (T_complete HT e' _ Hin' (prefix_refl _)) as [n [x [Hx Hn]]].
    destruct (Hsub n x Hx) as [x1 Hx1].
    assert (n = i_node i') by (eapply (I_inj HI); eauto; congruence). subst n.
    exists e', x. repeat split; try assumption; apply Hrel'.
  - (* I_fmap_complete *) intros e' He'. apply in_a_remove in He'. destruct He' as [He' Hne].
    destruct (I_fmap_complete HI e' He') as [i' Hi']. exists i'. rewrite nget_del.
    destruct (N.eqb_spec (a_file e') f); [contradiction | exact Hi'].
  - (* I_a_nodup *) apply nodup_map_filter. exact (I_a_nodup HI).
  - (* I_fuzzy *) pose proof (I_fuzzy HI) as HF. destruct (c_fuzzy c); [|rewrite HF; reflexivity].
    assert (Hnm : i_name info = name_of e) by (destruct Hrel as [_ [_ [H _]]]; exact H).
    intro name. rewrite Hnm, (HF (name_of e)).
    rewrite (nonempty_opt_in (a_file e)) by (apply in_map, in_named; auto).
    rewrite sget_put, <- map_file_remove, <- named_remove.
    destruct (str_eqb_spec name (name_of e)) as [->|Hne]; [reflexivity|].
    rewrite HF, named_remove, a_remove_id; [reflexivity|].
    intros e' He' Hf'. apply in_named in He'. destruct He' as [He' Hq].
    rewrite (Honly e' He' Hf') in Hq. congruence.
  - (* I_fmap_nodup *) apply nodup_adel. exact (I_fmap_nodup HI).
  - (* I_fuzzy_nodup *) pose proof (I_fuzzy_nodup HI) as Hnd0.
    destruct (sget (i_name info) (m_fuzzy s)) as [l|]; [|exact Hnd0].
    destruct (is_nil (drop_file f l)); [apply nodup_adel | apply (nodup_aset str_eqb_spec)]; exact Hnd0.
Qed.
