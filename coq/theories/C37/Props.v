(** C37/Props.v — property theorems only.

    The description parsers (Markdown, MyST, reStructuredText) are CLIENTS of the kernel
    modelled in Model.v: they create readers on the lines computed by [desc_to_lines], drive
    them with [bump]/[reset_buff]/[eat_*]/clone-and-rollback/sub-readers, and report ranges
    only through [emit]/[emit_range]; [parse] finally sorts the items.  The theorems below
    quantify over ALL texts, ALL regions and ALL client programs, so they hold for the three
    present grammars and for any rewrite of them that keeps going through this API. *)
From Coq Require Import Sorting.Permutation Sorting.Sorted.
From EV Require Import C37.Model C37.Proofs.
Local Open Scope N_scope.

(** Whatever a client does with readers created inside the region [lo, hi] of the text
    (any sequence of reader operations, clones, rollbacks, sub-readers, emissions,
    truncations), every reader's [current_range] and [tail_range] lies inside the region
    AND inside the reader's own valid range, on character boundaries of the text; and
    [tail_range] does not panic. *)
Theorem reader_range_in_bounds : forall (T : text) (lo hi : N) (cursor : option N) (ops : list op) (st : mstate),
  run T lo hi cursor init ops = Val st ->
  forall r, In r (m_readers st) ->
    (range_ok T lo hi (current_range r) /\ in_own_range r (current_range r)) /\
    (exists rg, tail_range r = Val rg /\ range_ok T lo hi rg /\ in_own_range r rg).
Proof. exact Proofs.reader_range_in_bounds. Qed.

(** A sub-reader never panics to create, and its valid range is exactly its parent's current
    range (so, by the theorem above, nested sub-readers stay inside every ancestor). *)
Theorem sub_reader_in_parent : forall (T : text) (lo hi : N) (r : reader),
  rinv T lo hi r ->
  exists r' sub, reset_buff_into_sub_reader r = Val (r', sub) /\
                 rinv T lo hi r' /\ rinv T lo hi sub /\
                 (r_start sub, r_len sub) = current_range r.
Proof. exact Proofs.rinv_sub. Qed.

(** The scanning loops ([eat_while], [eat_when], [consume_n_times], [eat_till_end]) stop for
    the reason the Rust [while] condition states — the model's fuel never runs out. *)
Theorem eat_loops_complete : forall (T : text) (lo hi : N) (r : reader) (p : cp -> bool) (limit : option N),
  rinv T lo hi r ->
  is_eof (fst (eat_go (loop_fuel r) p limit r 0)) = true \/
  p (r_cur (fst (eat_go (loop_fuel r) p limit r 0))) = false \/
  (exists k, limit = Some k /\ k <= snd (eat_go (loop_fuel r) p limit r 0)).
Proof. exact Proofs.eat_loops_complete. Qed.

(** [emit_range] (with its coalescing of an adjacent range of the same kind, and with or
    without a cursor) keeps every item inside the region and on character boundaries,
    provided the emitted range is. *)
Theorem emit_range_in_bounds : forall (T : text) (lo hi : N) (cursor : option N) (results : list item) (rg : srange) (k : kind),
  Forall (item_ok T lo hi) results -> range_ok T lo hi rg ->
  Forall (item_ok T lo hi) (emit_range cursor results rg k).
Proof. exact Proofs.emit_range_ok. Qed.

(** Hence every item a client program ever holds is inside the region, on boundaries,
    with start <= end. *)
Theorem emitted_items_in_bounds : forall (T : text) (lo hi : N) (cursor : option N) (ops : list op) (st : mstate),
  run T lo hi cursor init ops = Val st -> Forall (item_ok T lo hi) (m_results st).
Proof. exact Proofs.emitted_items_in_bounds. Qed.

(** Totality of the kernel: the only panics reachable through the API are the two
    client-side assertions (a [from_start_end] with start > end, slicing the text off a
    boundary when creating a reader); reader operations, sub-readers, [tail_range], [emit]
    never panic. *)
Theorem kernel_never_panics : forall (T : text) (lo hi : N) (cursor : option N) (ops : list op),
  forallb (fun o => negb (may_panic o)) ops = true -> run T lo hi cursor init ops <> Panic.
Proof. exact Proofs.kernel_never_panics. Qed.

(** TABLE OBLIGATIONS on today's source (Gen/C37_Classes.v is regenerated from util.rs on every run):
    every character [util::is_ws] accepts, and every [char::is_ascii_whitespace] character, is ONE
    byte long.  [desc_to_lines] needs exactly this: it counts the common indentation in characters
    and strips it in bytes. *)
Theorem is_ws_chars_one_byte : forallb (fun c => blen c =? 1) is_ws_chars = true.
Proof. exact Proofs.is_ws_chars_one_byte. Qed.

Theorem ascii_ws_chars_one_byte : forallb (fun c => blen c =? 1) ascii_ws_chars = true.
Proof. exact Proofs.ascii_ws_chars_one_byte. Qed.

(** [desc_to_lines] never panics (all its slices are on character boundaries) and every
    line it returns lies inside the region spanned by the tokens it walked, on character
    boundaries — or is the sentinel [EMPTY] = (0,0) that an end-of-line token pushes when no
    start/detail token came before it on that line.  (Depends on the two table obligations
    above: with a multi-byte [is_ws] character the stripped indentation would end inside a
    character and the next slice of the line would panic.) *)
Theorem desc_lines_in_desc : forall (T : text) (lo hi : N) (prev : option tok) (tks : list tok) (cursor : option N),
  Forall (tok_ok T lo hi) (prev_toks prev ++ tks) ->
  exists ls, desc_to_lines T prev tks cursor = Val ls /\ Forall (line_ok' T lo hi) ls.
Proof. exact Proofs.desc_to_lines_ok. Qed.

(** [sort_result] sorts by its key (start, longer first, scopes first) ... *)
Theorem sort_result_sorted : forall (l : list item), StronglySorted key_le (sort_result l).
Proof. exact Proofs.sort_result_strongly_sorted. Qed.

(** ... in particular the items come out in order of start offset ... *)
Theorem sort_result_starts_sorted : forall (l : list item),
  StronglySorted (fun a b => i_start a <= i_start b) (sort_result l).
Proof. exact Proofs.sort_result_starts_sorted. Qed.

(** ... it keeps the multiset of items ... *)
Theorem sort_result_permutation : forall (l : list item), Permutation l (sort_result l).
Proof. exact Proofs.sort_result_perm. Qed.

(** ... and therefore keeps them in bounds. *)
Theorem sort_result_in_bounds : forall (T : text) (lo hi : N) (l : list item),
  Forall (item_ok T lo hi) l -> Forall (item_ok T lo hi) (sort_result l).
Proof. exact Proofs.sort_result_in_bounds. Qed.

(** non-vacuity: a client program on ["a`é😀`b"] (region = the whole text) with a rollback, a
    sub-reader, coalescing emissions; a NUL character; a description with a dashed frame, a
    common indent and multi-byte text; a sort with equal keys *)
Example machine_example :
  let T := [97; 96; 233; 128512; 96; 98] in
  match run T 0 10 None init
          [ONew 0 10; OR 0 RBump; OEmit 0 7; OClone 0; OR 0 (REatWhile (fun c => negb (c =? 98)));
           OSub 0; OR 2 RBump; OEmit 2 7; OR 2 (REatWhile (fun c => negb (c =? 96))); OEmit 2 4;
           OR 2 (REatWhile (fun _ => true)); OEmit 2 7; OEmitSpan 1 0 0; ORestore 0 1; OTruncate 3;
           OR 0 RBump; OR 0 RBump; OEmit 0 7] with
  | Val st => map (fun it => (i_start it, i_end it, i_kind it)) (m_results st)
  | _ => []
  end = [(0, 2, 7); (2, 8, 4); (8, 9, 7); (1, 4, 7)].
Proof. vm_compute. reflexivity. Qed.

(** a NUL character is an ordinary character (end of input is decided by position) *)
Example nul_is_not_eof_example :
  match new_with_range [97; 0; 98] 5 3 with
  | Val r => let r1 := bump r in let r2 := fst (eat_till_end r) in
             ((is_eof r1, r_cur r1, current_range r1), (is_eof r2, current_range r2, tail_range r2))
  | _ => ((true, 0, (0, 0)), (false, (0, 0), Panic))
  end = ((false, 0, (5, 1)), (true, (5, 3), Val (8, 0))).
Proof. vm_compute. reflexivity. Qed.

Example desc_lines_example :
  (* "-----\n---  é *x*\n---   y\n-----" : tokens as the doc lexer produces them *)
  let T := [45;45;45;45;45;10; 45;45;45;32;32;233;32;42;120;42;10; 45;45;45;32;32;32;121;10; 45;45;45;45;45] in
  desc_to_lines T None
    [ {| t_kind := TNormalStart; t_start := 0; t_len := 3 |}; {| t_kind := TDetail; t_start := 3; t_len := 2 |};
      {| t_kind := TEol; t_start := 5; t_len := 1 |};
      {| t_kind := TNormalStart; t_start := 6; t_len := 5 |}; {| t_kind := TDetail; t_start := 11; t_len := 6 |};
      {| t_kind := TEol; t_start := 17; t_len := 1 |};
      {| t_kind := TContinue; t_start := 18; t_len := 6 |}; {| t_kind := TDetail; t_start := 24; t_len := 1 |};
      {| t_kind := TEol; t_start := 25; t_len := 1 |};
      {| t_kind := TNormalStart; t_start := 26; t_len := 3 |}; {| t_kind := TDetail; t_start := 29; t_len := 2 |} ]
    None = Val [(11, 6); (23, 2)].
Proof. vm_compute. reflexivity. Qed.

Example sort_example :
  map (fun it => (i_start it, i_end it, i_kind it))
    (sort_result [ {| i_start := 4; i_end := 5; i_kind := 7 |}; {| i_start := 0; i_end := 2; i_kind := 7 |};
                   {| i_start := 0; i_end := 9; i_kind := 2 |}; {| i_start := 0; i_end := 9; i_kind := 0 |};
                   {| i_start := 0; i_end := 9; i_kind := 3 |}; {| i_start := 4; i_end := 5; i_kind := 4 |} ])
  = [(0, 9, 0); (0, 9, 2); (0, 9, 3); (0, 2, 7); (4, 5, 7); (4, 5, 4)].
Proof. vm_compute. reflexivity. Qed.
