(** The emission kernel of C37/Model.v: every reader range, emitted item and description line stays inside
    the region [lo, hi] of the text [T], with both ends on character boundaries. *)
From Coq Require Import Sorting.Permutation Sorting.Sorted.
From EV Require Import Base.TextFacts C37.Model.
Local Open Scope N_scope.

Lemma drop_bytes_spec : forall t o s,
  drop_bytes t o = Some s -> exists p, t = p ++ s /\ bytes p = o.
Proof.
  induction t as [|c t IH]; intros o s H; cbn [drop_bytes] in H;
    (destruct (N.eqb_spec o 0) as [->|E]; [injection H as <-; exists []; split; reflexivity|]); [discriminate|].
  destruct (N.ltb_spec o (blen c)) as [L|L]; [discriminate|].
  destruct (IH _ _ H) as [p [E1 E2]].
  exists (c :: p). split; [cbn [app]; f_equal; exact E1|]. cbn [bytes]. lia.
Qed.

Lemma slice_spec : forall t a b s,
  slice t a b = Some s -> exists p r, t = p ++ s ++ r /\ bytes p = a /\ a <= b /\ bytes s = b - a.
Proof.
  intros t a b s H. unfold slice in H.
  destruct (N.ltb_spec b a) as [L|L]; [discriminate|].
  destruct (drop_bytes t a) as [d|] eqn:D; [|discriminate].
  destruct (drop_bytes_spec _ _ _ D) as [p [E1 E2]].
  destruct (take_bytes_spec _ _ _ H) as [r [E3 E4]].
  exists p, r. subst t d. repeat split; assumption.
Qed.

Lemma boundaryb_mid : forall A X B o, o = bytes A -> boundaryb (A ++ X ++ B) o = true.
Proof. intros A X B o ->. apply boundaryb_app. Qed.

Lemma boundaryb_mid_end : forall A X B o,
  o = bytes A + bytes X -> boundaryb (A ++ X ++ B) o = true.
Proof.
  intros A X B o ->. rewrite app_assoc. rewrite <- bytes_app. apply boundaryb_app.
Qed.

Definition range_ok (T : text) (lo hi : N) (rg : srange) : Prop :=
  lo <= sr_start rg /\ sr_end rg <= hi /\
  boundaryb T (sr_start rg) = true /\ boundaryb T (sr_end rg) = true.

Definition item_ok (T : text) (lo hi : N) (it : item) : Prop :=
  lo <= i_start it /\ i_start it <= i_end it /\ i_end it <= hi /\
  boundaryb T (i_start it) = true /\ boundaryb T (i_end it) = true.

Definition in_own_range (r : reader) (rg : srange) : Prop :=
  r_start r <= sr_start rg /\ sr_end rg <= r_start r + r_len r.

(** the look-ahead registers describe the unread suffix [S] *)
Definition repr (r : reader) (S : text) : Prop :=
  r_cur r = hd EOF S /\ r_next r = hd EOF (tl S) /\ r_chars r = tl (tl S).

(** [T = A ++ (P ++ Bf ++ S) ++ B]: the reader's text is the middle part, [P] has been
    committed by [reset_buff], [Bf] is the current buffer, [S] is unread *)
Definition rinv (T : text) (lo hi : N) (r : reader) : Prop :=
  exists A P Bf S B,
    T = A ++ (P ++ Bf ++ S) ++ B /\ r_text r = P ++ Bf ++ S /\
    bytes A = r_start r /\ bytes (r_text r) = r_len r /\
    bytes P = r_pos r /\ bytes Bf = r_blen r /\ repr r S /\
    lo <= r_start r /\ r_start r + r_len r <= hi.

(** [rinv] without the embedding of the reader's text in [T] *)
Definition linv (r : reader) (P Bf S : text) : Prop :=
  r_text r = P ++ Bf ++ S /\ bytes P = r_pos r /\ bytes Bf = r_blen r /\ repr r S.

Lemma rinv_linv : forall T lo hi r, rinv T lo hi r -> exists P Bf S, linv r P Bf S.
Proof. intros T lo hi r (A & P & Bf & S & B & H). exists P, Bf, S. unfold linv. tauto. Qed.

Lemma new_with_range_fields : forall t a l r, new_with_range t a l = Val r ->
  bytes t = l /\ r_text r = t /\ r_start r = a /\ r_len r = l /\ r_pos r = 0 /\ r_blen r = 0 /\ repr r t.
Proof.
  intros t a l r H. unfold new_with_range in H.
  destruct (N.eqb_spec (bytes t) l) as [E|E]; [|discriminate].
  destruct t as [|x [|y t]]; cbn in H; injection H as <-; repeat split; exact E.
Qed.

Lemma new_with_range_ok : forall t a, exists r, new_with_range t a (bytes t) = Val r.
Proof.
  intros t a. unfold new_with_range. rewrite N.eqb_refl.
  destruct (chars_next t) as [c s1]. destruct (chars_next s1) as [n s2]. eexists. reflexivity.
Qed.

Lemma rinv_new : forall T lo hi a b t r,
  slice T a b = Some t -> lo <= a -> b <= hi ->
  new_with_range t a (b - a) = Val r -> rinv T lo hi r.
Proof.
  intros T lo hi a b t r Hs Hlo Hhi Hn.
  destruct (slice_spec _ _ _ _ Hs) as (p & q & E1 & E2 & E3 & E4).
  destruct (new_with_range_fields _ _ _ _ Hn) as (_ & F1 & F2 & F3 & F4 & F5 & F6).
  exists p, [], [], t, q. rewrite F1, F2, F3, F4, F5. cbn [app bytes].
  repeat split; try assumption; try apply F6; lia.
Qed.

Lemma linv_not_eof : forall r P Bf S, linv r P Bf S -> is_eof r = false ->
  exists c S', S = c :: S' /\ r_cur r = c.
Proof.
  intros r P Bf S (E1 & E2 & E3 & R1 & _) Z. unfold is_eof in Z. apply N.leb_gt in Z.
  rewrite E1, !bytes_app in Z.
  destruct S as [|c S']; [cbn [bytes] in Z; lia|]. exists c, S'. split; [reflexivity|exact R1].
Qed.

Lemma linv_eof : forall r P Bf S, linv r P Bf S -> is_eof r = true -> S = [].
Proof.
  intros r P Bf S [E1 [E2 [E3 _]]] Z. unfold is_eof in Z. apply N.leb_le in Z.
  rewrite E1, !bytes_app in Z.
  destruct S as [|c S']; [reflexivity|]. cbn [bytes] in Z. pose proof (blen_pos c). lia.
Qed.

Lemma bump_fields : forall r, is_eof r = false ->
  r_text (bump r) = r_text r /\ r_start (bump r) = r_start r /\ r_len (bump r) = r_len r /\
  r_pos (bump r) = r_pos r /\ r_blen (bump r) = r_blen r + blen (r_cur r).
Proof.
  intros r Z. unfold bump. rewrite Z.
  destruct (chars_next (r_chars r)) as [n s]. cbn. repeat split.
Qed.

Lemma repr_bump : forall r c S, repr r (c :: S) -> is_eof r = false -> repr (bump r) S.
Proof.
  intros r c S (R1 & R2 & R3) Z. cbn [hd tl] in R2, R3. unfold bump, repr. rewrite Z, R3.
  destruct S as [|y [|z S]]; cbn; repeat split; exact R2.
Qed.

Lemma linv_bump : forall r P Bf c S, linv r P Bf (c :: S) -> is_eof r = false ->
  linv (bump r) P (Bf ++ [c]) S.
Proof.
  intros r P Bf c S (E1 & E2 & E3 & R) Z.
  destruct (bump_fields r Z) as (F1 & _ & _ & F4 & F5).
  unfold linv. rewrite <- app_assoc, F1, F4, F5, bytes_app, (proj1 R). cbn [app hd bytes].
  split; [exact E1|]. split; [exact E2|]. split; [lia|]. eapply repr_bump; eassumption.
Qed.

Lemma rinv_bump : forall T lo hi r, rinv T lo hi r -> rinv T lo hi (bump r).
Proof.
  intros T lo hi r H. destruct (is_eof r) eqn:Z; [unfold bump; rewrite Z; exact H|].
  destruct H as (A & P & Bf & S & B & E1 & E2 & E3 & E4 & E5 & E6 & R & L).
  assert (LI : linv r P Bf S) by (unfold linv; tauto).
  destruct (linv_not_eof _ _ _ _ LI Z) as (c & S' & -> & _).
  destruct (linv_bump _ _ _ _ _ LI Z) as (G1 & G2 & G3 & G4).
  destruct (bump_fields r Z) as (F1 & F2 & F3 & _).
  exists A, P, (Bf ++ [c]), S', B. rewrite <- (app_assoc Bf [c] S'), F1, F2, F3. cbn [app].
  repeat split; assumption || apply L || apply G4.
Qed.

Lemma rinv_reset : forall T lo hi r, rinv T lo hi r -> rinv T lo hi (reset_buff r).
Proof.
  intros T lo hi r (A & P & Bf & S & B & E1 & E2 & E3 & E4 & E5 & E6 & R & L1 & L2).
  exists A, (P ++ Bf), [], S, B.
  cbn [reset_buff r_text r_start r_len r_pos r_blen app]. rewrite <- (app_assoc P Bf S), bytes_app.
  repeat split; try assumption; try apply R; lia.
Qed.

Lemma rinv_set_prev : forall T lo hi r p, rinv T lo hi r -> rinv T lo hi (set_prev r p).
Proof.
  intros T lo hi r p [A [P [Bf [S [B H]]]]]. exists A, P, Bf, S, B. exact H.
Qed.

Lemma rinv_eat_go : forall T lo hi fuel p limit r n,
  rinv T lo hi r -> rinv T lo hi (fst (eat_go fuel p limit r n)).
Proof.
  induction fuel as [|f IH]; intros p limit r n H; cbn [eat_go]; [exact H|].
  destruct (_ && _); [apply IH, rinv_bump|]; exact H.
Qed.

Lemma rinv_run_rop : forall T lo hi o r, rinv T lo hi r -> rinv T lo hi (fst (run_rop o r)).
Proof.
  intros T lo hi o r H. destruct o; cbn [run_rop fst]; [apply rinv_bump|apply rinv_reset|apply rinv_eat_go..]; exact H.
Qed.

Lemma rinv_split_range : forall T lo hi r X Y Z,
  rinv T lo hi r -> r_text r = X ++ Y ++ Z ->
  range_ok T lo hi (r_start r + bytes X, bytes Y) /\ in_own_range r (r_start r + bytes X, bytes Y).
Proof.
  intros T lo hi r X Y Z (A & P & Bf & S & B & E1 & E2 & E3 & E4 & _ & _ & _ & L1 & L2) E.
  rewrite <- E2, E in E1. rewrite E, !bytes_app in E4.
  unfold range_ok, in_own_range, sr_start, sr_end, sr_len. cbn [fst snd].
  replace T with ((A ++ X) ++ Y ++ Z ++ B) by (rewrite E1, <- !app_assoc; reflexivity).
  repeat split; try lia; [apply boundaryb_mid|apply boundaryb_mid_end]; rewrite bytes_app; lia.
Qed.

Lemma rinv_current_range : forall T lo hi r,
  rinv T lo hi r -> range_ok T lo hi (current_range r) /\ in_own_range r (current_range r).
Proof.
  intros T lo hi r H. pose proof H as (A & P & Bf & S & B & _ & E2 & _ & _ & E5 & E6 & _).
  unfold current_range. rewrite <- E5, <- E6. exact (rinv_split_range _ _ _ _ P Bf S H E2).
Qed.

Lemma rinv_tail_range : forall T lo hi r,
  rinv T lo hi r -> exists rg, tail_range r = Val rg /\ range_ok T lo hi rg /\ in_own_range r rg.
Proof.
  intros T lo hi r H. pose proof H as (A & P & Bf & S & B & _ & E2 & _ & E4 & E5 & E6 & _).
  rewrite E2, !bytes_app in E4.
  unfold tail_range, moved, sr_len, sr_start. cbn [fst snd].
  rewrite (proj2 (N.leb_le _ _)) by lia. eexists. split; [reflexivity|].
  replace (r_pos r + r_blen r) with (bytes (P ++ Bf)) by (rewrite bytes_app; lia).
  replace (r_len r - bytes (P ++ Bf)) with (bytes S) by (rewrite bytes_app; lia).
  apply (rinv_split_range _ _ _ _ (P ++ Bf) S []); [exact H|].
  rewrite app_nil_r, <- app_assoc. exact E2.
Qed.

Lemma rinv_sub : forall T lo hi r,
  rinv T lo hi r ->
  exists r' sub, reset_buff_into_sub_reader r = Val (r', sub) /\
                 rinv T lo hi r' /\ rinv T lo hi sub /\
                 (r_start sub, r_len sub) = current_range r.
Proof.
  intros T lo hi r H.
  pose proof (rinv_reset _ _ _ _ H) as Hreset.
  destruct H as (A & P & Bf & S & B & E1 & E2 & E3 & E4 & E5 & E6 & R & L1 & L2).
  rewrite E2, !bytes_app in E4.
  destruct (new_with_range_ok Bf (r_start r + r_pos r)) as [sub Hsub].
  destruct (new_with_range_fields _ _ _ _ Hsub) as (_ & F1 & F2 & F3 & F4 & F5 & F6).
  assert (Hs : rinv T lo hi sub).
  { exists (A ++ P), [], [], Bf, (S ++ B). rewrite F1, F2, F3, F4, F5, bytes_app. cbn [app bytes].
    repeat split; try apply F6; try lia. subst T. rewrite <- !app_assoc. reflexivity. }
  unfold reset_buff_into_sub_reader, current_text, current_range, sr_start, sr_len. cbn [fst snd].
  rewrite E2, (slice_app P Bf S) by lia. rewrite <- E6, Hsub, <- E5, take_bytes_app.
  eexists _, _. split; [reflexivity|]. split; [exact Hreset|].
  destruct (last_char P); [split; [apply rinv_set_prev, Hs|cbn [set_prev r_start r_len]]|split; [exact Hs|]];
    rewrite F2, F3, E5; reflexivity.
Qed.

(** with more fuel than unread characters the loop stops for one of the reasons in the Rust
    [while] condition; each iteration bumps one character of [S] into the buffer *)
Lemma eat_go_stops : forall fuel p limit r n P Bf S,
  linv r P Bf S -> (length S < fuel)%nat ->
  is_eof (fst (eat_go fuel p limit r n)) = true \/
  p (r_cur (fst (eat_go fuel p limit r n))) = false \/
  (exists k, limit = Some k /\ k <= snd (eat_go fuel p limit r n)).
Proof.
  induction fuel as [|f IH]; intros p limit r n P Bf S HR HL; [inversion HL|].
  cbn [eat_go].
  destruct (negb (is_eof r) && p (r_cur r) && match limit with Some k => n <? k | None => true end) eqn:G.
  - rewrite !andb_true_iff, negb_true_iff in G. destruct G as [[G1 _] _].
    destruct (linv_not_eof _ _ _ _ HR G1) as (c & S' & -> & _). cbn [length] in HL.
    apply (IH p limit (bump r) (n + 1) P (Bf ++ [c]) S' (linv_bump _ _ _ _ _ HR G1)). lia.
  - cbn [fst snd]. rewrite !andb_false_iff, negb_false_iff in G. destruct G as [[G|G]|G]; [tauto..|].
    right. right. destruct limit as [k|]; [|discriminate].
    exists k. split; [reflexivity|]. apply N.ltb_ge, G.
Qed.

Lemma Forall_snoc : forall {A} (P : A -> Prop) l x, Forall P l -> P x -> Forall P (l ++ [x]).
Proof. intros. apply Forall_app. split; [assumption|]. constructor; [assumption|constructor]. Qed.

Lemma last_opt_In : forall l x, last_opt l = Some x -> In x l.
Proof.
  induction l as [|a [|b l] IH]; intros x H; [discriminate| |right; apply IH, H].
  injection H as <-. left; reflexivity.
Qed.

Lemma Forall_set_last : forall (P : item -> Prop) l x,
  Forall P l -> P x -> Forall P (set_last l x).
Proof.
  induction l as [|a [|b l] IH]; intros x Hl Hx; cbn [set_last]; [constructor|constructor; [exact Hx|constructor]|].
  inversion Hl; subst. constructor; [assumption|]. apply IH; assumption.
Qed.

Lemma item_ok_of_range : forall T lo hi rg k,
  range_ok T lo hi rg ->
  item_ok T lo hi {| i_start := sr_start rg; i_end := sr_end rg; i_kind := k |}.
Proof.
  intros T lo hi rg k (H1 & H2 & H3 & H4). unfold item_ok. cbn [i_start i_end].
  repeat split; try assumption. unfold sr_end, sr_start, sr_len. lia.
Qed.

Lemma item_ok_cover : forall T lo hi a rg,
  item_ok T lo hi a -> range_ok T lo hi rg -> item_ok T lo hi (cover a (sr_start rg) (sr_end rg)).
Proof.
  intros T lo hi a rg (A1 & A2 & A3 & A4 & A5) (H1 & H2 & H3 & H4).
  assert (H0 : sr_start rg <= sr_end rg) by (unfold sr_end, sr_start, sr_len; lia).
  unfold item_ok, cover. cbn [i_start i_end].
  destruct (N.min_spec (i_start a) (sr_start rg)) as [[M1 ->]|[M1 ->]];
  destruct (N.max_spec (i_end a) (sr_end rg)) as [[M2 ->]|[M2 ->]];
  repeat split; assumption || lia.
Qed.

Lemma emit_range_ok : forall T lo hi cursor results rg k,
  Forall (item_ok T lo hi) results -> range_ok T lo hi rg ->
  Forall (item_ok T lo hi) (emit_range cursor results rg k).
Proof.
  intros T lo hi cursor results rg k Hr Hrg. unfold emit_range.
  pose proof (Forall_snoc _ _ _ Hr (item_ok_of_range T lo hi rg k Hrg)) as Hnew.
  destruct (match cursor with Some _ => _ | None => _ end); [|exact Hr].
  destruct (last_opt results) as [lst|] eqn:L; [|exact Hnew].
  destruct (_ && _); [|exact Hnew].
  apply Forall_set_last; [exact Hr|]. apply item_ok_cover; [|exact Hrg].
  apply (proj1 (Forall_forall _ _) Hr), last_opt_In, L.
Qed.

Lemma span_range_ok : forall T lo hi a b,
  range_ok T lo hi a -> range_ok T lo hi b -> sr_start a <= sr_end b ->
  range_ok T lo hi (sr_start a, sr_end b - sr_start a).
Proof.
  intros T lo hi [sa la] [sb lb] (A1 & _ & A3 & _) (_ & B2 & _ & B4) L.
  unfold range_ok, sr_start, sr_end, sr_len in *. cbn [fst snd] in *.
  replace (sa + (sb + lb - sa)) with (sb + lb) by lia. tauto.
Qed.

Definition minv (T : text) (lo hi : N) (st : mstate) : Prop :=
  Forall (rinv T lo hi) (m_readers st) /\ Forall (item_ok T lo hi) (m_results st).

Lemma Forall_set_nth : forall {A} (P : A -> Prop) l i x,
  Forall P l -> P x -> Forall P (set_nth l i x).
Proof.
  induction l as [|a l IH]; intros i x Hl Hx; [destruct i; constructor|].
  inversion Hl; subst. destruct i; cbn [set_nth]; constructor; try assumption.
  apply IH; assumption.
Qed.

Lemma Forall_nth_error : forall {A} (P : A -> Prop) l i x,
  Forall P l -> nth_error l i = Some x -> P x.
Proof. intros A P l i x Hl Hn. apply (proj1 (Forall_forall _ _) Hl), (nth_error_In _ _ Hn). Qed.

Lemma Forall_firstn_items : forall (P : item -> Prop) n l, Forall P l -> Forall P (firstn_items n l).
Proof.
  induction n as [|n IH]; intros l H; [constructor|].
  destruct H; cbn [firstn_items]; constructor; [assumption|]. apply IH; assumption.
Qed.

(** a step panics only on the two client-side assertions: [from_start_end] with
    [start > end] (OEmitSpan) and slicing the text off a character boundary when a reader is
    created (ONew); reader operations, sub-readers and [tail_range] never panic *)
Definition may_panic (o : op) : bool :=
  match o with ONew _ _ | OEmitSpan _ _ _ => true | _ => false end.

Lemma step_ok : forall T lo hi cursor st o,
  minv T lo hi st ->
  match step T lo hi cursor st o with
  | Val st' => minv T lo hi st'
  | Nothing => True
  | Panic => may_panic o = true
  end.
Proof.
  intros T lo hi cursor st o [HR HI].
  assert (Hn : forall i r, nth_error (m_readers st) i = Some r -> rinv T lo hi r).
  { intros i r. apply Forall_nth_error, HR. }
  destruct o; cbn [step may_panic].
  - (* ONew *)
    destruct (_ && _) eqn:G; [|exact I]. rewrite !andb_true_iff, !N.leb_le in G.
    destruct (slice T a b) as [t|] eqn:S; [|reflexivity].
    destruct (new_with_range t a (b - a)) as [r| |] eqn:Nw; try reflexivity.
    split; [|exact HI]. apply Forall_snoc; [exact HR|]. eapply rinv_new; try eassumption; tauto.
  - (* OR *)
    destruct (nth_error (m_readers st) i) as [r|] eqn:Nt; [|exact I].
    pose proof (rinv_run_rop _ _ _ o _ (Hn _ _ Nt)) as H. destruct (run_rop o r) as [r' c].
    split; [|exact HI]. apply Forall_set_nth; [exact HR|exact H].
  - (* OClone *)
    destruct (nth_error (m_readers st) i) as [r|] eqn:Nt; [|exact I].
    split; [|exact HI]. apply Forall_snoc; eauto.
  - (* ORestore *)
    destruct (nth_error (m_readers st) i), (nth_error (m_readers st) j) as [rj|] eqn:Nj; try exact I.
    split; [|exact HI]. apply Forall_set_nth; eauto.
  - (* OSub *)
    destruct (nth_error (m_readers st) i) as [r|] eqn:Nt; [|exact I].
    destruct (rinv_sub _ _ _ _ (Hn _ _ Nt)) as (r' & sub & E & H1 & H2 & _). rewrite E.
    split; [|exact HI]. apply Forall_snoc; [apply Forall_set_nth|]; assumption.
  - (* OEmit *)
    destruct (nth_error (m_readers st) i) as [r|] eqn:Nt; [|exact I]. apply Hn in Nt. split.
    + apply Forall_set_nth; [exact HR|]. apply rinv_reset, Nt.
    + apply emit_range_ok; [exact HI|]. apply rinv_current_range, Nt.
  - (* OEmitSpan *)
    destruct (nth_error (m_readers st) i) as [ri|] eqn:Ni, (nth_error (m_readers st) j) as [rj|] eqn:Nj; try exact I.
    destruct (N.leb_spec (sr_start (current_range ri)) (sr_end (current_range rj))) as [L|L]; [|reflexivity].
    split; [exact HR|]. apply emit_range_ok; [exact HI|].
    apply span_range_ok; [apply rinv_current_range; eauto..|exact L].
  - (* OEmitTail *)
    destruct (nth_error (m_readers st) i) as [r|] eqn:Nt; [|exact I].
    destruct (rinv_tail_range _ _ _ _ (Hn _ _ Nt)) as (rg & E & Hrg & _). rewrite E.
    split; [exact HR|]. apply emit_range_ok; assumption.
  - (* OTruncate *)
    split; [exact HR|]. apply Forall_firstn_items, HI.
Qed.

Lemma run_ok : forall T lo hi cursor ops st,
  minv T lo hi st ->
  match run T lo hi cursor st ops with
  | Val st' => minv T lo hi st'
  | Nothing => True
  | Panic => forallb (fun o => negb (may_panic o)) ops = false
  end.
Proof.
  intros T lo hi cursor. induction ops as [|o ops IH]; intros st Hm; cbn [run forallb]; [exact Hm|].
  pose proof (step_ok T lo hi cursor st o Hm) as H.
  destruct (step T lo hi cursor st o) as [st1| |]; [|exact I|rewrite H; reflexivity].
  specialize (IH st1 H). destruct (run T lo hi cursor st1 ops); [exact IH|exact I|].
  rewrite IH. apply andb_false_r.
Qed.

Lemma minv_init : forall T lo hi, minv T lo hi init.
Proof. intros. split; constructor. Qed.

Definition key_le (a b : item) : Prop := key_leb a b = true.

Lemma key_leb_spec : forall a b,
  key_leb a b = true <->
  (i_start a < i_start b \/
   (i_start a = i_start b /\ (i_len b < i_len a \/ (i_len a = i_len b /\ nonscope a <= nonscope b)))).
Proof.
  intros a b. unfold key_leb.
  rewrite !orb_true_iff, !andb_true_iff, !orb_true_iff, !andb_true_iff.
  rewrite !N.ltb_lt, !N.eqb_eq, N.leb_le. tauto.
Qed.

Lemma key_leb_total : forall a b, key_leb a b = false -> key_leb b a = true.
Proof.
  intros a b H. apply key_leb_spec. apply not_true_iff_false in H. rewrite key_leb_spec in H. lia.
Qed.

Lemma key_le_trans : forall a b c, key_le a b -> key_le b c -> key_le a c.
Proof. unfold key_le. intros a b c. rewrite !key_leb_spec. lia. Qed.

Lemma key_le_start : forall a b, key_le a b -> i_start a <= i_start b.
Proof. unfold key_le. intros a b. rewrite key_leb_spec. lia. Qed.

Lemma insert_left_perm : forall x l, Permutation (x :: l) (insert_left x l).
Proof.
  induction l as [|a l IH]; cbn [insert_left]; [apply Permutation_refl|].
  destruct (key_leb x a); [apply Permutation_refl|].
  eapply Permutation_trans; [apply perm_swap|]. apply perm_skip. exact IH.
Qed.

Lemma sort_result_perm : forall l, Permutation l (sort_result l).
Proof.
  induction l as [|a l IH]; cbn [sort_result]; [apply Permutation_refl|].
  eapply Permutation_trans; [apply perm_skip; exact IH|]. apply insert_left_perm.
Qed.

Lemma insert_left_sorted : forall x l, Sorted key_le l -> Sorted key_le (insert_left x l).
Proof.
  induction l as [|a l IH]; intros H; cbn [insert_left].
  - constructor; constructor.
  - destruct (key_leb x a) eqn:E.
    + constructor; [exact H|]. constructor. exact E.
    + apply key_leb_total in E. inversion H as [|? ? Hs Hh]; subst. constructor; [apply IH; exact Hs|].
      destruct Hh as [|b l Hab]; cbn [insert_left]; [constructor; exact E|].
      destruct (key_leb x b); constructor; assumption.
Qed.

Lemma sort_result_sorted : forall l, Sorted key_le (sort_result l).
Proof.
  induction l as [|a l IH]; cbn [sort_result]; [constructor|].
  apply insert_left_sorted. exact IH.
Qed.

Lemma sort_result_strongly_sorted : forall l, StronglySorted key_le (sort_result l).
Proof.
  intros l. apply Sorted_StronglySorted; [|apply sort_result_sorted].
  intros a b c. apply key_le_trans.
Qed.

(** the one fact about stability that is proved: an item that is not above any item of the list
    is put in front, so it stays before the items of equal key that were after it *)
Lemma insert_left_stable_head : forall x l,
  Forall (fun a => key_leb x a = true) l -> insert_left x l = x :: l.
Proof.
  intros x l H. destruct H as [|a l Ha _]; [reflexivity|]. cbn [insert_left]. rewrite Ha. reflexivity.
Qed.

Lemma take_bytes_skip : forall p r o,
  bytes p <= o -> take_bytes (p ++ r) o = option_map (app p) (take_bytes r (o - bytes p)).
Proof.
  induction p as [|c p IH]; intros r o H; cbn [app bytes] in *.
  - rewrite N.sub_0_r. destruct (take_bytes r o); reflexivity.
  - pose proof (blen_pos c). cbn [take_bytes].
    rewrite (proj2 (N.eqb_neq o 0)), (proj2 (N.ltb_ge o (blen c))), IH by lia.
    replace (o - blen c - bytes p) with (o - (blen c + bytes p)) by lia.
    destruct (take_bytes r _); reflexivity.
Qed.

Lemma slice_of_boundaries : forall T a b,
  boundaryb T a = true -> boundaryb T b = true -> a <= b -> exists s, slice T a b = Some s.
Proof.
  intros T a b Ha Hb L. destruct (boundaryb_spec _ _ Ha) as (p & r & _ & -> & <-).
  unfold boundaryb in Hb. rewrite take_bytes_skip in Hb by exact L.
  unfold slice. rewrite (proj2 (N.ltb_ge _ _) L), drop_bytes_app.
  destruct (take_bytes r (b - bytes p)) as [s|]; [exists s; reflexivity|discriminate Hb].
Qed.

Definition tok_ok (T : text) (lo hi : N) (tk : tok) : Prop :=
  range_ok T lo hi (t_start tk, t_len tk).

(** a line is inside the region on character boundaries, or it is the sentinel [EMPTY] that
    an end-of-line token pushes when no start/detail token preceded it *)
Definition line_ok' (T : text) (lo hi : N) (l : srange) : Prop :=
  l = EMPTY \/ range_ok T lo hi l.

Lemma line_text_some : forall T lo hi l, line_ok' T lo hi l -> exists lt, line_text T l = Some lt.
Proof.
  intros T lo hi l [->|(H1 & H2 & H3 & H4)].
  - exists []. unfold line_text, slice. cbn. rewrite drop_bytes_0. apply take_bytes_0.
  - apply slice_of_boundaries; try assumption. unfold sr_end, sr_start, sr_len. lia.
Qed.

Lemma count_while_prefix : forall p (t : text) k,
  k <= count_while p t ->
  exists (w rest : text), t = w ++ rest /\ forallb p w = true /\ N.of_nat (length w) = k.
Proof.
  induction t as [|c t IH]; intros k Hk; cbn [count_while] in Hk.
  - exists [], []. repeat split. cbn. lia.
  - destruct (N.eqb_spec k 0) as [E|E]; [exists [], (c :: t); repeat split; cbn; lia|].
    destruct (p c) eqn:Pc; [|lia].
    destruct (IH (k - 1)) as (w & rest & -> & E2 & E3); [lia|].
    exists (c :: w), rest. cbn [forallb length]. rewrite Pc, E2. repeat split. lia.
Qed.

Lemma forallb_count_while : forall p (t : text), forallb p t = true -> count_while p t = N.of_nat (length t).
Proof.
  induction t as [|c t IH]; intros H; [reflexivity|].
  cbn [forallb] in H. apply andb_true_iff in H. destruct H as [Hc Ht].
  cbn [count_while length]. rewrite Hc, (IH Ht). lia.
Qed.

Lemma ascii_bytes_len : forall (w : text), forallb (fun c => c <? 128) w = true -> bytes w = N.of_nat (length w).
Proof.
  induction w as [|c w IH]; intros H; [reflexivity|].
  cbn [forallb] in H. apply andb_true_iff in H. destruct H as [Hc Hw].
  cbn [bytes length]. rewrite (ascii_blen _ Hc), (IH Hw). lia.
Qed.

Lemma forallb_impl : forall (p q : cp -> bool) w,
  (forall c, p c = true -> q c = true) -> forallb p w = true -> forallb q w = true.
Proof. intros p q w Hpq. rewrite !forallb_forall. auto. Qed.

(** TABLE OBLIGATIONS (re-checked on every run against the regenerated Gen/C37_Classes.v).
    [desc_to_lines] counts the common indentation in CHARACTERS ([take_while(is_ws).count()]) and strips
    it in BYTES ([start_offset += common_indent]); that is only correct while every [is_ws]
    character (and every [is_ascii_whitespace] character, for blank lines) is ONE byte long. *)
Lemma is_ws_chars_one_byte : forallb (fun c => blen c =? 1) is_ws_chars = true.
Proof. vm_compute. reflexivity. Qed.

Lemma ascii_ws_chars_one_byte : forallb (fun c => blen c =? 1) ascii_ws_chars = true.
Proof. vm_compute. reflexivity. Qed.

Lemma one_byte_table_ascii : forall tbl,
  forallb (fun c => blen c =? 1) tbl = true -> forall c, in_table tbl c = true -> (c <? 128) = true.
Proof.
  intros tbl Hf c Hin. apply existsb_exists in Hin. destruct Hin as (x & Hx & Hc).
  apply N.eqb_eq in Hc. subst x. rewrite forallb_forall in Hf. specialize (Hf c Hx).
  unfold blen in Hf. destruct (c <? 128); [reflexivity|].
  destruct (c <? 2048); [discriminate|]. destruct (c <? 65536); discriminate.
Qed.

Lemma dash_ascii : forall c, (c =? DASH) = true -> (c <? 128) = true.
Proof. intros c H. apply N.eqb_eq in H. subst c. reflexivity. Qed.

(** [k] counts characters, [a + k] is a byte offset: they agree because [p] only holds of one-byte characters *)
Lemma counted_prefix_boundary : forall (p : cp -> bool) (T : text) a b lt k,
  (forall c, p c = true -> (c <? 128) = true) -> slice T a b = Some lt -> k <= count_while p lt ->
  boundaryb T (a + k) = true /\ a + k <= b.
Proof.
  intros p T a b lt k Hp Hs Hk. destruct (count_while_prefix p lt k Hk) as (w & rest & -> & Hw & <-).
  destruct (slice_spec _ _ _ _ Hs) as (q & r & -> & E2 & E3 & E4).
  rewrite <- (ascii_bytes_len w) by (revert Hw; apply forallb_impl, Hp).
  rewrite bytes_app in E4. split; [|lia].
  rewrite <- (app_assoc w rest r). apply boundaryb_mid_end. lia.
Qed.

Definition dinv (T : text) (lo hi : N) (st : dstate) : Prop :=
  Forall (line_ok' T lo hi) (d_lines st) /\ line_ok' T lo hi (d_line st).

Lemma merge_ok : forall T lo hi (l : srange) tk,
  line_ok' T lo hi l -> tok_ok T lo hi tk -> sr_end l = t_start tk ->
  range_ok T lo hi (sr_start l, sr_len l + t_len tk).
Proof.
  intros T lo hi [s n] tk Hl (K1 & K2 & K3 & K4) E.
  unfold range_ok, sr_start, sr_end, sr_len in *. cbn [fst snd] in *.
  replace (s + (n + t_len tk)) with (t_start tk + t_len tk) by lia.
  destruct Hl as [Hl|(A1 & A2 & A3 & A4)]; [|tauto].
  injection Hl as -> ->. replace (t_start tk) with 0 in * by lia. repeat split; (lia || assumption).
Qed.

(** the line a start token opens: after its three dashes, or empty when it has another number of them *)
Lemma start_token_ok : forall T lo hi tk,
  tok_ok T lo hi tk ->
  exists tx, slice T (t_start tk) (t_start tk + t_len tk) = Some tx /\
    let marks := count_while (fun c => c =? DASH) tx in
    range_ok T lo hi (if negb (marks =? 3) then (t_start tk, 0) else (t_start tk + marks, t_len tk - marks)).
Proof.
  intros T lo hi tk (K1 & K2 & K3 & K4).
  unfold sr_start, sr_end, sr_len in K1, K2, K3, K4. cbn [fst snd] in K1, K2, K3, K4.
  destruct (slice_of_boundaries T _ _ K3 K4) as [tx Htx]; [lia|]. exists tx. split; [exact Htx|]. cbv zeta.
  unfold range_ok, sr_start, sr_end, sr_len.
  destruct (N.eqb_spec (count_while (fun c => c =? DASH) tx) 3) as [M|M]; cbn [negb fst snd].
  - destruct (counted_prefix_boundary (fun c => c =? DASH) _ _ _ _ 3 dash_ascii Htx) as [B1 B2]; [rewrite M; reflexivity|]. rewrite M.
    replace (t_start tk + 3 + (t_len tk - 3)) with (t_start tk + t_len tk) by lia.
    repeat split; (lia || assumption).
  - rewrite N.add_0_r. repeat split; (lia || assumption).
Qed.

Lemma handle_token_ok : forall T lo hi st tk,
  dinv T lo hi st -> tok_ok T lo hi tk ->
  exists st', handle_token T st tk = Val st' /\ dinv T lo hi st'.
Proof.
  intros T lo hi st tk [HL Hl] Htk.
  destruct (line_text_some _ _ _ _ Hl) as [lt Hlt].
  unfold handle_token. destruct (t_kind tk).
  3, 4: (* TNormalStart, TContinue *)
        destruct (start_token_ok _ _ _ _ Htk) as (tx & -> & Hrg); cbv zeta in Hrg;
        destruct (negb _); (eexists; split; [reflexivity|split; [exact HL|right; exact Hrg]]).
  - (* TDetail *)
    destruct (d_skip st); [eexists; split; [reflexivity|split; assumption]|].
    unfold sr_start at 1. cbn [fst].
    destruct (N.eqb_spec (sr_end (d_line st)) (t_start tk)) as [E|E].
    + eexists. split; [reflexivity|]. split; [exact HL|]. right. apply merge_ok; assumption.
    + destruct (srange_eqb (d_line st) EMPTY); cbn [negb]; [|rewrite Hlt];
        (eexists; split; [reflexivity|split; [|right; exact Htk]]); [exact HL|apply Forall_snoc; assumption].
  - (* TEol *)
    rewrite Hlt. eexists. split; [reflexivity|]. split; [apply Forall_snoc; assumption|left; reflexivity].
  - (* TOther *)
    eexists. split; [reflexivity|]. split; assumption.
Qed.

Lemma handle_tokens_ok : forall T lo hi tks st,
  dinv T lo hi st -> Forall (tok_ok T lo hi) tks ->
  exists st', handle_tokens T st tks = Val st' /\ dinv T lo hi st'.
Proof.
  intros T lo hi. induction tks as [|tk tks IH]; intros st Hd Ht; cbn [handle_tokens].
  - exists st. split; [reflexivity|exact Hd].
  - inversion Ht; subst.
    destruct (handle_token_ok _ _ _ _ _ Hd H1) as (st1 & -> & D1). apply IH; assumption.
Qed.

Lemma strip_front_ok : forall T lo hi ls,
  Forall (line_ok' T lo hi) ls ->
  exists r, strip_front T ls = Val r /\ Forall (line_ok' T lo hi) r.
Proof.
  intros T lo hi. induction ls as [|l ls IH]; intros H; cbn [strip_front].
  - exists []. split; [reflexivity|constructor].
  - inversion H; subst. destruct (line_text_some _ _ _ _ H2) as [lt ->].
    destruct (all_dash (trim_end lt)); [apply IH; assumption|].
    exists (l :: ls). split; [reflexivity|exact H].
Qed.

Lemma strip_back_ok : forall T lo hi ls,
  Forall (line_ok' T lo hi) ls ->
  exists r, strip_back T ls = Val r /\ Forall (line_ok' T lo hi) r.
Proof.
  intros T lo hi ls H. unfold strip_back.
  destruct (strip_front_ok T lo hi (rev ls)) as (r & -> & Hr); [apply Forall_rev; exact H|].
  exists (rev r). split; [reflexivity|]. apply Forall_rev. exact Hr.
Qed.

Definition indent_bound (T : text) (ls : list srange) (c : N) : Prop :=
  forall l lt, In l ls -> line_text T l = Some lt -> is_blank lt = false -> c <= count_while is_ws lt.

Lemma common_indent_ok : forall T lo hi ls acc,
  Forall (line_ok' T lo hi) ls ->
  exists r, common_indent T ls acc = Val r /\
    forall c, r = Some c -> indent_bound T ls c /\ (forall a, acc = Some a -> c <= a).
Proof.
  intros T lo hi. induction ls as [|l ls IH]; intros acc H; cbn [common_indent].
  - exists acc. split; [reflexivity|]. intros c ->. split; [intros l lt []|]. intros a [= ->]. lia.
  - inversion H; subst. destruct (line_text_some _ _ _ _ H2) as [lt Hlt]. rewrite Hlt.
    destruct (is_blank lt) eqn:Bl.
    + destruct (IH acc H3) as (r & E & P1). exists r. split; [exact E|].
      intros c Hc. destruct (P1 c Hc) as [Q1 Q2]. split; [|exact Q2].
      intros l' lt' [<-|Hin] Hlt' Hb; [congruence|eauto].
    + destruct (IH (Some (match acc with None => count_while is_ws lt | Some c => N.min c (count_while is_ws lt) end)) H3)
        as (r & E & P1).
      exists r. split; [exact E|]. intros c Hc. destruct (P1 c Hc) as [Q1 Q2]. specialize (Q2 _ eq_refl). split.
      * intros l' lt' [<-|Hin] Hlt' Hb; [|eauto]. rewrite Hlt in Hlt'. injection Hlt' as <-. destruct acc; lia.
      * intros a ->. lia.
Qed.

Lemma dedent_ok : forall T lo hi ls ci l,
  0 < ci -> indent_bound T ls ci -> In l ls -> line_ok' T lo hi l -> line_ok' T lo hi (dedent ci l).
Proof.
  intros T lo hi ls ci l Hci Hb Hin Hl. unfold dedent.
  destruct (N.leb_spec ci (sr_len l)) as [L|L]; [|exact Hl].
  destruct (line_text_some T lo hi l Hl) as [lt Hlt].
  destruct Hl as [->|Hr]; [cbn in L; lia|]. right. pose proof Hr as (H1 & H2 & H3 & H4).
  (* the first [ci] characters of the line are one-byte white space *)
  assert (B : boundaryb T (sr_start l + ci) = true /\ sr_start l + ci <= sr_end l).
  { destruct (is_blank lt) eqn:Bl.
    - apply (counted_prefix_boundary is_ascii_whitespace _ _ _ lt ci (one_byte_table_ascii _ ascii_ws_chars_one_byte) Hlt).
      rewrite (forallb_count_while _ _ Bl).
      rewrite <- (ascii_bytes_len lt) by (revert Bl; apply forallb_impl, (one_byte_table_ascii _ ascii_ws_chars_one_byte)).
      destruct (slice_spec _ _ _ _ Hlt) as (_ & _ & _ & _ & _ & E4).
      unfold sr_end, sr_start, sr_len in E4, L. lia.
    - apply (counted_prefix_boundary is_ws _ _ _ lt ci (one_byte_table_ascii _ is_ws_chars_one_byte) Hlt).
      eapply Hb; eassumption. }
  destruct B as [B1 B2].
  unfold range_ok, sr_start, sr_end, sr_len in *. cbn [fst snd].
  replace (fst l + ci + (snd l - ci)) with (fst l + snd l) by lia.
  repeat split; (lia || assumption).
Qed.

Lemma cut_at_cursor_ok : forall (P : srange -> Prop) c ls, Forall P ls -> Forall P (cut_at_cursor c ls).
Proof.
  intros P c. induction 1 as [|l ls Hl _ IH]; cbn [cut_at_cursor]; [constructor|].
  destruct (c <? sr_start l); constructor; assumption.
Qed.

Definition prev_toks (prev : option tok) : list tok :=
  match prev with Some p => [p] | None => [] end.

Lemma desc_to_lines_ok : forall T lo hi prev tks cursor,
  Forall (tok_ok T lo hi) (prev_toks prev ++ tks) ->
  exists ls, desc_to_lines T prev tks cursor = Val ls /\ Forall (line_ok' T lo hi) ls.
Proof.
  intros T lo hi prev tks cursor Hall.
  apply Forall_app in Hall. destruct Hall as [Hp Ht].
  unfold desc_to_lines. set (st0 := {| d_lines := []; d_line := EMPTY; d_skip := false; d_seen := false |}).
  assert (D0 : dinv T lo hi st0) by (split; [constructor|left; reflexivity]).
  set (r1 := match prev with Some _ => _ | None => _ end).
  assert (H1 : exists st1, r1 = Val st1 /\ dinv T lo hi st1).
  { subst r1. destruct prev as [p|]; [|eauto]. destruct (t_kind p); eauto.
    apply handle_token_ok; [exact D0|exact (Forall_inv Hp)]. }
  destruct H1 as (st1 & -> & D1).
  destruct (handle_tokens_ok _ _ _ _ _ D1 Ht) as (st2 & -> & DL & Dl).
  destruct (line_text_some _ _ _ _ Dl) as [lt ->].
  set (fin := if negb _ then _ else _).
  assert (Hfin : exists lines seen, fin = Val (lines, seen) /\ Forall (line_ok' T lo hi) lines).
  { subst fin. destruct (negb _); eexists _, _; (split; [reflexivity|]); [apply Forall_snoc|]; assumption. }
  destruct Hfin as (lines & seen & -> & HL).
  destruct (negb seen); [exists []; split; [reflexivity|constructor]|].
  destruct (strip_front_ok _ _ _ _ HL) as (l1 & -> & H4).
  destruct (strip_back_ok _ _ _ _ H4) as (l2 & -> & H5).
  destruct (common_indent_ok T lo hi l2 None H5) as (ci & -> & P1).
  eexists. split; [reflexivity|].
  set (l3 := if 0 <? _ then _ else _).
  assert (H6 : Forall (line_ok' T lo hi) l3).
  { subst l3. destruct ci as [c|]; [|exact H5]. destruct (N.ltb_spec 0 c) as [L|L]; [|exact H5].
    apply Forall_map, Forall_forall. intros l Hin.
    apply (dedent_ok T lo hi l2 c l L (proj1 (P1 c eq_refl)) Hin), (proj1 (Forall_forall _ _) H5), Hin. }
  destruct cursor as [c|]; [apply cut_at_cursor_ok|]; exact H6.
Qed.

Lemma reader_range_in_bounds : forall (T : text) (lo hi : N) (cursor : option N) (ops : list op) (st : mstate),
  run T lo hi cursor init ops = Val st ->
  forall r, In r (m_readers st) ->
    (range_ok T lo hi (current_range r) /\ in_own_range r (current_range r)) /\
    (exists rg, tail_range r = Val rg /\ range_ok T lo hi rg /\ in_own_range r rg).
Proof.
  intros T lo hi cursor ops st H r Hin.
  pose proof (run_ok T lo hi cursor ops init (minv_init T lo hi)) as Hm. rewrite H in Hm.
  destruct Hm as [HR _].
  pose proof (proj1 (Forall_forall _ _) HR r Hin) as Hr.
  split; [apply rinv_current_range; exact Hr|apply rinv_tail_range; exact Hr].
Qed.

Lemma emitted_items_in_bounds : forall (T : text) (lo hi : N) (cursor : option N) (ops : list op) (st : mstate),
  run T lo hi cursor init ops = Val st -> Forall (item_ok T lo hi) (m_results st).
Proof.
  intros T lo hi cursor ops st H.
  pose proof (run_ok T lo hi cursor ops init (minv_init T lo hi)) as Hm. rewrite H in Hm. exact (proj2 Hm).
Qed.

Lemma kernel_never_panics : forall (T : text) (lo hi : N) (cursor : option N) (ops : list op),
  forallb (fun o => negb (may_panic o)) ops = true -> run T lo hi cursor init ops <> Panic.
Proof.
  intros T lo hi cursor ops Hf E.
  pose proof (run_ok T lo hi cursor ops init (minv_init T lo hi)) as H. rewrite E in H. congruence.
Qed.

Lemma eat_loops_complete : forall (T : text) (lo hi : N) (r : reader) (p : cp -> bool) (limit : option N),
  rinv T lo hi r ->
  is_eof (fst (eat_go (loop_fuel r) p limit r 0)) = true \/
  p (r_cur (fst (eat_go (loop_fuel r) p limit r 0))) = false \/
  (exists k, limit = Some k /\ k <= snd (eat_go (loop_fuel r) p limit r 0)).
Proof.
  intros T lo hi r p limit H. destruct (rinv_linv _ _ _ _ H) as [P [Bf [S LI]]].
  apply (eat_go_stops _ p limit r 0 P Bf S LI).
  destruct LI as (_ & _ & _ & _ & _ & R3). unfold loop_fuel. rewrite R3.
  destruct S as [|x [|y S]]; cbn [tl length]; lia.
Qed.

Lemma sort_result_starts_sorted : forall (l : list item),
  StronglySorted (fun a b => i_start a <= i_start b) (sort_result l).
Proof.
  intros l. induction (sort_result_strongly_sorted l) as [|a s _ IH Hf]; constructor; [exact IH|].
  revert Hf. apply Forall_impl. exact (key_le_start a).
Qed.

Lemma sort_result_in_bounds : forall (T : text) (lo hi : N) (l : list item),
  Forall (item_ok T lo hi) l -> Forall (item_ok T lo hi) (sort_result l).
Proof.
  intros T lo hi l H. eapply Permutation_Forall; [apply sort_result_perm|exact H].
Qed.
