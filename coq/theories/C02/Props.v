(** C02/Props.v — property theorems only ("parsing never crashes or hangs").
    Each is closed by [exact] of a lemma of Proofs.v.

    PROVED (for all inputs / all clients / all call trees):
      - chunk_terminates: the progress guard of parse_chunk bounds the loop by the number of tokens for
        EVERY statement parser that uses the parser API;
      - stack_frames_bounded: with the recursion guard (enter_level at MAX_NESTING_LEVEL) and the call
        graph regenerated from today's source, EVERY run of the descent has at most (LIMIT+1)*(K+1)
        frames — the obligation graph_guards_every_cycle is re-proved on the regenerated graph;
      - pump_cost_linear: token-array reads are linear in the distance the parser advances;
      - depth_eq_nesting: the nesting level of n-fold nesting is base + k*n in the token-level model.
    REFUTED (kept visible): without the guards the loop need not end (guard_needed_refuted) and the
    frames are unbounded (stack_unbounded_without_guard); flat input yields trees of unbounded height
    (tree_height_unbounded_refuted) — the open finding: rowan drops and hashes trees recursively.
    EXPLORATION only (not proved, see checks/C02.py): bytes of stack per frame, wall-clock, rowan. *)
From Coq Require Import List Arith Bool String.
Import ListNotations.
From EV Require Import C02.Model C02.Proofs Gen.C02_Graph.
From EV Require C03.Syntax C03.Model C03.Spec C03.Proofs C03.Corr C03.Props.

(** (i) for every client, parse_chunk's loop runs at most |tokens| iterations and ends at or after the
    last token *)
Theorem chunk_terminates : forall (s : stream) (c : client) (idx : nat),
  exists k fin, chunk (S (len s - idx)) s c 0 idx = Some (k, fin) /\ k <= len s - idx /\ len s <= fin.
Proof. exact Proofs.chunk_terminates. Qed.

(** ... and it is the guard that does it: without it a client that consumes nothing loops forever *)
Theorem guard_needed_refuted :
  exists (s : stream) (c : client), forall fuel, chunk_noguard fuel s c 0 0 = None.
Proof. exact Proofs.guard_needed_refuted. Qed.

(** (ii) table obligation on the regenerated call graph: every call edge between two unguarded functions
    strictly decreases the rank, i.e. every cycle of the descent passes through a guarded function *)
Theorem graph_guards_every_cycle :
  ranks_decrease (guarded_of funs) (rank_of funs) edges = true.
Proof. exact Proofs.graph_guards_every_cycle. Qed.

(** every run of the guarded descent (any call tree over the regenerated graph that respects the
    guard) keeps at most (LIMIT + 1) * (K + 1) frames on the stack *)
Theorem stack_frames_bounded : forall t : ctree,
  respects LIMIT (guarded_of funs) (edge_of edges) 0 t = true ->
  frames t <= S LIMIT * S (K_of funs).
Proof. exact Proofs.stack_frames_bounded. Qed.

(** the code before the guard: without guarded functions the frames are unbounded *)
Theorem stack_unbounded_without_guard : forall LIMIT B, exists t,
  respects LIMIT (fun _ => false) (fun _ _ => true) 0 t = true /\ frames t > B.
Proof. exact Proofs.unguarded_unbounded. Qed.

(** (iii) with at most P look-aheads between two bumps (grammar/lua: peek_next_token only), the token
    pump costs at most (P + 2) array reads per token advanced, plus the look-ahead past the end *)
Theorem pump_cost_linear : forall (P : nat) (s : stream) (ops : list op) (idx : nat),
  lookahead_ok P 0 P ops = true -> (forall n, ~ In (PeekNth n) ops) ->
  ops_cost s idx ops
  <= (P + 2) * (run_ops s idx ops - idx) + P * (1 + skip s (run_ops s idx ops + 1)).
Proof. exact Proofs.pump_cost_linear. Qed.

(** token-level model: n-fold nesting needs base + k*n levels (k = 1 for parentheses, unary operators,
    right operands and table constructors, k = 2 for function bodies) *)
Theorem depth_eq_nesting : forall (n : nat) (e : Syntax.tree),
  Model.nlev false (nest w_paren n e) = 1 * n + Model.nlev false e /\
  Model.nlev false (nest w_unary n e) = 1 * n + Model.nlev false e /\
  Model.nlev false (nest w_concat n e) = 1 * n + Model.nlev false e /\
  Model.nlev false (nest w_table n e) = 1 * n + Model.nlev false e /\
  Model.nlev false (nest w_func n e) = 2 * n + Model.nlev false e.
Proof. exact Proofs.depth_eq_nesting. Qed.

(** flat input, deep tree: 1 + 1 + ... + 1 is accepted at nesting level 2 and its tree is as high as
    one likes — what a recursive drop / hash of the tree (rowan) needs is not bounded by the guard *)
Theorem tree_height_unbounded_refuted : forall B : nat, exists (ts : list Syntax.tok) (t : Syntax.tree),
  (exists n, forall fuel, n <= fuel -> Corr.gen_expr Syntax.Lua54 fuel ts = Model.Ok t []) /\
  Syntax.height t > B /\ List.length ts = 2 * B + 1.
Proof. exact Proofs.tree_height_unbounded. Qed.

(** non-vacuity: the regenerated graph is not trivial, the bound is a number, and a small run respects
    the guard *)
Example graph_example :
  1 < LIMIT /\ 100 < List.length funs /\ 4 = List.length (filter fguard funs) /\ K_of funs <= 64
  /\ respects 2 (fun f => Nat.eqb f 0) (fun _ _ => true) 0 (CNode 0 [CNode 1 [CNode 0 [CNode 1 [CNode 0 []]]]]) = true
  /\ respects 2 (fun f => Nat.eqb f 0) (fun _ _ => true) 0 (CNode 0 [CNode 1 [CNode 0 [CNode 1 [CNode 0 [CNode 1 []]]]]]) = false
  /\ chunk 5 {| len := 3; skip := fun _ => 0 |} (fun k _ => if Nat.eqb k 1 then [Bump; Bump] else [Mark; PushError]) 0 0 = Some (2, 3).
Proof. exact Proofs.graph_example. Qed.
