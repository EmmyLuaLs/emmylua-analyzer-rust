(** C02/Proofs.v — lemmas for the progress guard, the recursion guard and the token pump. *)
From Coq Require Import List Arith Lia Bool String.
Import ListNotations.
From EV Require Import C02.Model.

(** * (i) progress guard *)

Lemma exec_op_ge : forall s idx o, idx <= exec_op s idx o.
Proof. intros s idx o. destruct o; cbn [exec_op]; unfold bump; lia. Qed.

Lemma run_ops_ge : forall s ops idx, idx <= run_ops s idx ops.
Proof.
  intros s ops. unfold run_ops. induction ops as [|o r IH]; intros idx; cbn [fold_left].
  - lia.
  - specialize (IH (exec_op s idx o)). pose proof (exec_op_ge s idx o). lia.
Qed.

Lemma bump_gt : forall s idx, idx < bump s idx.
Proof. intros. unfold bump. lia. Qed.

Lemma chunk_terminates_gen : forall fuel s c k idx,
  len s - idx < fuel ->
  exists k' fin, chunk fuel s c k idx = Some (k', fin) /\ k' <= k + (len s - idx) /\ len s <= fin.
Proof.
  induction fuel as [|f IH]; intros s c k idx Hf.
  - lia.
  - cbn [chunk]. unfold at_eof. destruct (Nat.leb_spec (len s) idx) as [Hle|Hlt].
    + exists k, idx. split; [reflexivity|]. split; lia.
    + set (idx1 := run_ops s idx (c k idx)).
      assert (H1 : idx <= idx1) by apply run_ops_ge.
      set (idx2 := if idx1 =? idx then bump s idx else idx1).
      assert (H2 : idx < idx2).
      { subst idx2. destruct (Nat.eqb_spec idx1 idx) as [E|E]; [apply bump_gt|lia]. }
      destruct (IH s c (S k) idx2) as (k' & fin & Hc & Hk & Hfin); [lia|].
      exists k', fin. split; [exact Hc|]. split; lia.
Qed.

Lemma chunk_terminates : forall (s : stream) (c : client) (idx : nat),
  exists k fin, chunk (S (len s - idx)) s c 0 idx = Some (k, fin) /\ k <= len s - idx /\ len s <= fin.
Proof.
  intros s c idx. destruct (chunk_terminates_gen (S (len s - idx)) s c 0 idx) as (k & fin & H & Hk & Hf); [lia|].
  exists k, fin. split; [exact H|]. split; lia.
Qed.

Lemma chunk_fuel_mono : forall fuel s c k idx r,
  chunk fuel s c k idx = Some r -> forall fuel', fuel <= fuel' -> chunk fuel' s c k idx = Some r.
Proof.
  induction fuel as [|f IH]; intros s c k idx r H fuel' Hle.
  - discriminate.
  - destruct fuel' as [|f']; [lia|]. cbn [chunk] in *. destruct (at_eof s idx); [exact H|].
    apply IH with (fuel' := f') in H; [exact H|lia].
Qed.

(** a client that consumes nothing never lets the unguarded loop end *)
Definition lazy_client : client := fun _ _ => [Mark; PeekNext; PushError; Complete].
Definition one_token : stream := {| len := 1; skip := fun _ => 0 |}.

Lemma chunk_noguard_diverges : forall fuel k, chunk_noguard fuel one_token lazy_client k 0 = None.
Proof. induction fuel as [|f IH]; intros k; [reflexivity|]. cbn [chunk_noguard]. cbn. apply IH. Qed.

Lemma guard_needed_refuted :
  exists (s : stream) (c : client), forall fuel, chunk_noguard fuel s c 0 0 = None.
Proof. exists one_token, lazy_client. intros fuel. apply chunk_noguard_diverges. Qed.

(** ... while the guarded loop ends after one iteration on the same client *)
Lemma guard_example : chunk 2 one_token lazy_client 0 0 = Some (1, 1).
Proof. reflexivity. Qed.

(** * (ii) recursion guard *)

Lemma ctree_ind2 (P : ctree -> Prop) :
  (forall f kids, Forall P kids -> P (CNode f kids)) -> forall t, P t.
Proof.
  intros H. fix IH 1. intros [f kids]. apply H.
  induction kids as [|a r IHr]; constructor; [apply IH|exact IHr].
Qed.

Lemma fold_max_le : forall (A : Type) (g : A -> nat) (l : list A) (b : nat),
  (forall x, In x l -> g x <= b) -> fold_right (fun k m => Nat.max (g k) m) 0 l <= b.
Proof.
  intros A g l b H. induction l as [|a r IH]; cbn [fold_right]; [lia|].
  assert (g a <= b) by (apply H; left; reflexivity).
  assert (fold_right (fun k m => Nat.max (g k) m) 0 r <= b) by (apply IH; intros x Hx; apply H; right; exact Hx).
  lia.
Qed.

Section GuardProofs.
  Variable LIMIT : nat.
  Variable guarded : nat -> bool.
  Variable rank : nat -> nat.
  Variable edge : nat -> nat -> bool.
  Variable K : nat.
  Hypothesis rank_dec : forall u v, edge u v = true -> guarded u = false -> guarded v = false -> rank v < rank u.
  Hypothesis rank_lt : forall u, guarded u = false -> rank u < K.

  Definition head_cost (t : ctree) : nat :=
    match t with CNode f _ => if guarded f then 1 else rank f + 2 end.

  Lemma head_cost_le : forall t, head_cost t <= S K.
  Proof. intros [g gk]. cbn [head_cost]. destruct (guarded g) eqn:Gg; [lia|]. pose proof (rank_lt g Gg). lia. Qed.

  Lemma frames_bound_gen : forall t lvl,
    respects LIMIT guarded edge lvl t = true ->
    frames t <= head_cost t + (LIMIT - lvl) * S K.
  Proof.
    induction t as [f kids IH] using ctree_ind2. intros lvl Hr.
    cbn [respects] in Hr. apply andb_true_iff in Hr. destruct Hr as [Hedges Hr].
    cbn [frames head_cost]. rewrite Forall_forall in IH. rewrite forallb_forall in Hedges.
    destruct (guarded f) eqn:Gf.
    - destruct (Nat.leb_spec LIMIT lvl) as [Hge|Hlt].
      + destruct kids; [cbn; lia|discriminate].
      + rewrite forallb_forall in Hr.
        assert (Hk : fold_right (fun k m => Nat.max (frames k) m) 0 kids <= S K + (LIMIT - S lvl) * S K).
        { apply fold_max_le. intros x Hx. specialize (IH x Hx (S lvl)).
          assert (Hx' : frames x <= head_cost x + (LIMIT - S lvl) * S K) by (apply IH, Hr, Hx).
          pose proof (head_cost_le x). lia. }
        replace (LIMIT - lvl) with (S (LIMIT - S lvl)) by lia. cbn [Nat.mul]. lia.
    - rewrite forallb_forall in Hr.
      assert (Hk : fold_right (fun k m => Nat.max (frames k) m) 0 kids <= rank f + 1 + (LIMIT - lvl) * S K).
      { apply fold_max_le. intros x Hx. specialize (IH x Hx lvl (Hr x Hx)).
        assert (head_cost x <= rank f + 1).
        { destruct x as [g gk]. cbn [head_cost]. destruct (guarded g) eqn:Gg; [lia|].
          specialize (Hedges _ Hx). cbn in Hedges. pose proof (rank_dec f g Hedges Gf Gg). lia. }
        lia. }
      lia.
  Qed.

  Lemma frames_bounded : forall t,
    respects LIMIT guarded edge 0 t = true -> frames t <= S LIMIT * S K.
  Proof.
    intros t Hr. pose proof (frames_bound_gen t 0 Hr) as H.
    pose proof (head_cost_le t).
    replace (LIMIT - 0) with LIMIT in H by lia. cbn [Nat.mul]. lia.
  Qed.
End GuardProofs.

Lemma max_rank_ge : forall rank ids i, In i ids -> rank i <= max_rank rank ids.
Proof.
  intros rank ids i. unfold max_rank. induction ids as [|a r IH]; intros Hin; [destruct Hin|].
  cbn [fold_right]. destruct Hin as [->|Hin]; [lia|]. specialize (IH Hin). lia.
Qed.

Lemma rank_of_lt_K : forall funs u, rank_of funs u < K_of funs.
Proof.
  intros funs u. unfold K_of.
  destruct (find (fun e => fid e =? u) funs) as [e|] eqn:F.
  - assert (Hu : fid e = u) by (apply find_some in F; destruct F as [_ Heq]; apply Nat.eqb_eq in Heq; exact Heq).
    assert (Hin : In u (ids_of funs)).
    { apply find_some in F. destruct F as [Hin _]. unfold ids_of. rewrite <- Hu. apply in_map. exact Hin. }
    pose proof (max_rank_ge (rank_of funs) (ids_of funs) u Hin). lia.
  - unfold rank_of at 1. rewrite F. lia.
Qed.

Lemma graph_rank_dec : forall funs edges,
  ranks_decrease (guarded_of funs) (rank_of funs) edges = true ->
  forall u v, edge_of edges u v = true -> guarded_of funs u = false -> guarded_of funs v = false ->
  rank_of funs v < rank_of funs u.
Proof.
  intros funs edges H u v He Gu Gv. unfold ranks_decrease in H. rewrite forallb_forall in H.
  unfold edge_of in He. apply existsb_exists in He. destruct He as [[a b] [Hin Hab]].
  apply andb_true_iff in Hab. destruct Hab as [Ha Hb]. apply Nat.eqb_eq in Ha. apply Nat.eqb_eq in Hb. subst a b.
  specialize (H _ Hin). cbn in H. rewrite Gu, Gv in H. cbn in H. apply Nat.ltb_lt in H. exact H.
Qed.

Lemma graph_frames_bounded : forall LIMIT funs edges,
  ranks_decrease (guarded_of funs) (rank_of funs) edges = true ->
  forall t, respects LIMIT (guarded_of funs) (edge_of edges) 0 t = true ->
  frames t <= S LIMIT * S (K_of funs).
Proof.
  intros LIMIT funs edges H t Hr.
  apply (frames_bounded LIMIT (guarded_of funs) (rank_of funs) (edge_of edges) (K_of funs)); [| |exact Hr].
  - apply graph_rank_dec. exact H.
  - intros u _. apply rank_of_lt_K.
Qed.

(** without the guard ([guarded] nowhere true) a call tree may be as deep as one likes:
    a chain of n activations of one self-recursive function *)
Fixpoint chain (n : nat) : ctree :=
  match n with 0 => CNode 0 [] | S m => CNode 0 [chain m] end.

Lemma chain_frames : forall n, frames (chain n) = S n.
Proof. induction n as [|n IH]; cbn [chain frames fold_right]; [reflexivity|]. rewrite IH. lia. Qed.

Lemma chain_respects_unguarded : forall LIMIT n lvl,
  respects LIMIT (fun _ => false) (fun _ _ => true) lvl (chain n) = true.
Proof.
  intros LIMIT. induction n as [|n IH]; intros lvl; [reflexivity|].
  cbn [chain respects forallb]. rewrite IH.
  (* the edge test is a [match] on the child: it reduces once the child is a constructor *)
  destruct (chain n); reflexivity.
Qed.

Lemma unguarded_unbounded : forall LIMIT B, exists t,
  respects LIMIT (fun _ => false) (fun _ _ => true) 0 t = true /\ frames t > B.
Proof.
  intros LIMIT B. exists (chain B). split; [apply chain_respects_unguarded|]. rewrite chain_frames. lia.
Qed.

(** * (iii) token pump *)

Lemma pump_cost_gen : forall P s ops idx b,
  b <= P -> lookahead_ok P 0 b ops = true ->
  (forall n, ~ In (PeekNth n) ops) ->
  ops_cost s idx ops + (P - b) * (1 + skip s (idx + 1))
  <= (P + 2) * (run_ops s idx ops - idx) + P * (1 + skip s (run_ops s idx ops + 1)).
Proof.
  intros P s ops. induction ops as [|o r IH]; intros idx b Hb Hok Hnth.
  - cbn [ops_cost run_ops fold_left]. replace (idx - idx) with 0 by lia.
    assert ((P - b) * (1 + skip s (idx + 1)) <= P * (1 + skip s (idx + 1))) by (apply Nat.mul_le_mono_r; lia). lia.
  - assert (Hnth' : forall n, ~ In (PeekNth n) r) by (intros n Hin; apply (Hnth n); right; exact Hin).
    change (run_ops s idx (o :: r)) with (run_ops s (exec_op s idx o) r).
    pose proof (run_ops_ge s r (exec_op s idx o)) as Hge.
    cbn [ops_cost].
    destruct o; cbn [lookahead_ok] in Hok;
      try (cbn [op_cost exec_op] in *; specialize (IH idx b Hb Hok Hnth'); lia).
    + (* Bump *)
      cbn [op_cost exec_op] in *. specialize (IH (bump s idx) P (Nat.le_refl _) Hok Hnth').
      replace (P - P) with 0 in IH by lia.
      assert (Hb2 : bump s idx = idx + 1 + skip s (idx + 1)) by reflexivity.
      assert ((P - b) * (1 + skip s (idx + 1)) <= P * (1 + skip s (idx + 1))) by (apply Nat.mul_le_mono_r; lia).
      set (fin := run_ops s (bump s idx) r) in *.
      assert (Hd : fin - idx = (fin - bump s idx) + (1 + skip s (idx + 1))) by lia.
      rewrite Hd. rewrite Nat.mul_add_distr_l. nia.
    + (* PeekNext *)
      cbn [op_cost exec_op] in *. destruct b as [|b']; [discriminate|].
      specialize (IH idx b' ltac:(lia) Hok Hnth').
      replace (P - b') with (S (P - S b')) in IH by lia. cbn [Nat.mul] in IH. lia.
    + (* PeekNth *)
      exfalso. apply (Hnth n). left. reflexivity.
Qed.

Lemma pump_cost_linear : forall (P : nat) (s : stream) (ops : list op) (idx : nat),
  lookahead_ok P 0 P ops = true -> (forall n, ~ In (PeekNth n) ops) ->
  ops_cost s idx ops
  <= (P + 2) * (run_ops s idx ops - idx) + P * (1 + skip s (run_ops s idx ops + 1)).
Proof.
  intros P s ops idx Hok Hnth. pose proof (pump_cost_gen P s ops idx P (Nat.le_refl _) Hok Hnth) as H. lia.
Qed.

(** * token-level nesting: levels of the model's trees (C03.Model.nlev) *)
From EV Require Import C03.Syntax C03.Model.

Fixpoint nest (w : tree -> tree) (n : nat) (e : tree) : tree :=
  match n with 0 => e | S k => w (nest w k e) end.

Definition w_paren (e : tree) : tree := N KParen [L TLParen; e; L TRParen].
Definition w_unary (e : tree) : tree := N KUnary [L TMinus; e].
Definition w_concat (e : tree) : tree := N KBinary [N KLiteral [L TInt]; L TConcat; e].
Definition w_table (e : tree) : tree := N KTable [L TLBrace; N KFieldValue [e]; L TRBrace].
Definition w_func (e : tree) : tree :=
  N KClosure [L TFunction; N KParamList [L TLParen; L TRParen]; N KBlock [N KReturn [L TReturn; e]]; L TEnd].
Definition w_plus (e : tree) : tree := N KBinary [e; L TPlus; N KLiteral [L TInt]].

Lemma depth_eq_nesting_gen : forall (w : tree -> tree) (k : nat),
  (forall e, nlev false (w e) = k + nlev false e) ->
  forall n e, nlev false (nest w n e) = k * n + nlev false e.
Proof.
  intros w k Hw. induction n as [|n IH]; intros e; cbn [nest]; [lia|]. rewrite Hw, IH. lia.
Qed.

(** a left-associative chain adds NO level (the parser loops) but one level of tree per link *)
Lemma nlev_plus_inside : forall e, nlev true (w_plus e) = Nat.max (nlev true e) 1.
Proof. intros e. reflexivity. Qed.

Lemma height_plus : forall e, height (w_plus e) = S (Nat.max (height e) 2).
Proof. intros e. cbn. lia. Qed.

Lemma depth_eq_nesting : forall (n : nat) (e : tree),
  nlev false (nest w_paren n e) = 1 * n + nlev false e /\
  nlev false (nest w_unary n e) = 1 * n + nlev false e /\
  nlev false (nest w_concat n e) = 1 * n + nlev false e /\
  nlev false (nest w_table n e) = 1 * n + nlev false e /\
  nlev false (nest w_func n e) = 2 * n + nlev false e.
Proof.
  intros n e. repeat split; apply depth_eq_nesting_gen; intros e'; cbn; lia.
Qed.

From EV Require C03.Proofs C03.Corr C03.Props Gen.C02_Graph.

Lemma tree_height_unbounded : forall B : nat, exists (ts : list tok) (t : tree),
  (exists n, forall fuel, n <= fuel -> C03.Corr.gen_expr Lua54 fuel ts = Ok t []) /\
  height t > B /\ List.length ts = 2 * B + 1.
Proof.
  intros B. exists (C03.Proofs.plus_toks B), (C03.Proofs.plus_tree B). split; [|split].
  - apply (C03.Props.expr_complete Lua54 2); [apply C03.Proofs.plus_chain_E|].
    unfold Gen.C02_Graph.LIMIT. lia.
  - rewrite C03.Proofs.plus_tree_height. lia.
  - apply C03.Proofs.plus_toks_length.
Qed.

(** The translator numbers the functions by their position in [funs].  A table of that shape can be
    read by position; the lookups by id compare unary numbers along the whole table for every edge, so
    evaluating [ranks_decrease] on the generated graph directly is quadratic in the table. *)
Section Positional.
  Variable funs : list fun_entry.
  Hypothesis Hpos : map fid funs = seq 0 (List.length funs).

  Lemma fid_nth : forall i e, nth_error funs i = Some e -> fid e = i.
  Proof.
    intros i e H. apply (map_nth_error fid) in H. rewrite Hpos in H.
    assert (Hi : i < List.length funs).
    { rewrite <- (seq_length (List.length funs) 0). apply nth_error_Some. rewrite H. discriminate. }
    apply (nth_error_nth _ _ 0) in H. rewrite seq_nth in H by exact Hi. symmetry. exact H.
  Qed.

  Lemma entry_at_id : forall e, In e funs -> nth_error funs (fid e) = Some e.
  Proof. intros e Hin. destruct (In_nth_error _ _ Hin) as [j Hj]. rewrite (fid_nth _ _ Hj). exact Hj. Qed.

  Lemma rank_of_nth : forall i e, nth_error funs i = Some e -> rank_of funs i = frank e.
  Proof.
    intros i e H. unfold rank_of. destruct (find _ funs) as [e'|] eqn:F.
    - apply find_some in F. destruct F as [Hin Heq]. apply Nat.eqb_eq in Heq. subst i.
      rewrite (entry_at_id _ Hin) in H. injection H as ->. reflexivity.
    - pose proof (find_none _ _ F e (nth_error_In _ _ H)) as Hn. cbv beta in Hn.
      rewrite (fid_nth _ _ H), Nat.eqb_refl in Hn. discriminate.
  Qed.

  Lemma guarded_of_nth : forall i e, nth_error funs i = Some e -> guarded_of funs i = fguard e.
  Proof.
    intros i e H. unfold guarded_of. apply eq_true_iff_eq. rewrite existsb_exists. split.
    - intros (e' & Hin & Hb). apply andb_true_iff in Hb. destruct Hb as [Hid Hg]. apply Nat.eqb_eq in Hid. subst i.
      rewrite (entry_at_id _ Hin) in H. injection H as <-. exact Hg.
    - intros Hg. exists e. split; [exact (nth_error_In _ _ H)|]. rewrite (fid_nth _ _ H), Nat.eqb_refl. exact Hg.
  Qed.

  Lemma max_rank_positional : max_rank (rank_of funs) (ids_of funs) = fold_right (fun e m => Nat.max (frank e) m) 0 funs.
  Proof.
    unfold max_rank, ids_of.
    assert (H : forall l, incl l funs ->
                fold_right (fun i m => Nat.max (rank_of funs i) m) 0 (map fid l) = fold_right (fun e m => Nat.max (frank e) m) 0 l).
    { induction l as [|e l IH]; intros Hl; [reflexivity|]. cbn [map fold_right].
      rewrite (rank_of_nth _ _ (entry_at_id _ (Hl e (in_eq e l)))), IH; [reflexivity|].
      intros x Hx. apply Hl. right. exact Hx. }
    apply H. apply incl_refl.
  Qed.

  Definition edge_ok (uv : nat * nat) : bool :=
    match nth_error funs (fst uv), nth_error funs (snd uv) with
    | Some a, Some b => fguard a || fguard b || (frank b <? frank a)
    | _, _ => false
    end.

  Lemma ranks_decrease_by_position : forall edges,
    forallb edge_ok edges = true -> ranks_decrease (guarded_of funs) (rank_of funs) edges = true.
  Proof.
    intros edges H. unfold ranks_decrease. rewrite forallb_forall in *. intros [u v] Hin.
    specialize (H _ Hin). unfold edge_ok in H. cbn [fst snd] in H.
    destruct (nth_error funs u) as [a|] eqn:Ha; [|discriminate].
    destruct (nth_error funs v) as [b|] eqn:Hb; [|discriminate].
    rewrite (guarded_of_nth _ _ Ha), (guarded_of_nth _ _ Hb), (rank_of_nth _ _ Ha), (rank_of_nth _ _ Hb).
    destruct (fguard a || fguard b); [reflexivity|exact H].
  Qed.
End Positional.

Lemma graph_guards_every_cycle :
  ranks_decrease (guarded_of Gen.C02_Graph.funs) (rank_of Gen.C02_Graph.funs) Gen.C02_Graph.edges = true.
Proof.
  apply ranks_decrease_by_position.
  - vm_compute; reflexivity.
  - vm_compute; reflexivity.
Qed.

Lemma stack_frames_bounded : forall t : ctree,
  respects Gen.C02_Graph.LIMIT (guarded_of Gen.C02_Graph.funs) (edge_of Gen.C02_Graph.edges) 0 t = true ->
  frames t <= S Gen.C02_Graph.LIMIT * S (K_of Gen.C02_Graph.funs).
Proof. exact (graph_frames_bounded Gen.C02_Graph.LIMIT Gen.C02_Graph.funs Gen.C02_Graph.edges graph_guards_every_cycle). Qed.

Lemma graph_example :
  1 < Gen.C02_Graph.LIMIT /\ 100 < List.length Gen.C02_Graph.funs /\ 4 = List.length (filter fguard Gen.C02_Graph.funs)
  /\ K_of Gen.C02_Graph.funs <= 64
  /\ respects 2 (fun f => Nat.eqb f 0) (fun _ _ => true) 0 (CNode 0 [CNode 1 [CNode 0 [CNode 1 [CNode 0 []]]]]) = true
  /\ respects 2 (fun f => Nat.eqb f 0) (fun _ _ => true) 0 (CNode 0 [CNode 1 [CNode 0 [CNode 1 [CNode 0 [CNode 1 []]]]]]) = false
  /\ EV.C02.Model.chunk 5 {| len := 3; skip := fun _ => 0 |} (fun k _ => if Nat.eqb k 1 then [Bump; Bump] else [Mark; PushError]) 0 0 = Some (2, 3).
Proof.
  split; [unfold Gen.C02_Graph.LIMIT; lia|]. split; [vm_compute; lia|]. split; [vm_compute; reflexivity|].
  split; [unfold K_of; rewrite max_rank_positional by reflexivity; vm_compute; lia|]. vm_compute. repeat split; reflexivity.
Qed.
